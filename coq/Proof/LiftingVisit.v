(** C01, LIFTING - from the simulation (Proof/LiftingSim.v) to whole programs:
    - [cong_*]/[crel_*] are reflexive;
    - the traversal [DefaultRules.visit] relates every tree to its image ([visit_ok]) as soon as
      each hook relates a node to what it leaves there, in the form "whatever is congruent to the
      hook's result is [crel]-related to the node" ([hooks_ok]; the traversal is pre-order: the
      hook first, then the children of the hook's RESULT);
    - related chunks have the same [run_chunk] outcome at the same fuel ([crel_run_chunk]);
    - the combination [lifting_apply_hooks], and its instance at the largest base relations
      ([lifting_refining_hooks]), which is what the rules use. *)
From Coq Require Import ZArith NArith List Bool String Lia.
From DL Require Import Lib.Bytes Lib.F64 Lua.Syntax Lua.Sem Model.DefaultRules.
From DL Require Import Proof.LoweringFuel.
From DL Require Import Proof.ListFacts Proof.SemFacts Proof.DefaultRulesSem.
From DL Require Import Proof.LiftingDefs Proof.LiftingSim.
Import ListNotations.
Open Scope N_scope.

Section Visit.
Variable Re : expr -> expr -> Prop.
Variable Rv : expr -> expr -> Prop.
Variable Rt : list tentry -> list tentry -> Prop.
Variable Rs : stmt -> stmt -> Prop.
Variable Rb : block -> block -> Prop.

Local Notation cE := (crel_expr Re Rv Rt Rs Rb).
Local Notation gE := (cong_expr Re Rv Rt Rs Rb).
Local Notation cV := (crel_var Re Rv Rt Rs Rb).
Local Notation cIS := (crel_iseg Re Rv Rt Rs Rb).
Local Notation cEB := (crel_ebranch Re Rv Rt Rs Rb).
Local Notation cA := (crel_args Re Rv Rt Rs Rb).
Local Notation cT := (crel_entries Re Rv Rt Rs Rb).
Local Notation gT := (cong_tentry Re Rv Rt Rs Rb).
Local Notation cS := (crel_stmt Re Rv Rt Rs Rb).
Local Notation gS := (cong_stmt Re Rv Rt Rs Rb).
Local Notation cSB := (crel_sbranch Re Rv Rt Rs Rb).
Local Notation cB := (crel_block Re Rv Rt Rs Rb).
Local Notation gB := (cong_block Re Rv Rt Rs Rb).
Local Notation cL := (crel_last Re Rv Rt Rs Rb).
Local Notation cF := (frel Re Rv Rt Rs Rb).

Ltac list_refl go elem :=
  match goal with
  | |- Forall2 _ ?l ?l =>
    generalize l; fix go 1; intros [|? ?]; [apply Forall2_nil | apply Forall2_cons; [elem | apply go]]
  end.

Fixpoint gE_refl (e : expr) {struct e} : gE e e
with iseg_refl (s : iseg) {struct s} : cIS s s
with ebranch_refl (b : ebranch) {struct b} : cEB b b
with args_refl (a : args) {struct a} : cA a a
with tentry_refl (t : tentry) {struct t} : gT t t
with fbody_refl (f : fbody) {struct f} : forall self, cF self self f f
with stmt_refl (s : stmt) {struct s} : gS s s
with sbranch_refl (b : sbranch) {struct b} : cSB b b
with block_refl (b : block) {struct b} : gB b b
with last_refl (l : laststmt) {struct l} : cL l l.
Proof.
  - destruct e; constructor; try (apply cr_e_same; apply gE_refl).
    + list_refl go ltac:(apply iseg_refl).
    + apply args_refl.
    + apply fbody_refl.
    + list_refl go ltac:(apply ebranch_refl).
    + apply cr_t_same. list_refl go ltac:(apply tentry_refl).
  - destruct s; constructor. apply cr_e_same; apply gE_refl.
  - destruct b; constructor; apply cr_e_same; apply gE_refl.
  - destruct a; constructor.
    + list_refl go ltac:(apply cr_e_same; apply gE_refl).
    + apply cr_t_same. list_refl go ltac:(apply tentry_refl).
  - destruct t; constructor; apply cr_e_same; apply gE_refl.
  - destruct f. intros self. constructor; [reflexivity|]. apply cr_b_same. apply block_refl.
  - destruct s; try (constructor; fail).
    + constructor; [list_refl go ltac:(apply cr_v_same; apply gE_refl)|list_refl go ltac:(apply cr_e_same; apply gE_refl)].
    + constructor. apply cr_b_same, block_refl.
    + constructor. apply cr_e_same, gE_refl.
    + constructor; [apply cr_v_same, gE_refl|apply cr_e_same, gE_refl].
    + constructor; [reflexivity|apply fbody_refl].
    + constructor; [reflexivity| |apply cr_b_same, block_refl].
      list_refl go ltac:(apply cr_e_same; apply gE_refl).
    + constructor.
      * list_refl go ltac:(apply sbranch_refl).
      * destruct els; constructor. apply cr_b_same, block_refl.
    + constructor; [reflexivity|]. list_refl go ltac:(apply cr_e_same; apply gE_refl).
    + constructor. apply fbody_refl.
    + constructor; try reflexivity; try (apply cr_e_same, gE_refl); try (apply cr_b_same, block_refl).
      destruct step; constructor. apply cr_e_same, gE_refl.
    + constructor; [apply cr_b_same, block_refl|apply cr_e_same, gE_refl].
    + constructor; [apply cr_e_same, gE_refl|apply cr_b_same, block_refl].
  - destruct b; constructor; [apply cr_e_same, gE_refl|apply cr_b_same, block_refl].
  - destruct b as [ss last]. constructor.
    + list_refl go ltac:(apply cr_s_same; apply stmt_refl).
    + destruct last; constructor. apply last_refl.
  - destruct l; constructor. list_refl go ltac:(apply cr_e_same; apply gE_refl).
Qed.

Lemma cE_refl e : cE e e. Proof. apply cr_e_same, gE_refl. Qed.
Lemma cV_refl e : cV e e. Proof. apply cr_v_same, gE_refl. Qed.
Lemma cS_refl s : cS s s. Proof. apply cr_s_same, stmt_refl. Qed.
Lemma cB_refl b : cB b b. Proof. apply cr_b_same, block_refl. Qed.

Definition call_hook (H : hooks) (x : expr) : expr :=
  match x with ECall _ _ _ => h_call H x | _ => x end.

Record hooks_ok (H : hooks) : Prop := {
  ok_expr : forall e e', gE (call_hook H (h_expr H e)) e' -> cE e e';
  ok_prefix : forall e e', gE (call_hook H (h_prefix H e)) e' -> cE e e';
  ok_var : forall e e', gE (h_var H e) e' -> cV e e';
  ok_call : forall c c', gE (h_call H c) c' -> cE c c';
  ok_table : forall ens ens', Forall2 gT (h_table H ens) ens' -> cT ens ens';
  ok_stmt : forall st st', gS (h_stmt H st) st' -> cS st st';
  ok_block : forall b b', gB (h_block H b) b' -> cB b b'
}.

Section WithHooks.
Variable H : hooks.
Hypothesis Hok : hooks_ok H.

Record vis_ok (r : vis) : Prop := {
  vo_expr : forall e, cE e (v_expr r e);
  vo_prefix : forall e, cE e (v_prefix r e);
  vo_var : forall e, cV e (v_var r e);
  vo_stmt : forall s, cS s (v_stmt r s);
  vo_block : forall b, cB b (v_block r b)
}.

Lemma vis_id_ok : vis_ok vis_id.
Proof. constructor; intros; cbn; first [apply cE_refl | apply cV_refl | apply cS_refl | apply cB_refl]. Qed.

Section Level.
Variable r : vis.
Hypothesis IH : vis_ok r.

Lemma param_names_v ps : map param_name (map (v_param r) ps) = map param_name ps.
Proof. rewrite map_map. apply map_ext. intros [x t]. reflexivity. Qed.

Lemma v_fbody_ok f self : cF self self f (v_fbody r f).
Proof.
  destruct f as [ps v vt rt g at_ body]. cbn [v_fbody]. constructor.
  - unfold eff_names. destruct self; cbn [map]; now rewrite param_names_v.
  - apply (vo_block _ IH).
Qed.

Lemma v_entries_ok ens : cT ens (v_entries H r ens).
Proof.
  unfold v_entries. apply (ok_table _ Hok). apply Forall2_map_r.
  intros [f v|k v|v]; constructor; apply (vo_expr _ IH).
Qed.

Lemma v_args_ok a : cA a (v_args H r a).
Proof.
  destruct a; cbn [v_args]; constructor.
  - apply Forall2_map_r. apply (vo_expr _ IH).
  - apply v_entries_ok.
Qed.

Lemma v_call_ok c : gE (h_call H c) (v_call H r c).
Proof.
  unfold v_call. destruct (h_call H c); try apply gE_refl.
  constructor; [apply (vo_prefix _ IH)|apply v_args_ok].
Qed.

Lemma descend_ok x : gE (call_hook H x) (descend H r x).
Proof.
  destruct x; cbn [call_hook descend]; try apply gE_refl.
  - constructor. apply Forall2_map_r. intros [s|e]; constructor. apply (vo_expr _ IH).
  - constructor. apply (vo_prefix _ IH).
  - constructor; [apply (vo_prefix _ IH)|apply (vo_expr _ IH)].
  - apply v_call_ok.
  - constructor. apply v_fbody_ok.
  - constructor; [|apply (vo_expr _ IH)]. apply Forall2_map_r. intros [c y]. constructor; apply (vo_expr _ IH).
  - constructor. apply (vo_expr _ IH).
  - constructor. apply v_entries_ok.
  - constructor. apply (vo_expr _ IH).
  - constructor; apply (vo_expr _ IH).
  - constructor. apply (vo_expr _ IH).
  - constructor. apply (vo_prefix _ IH).
Qed.

Lemma descend_var_ok x : gE x (descend_var r x).
Proof.
  destruct x; cbn [descend_var]; try apply gE_refl.
  - constructor. apply (vo_prefix _ IH).
  - constructor; [apply (vo_prefix _ IH)|apply (vo_expr _ IH)].
Qed.

Lemma descend_stmt_ok st : gS st (descend_stmt H r st).
Proof.
  destruct st; cbn [descend_stmt].
  - constructor; apply Forall2_map_r; [apply (vo_var _ IH)|apply (vo_expr _ IH)].
  - constructor. apply (vo_block _ IH).
  - constructor. apply (ok_call _ Hok). apply v_call_ok.
  - constructor; [apply (vo_var _ IH)|apply (vo_expr _ IH)].
  - constructor; [reflexivity|apply v_fbody_ok].
  - constructor; [now rewrite param_names_v| |apply (vo_block _ IH)].
    apply Forall2_map_r. apply (vo_expr _ IH).
  - constructor.
    + apply Forall2_map_r. intros [c b]. constructor; [apply (vo_expr _ IH)|apply (vo_block _ IH)].
    + destruct els; constructor. apply (vo_block _ IH).
  - constructor; [now rewrite param_names_v|]. apply Forall2_map_r. apply (vo_expr _ IH).
  - constructor. apply v_fbody_ok.
  - constructor; try apply (vo_expr _ IH); try apply (vo_block _ IH).
    + destruct var. reflexivity.
    + destruct step; constructor. apply (vo_expr _ IH).
  - constructor; [apply (vo_block _ IH)|apply (vo_expr _ IH)].
  - constructor; [apply (vo_expr _ IH)|apply (vo_block _ IH)].
  - constructor.
  - constructor.
Qed.

Lemma descend_block_ok b : gB b (descend_block r b).
Proof.
  destruct b as [ss last]. cbn [descend_block]. constructor.
  - apply Forall2_map_r. apply (vo_stmt _ IH).
  - destruct last as [[| |es]|]; cbn [option_map]; constructor; constructor.
    apply Forall2_map_r. apply (vo_expr _ IH).
Qed.

End Level.

Lemma visit_ok n : vis_ok (visit H n).
Proof.
  induction n as [|n IHn]; [exact vis_id_ok|]. cbn [visit]. constructor; cbn [v_expr v_prefix v_var v_stmt v_block].
  - intros e. apply (ok_expr _ Hok). now apply descend_ok.
  - intros e. apply (ok_prefix _ Hok). now apply descend_ok.
  - intros e. apply (ok_var _ Hok). now apply descend_var_ok.
  - intros s. apply (ok_stmt _ Hok). now apply descend_stmt_ok.
  - intros b. apply (ok_block _ Hok). now apply descend_block_ok.
Qed.

Theorem apply_hooks_crel b : cB b (apply_hooks H b).
Proof. unfold apply_hooks. apply (vo_block _ (visit_ok _)). Qed.

End WithHooks.

Section Run.
Variable d : dialect.
Hypothesis HRe : forall e e1, Re e e1 -> forall n rho va,
  refines (eval d n rho va e) (eval d n rho va e1).
Hypothesis HRv : forall e e1, Rv e e1 -> forall n rho va,
  refines (eval_target d n rho va e) (eval_target d n rho va e1).
Hypothesis HRt : forall ens ens1, Rt ens ens1 -> forall n rho va a pos,
  refines (fill_table d n rho va a ens pos) (fill_table d n rho va a ens1 pos).
Hypothesis HRs : forall st st1, Rs st st1 -> forall n rho va,
  refines (exec_stmt d n rho va st) (exec_stmt d n rho va st1).
Hypothesis HRb : forall b b1, Rb b b1 -> forall n rho va,
  refines (exec_block d n rho va b) (exec_block d n rho va b1).
Hypothesis HRb_repeat : forall b b1, Rb b b1 -> forall n rho va c,
  refines (exec_repeat d n rho va b c) (exec_repeat d n rho va b1 c).

Lemma lstore_rel_initial orc : lstore_rel cB (initial_store orc) (initial_store orc).
Proof. unfold lstore_rel, initial_store. cbn. repeat split; auto. Qed.

Theorem crel_run_chunk : forall b b', cB b b' ->
  forall n orc out, run_chunk d n orc b = out -> out <> OutFuel -> run_chunk d n orc b' = out.
Proof.
  intros b b' Hc n orc out Hrun Hf. subst out. unfold run_chunk in *.
  pose proof (sa_block d Re Rv Rt Rs Rb n
                (sim_all_holds d Re Rv Rt Rs Rb HRe HRv HRt HRs HRb HRb_repeat n)
                [] [] b b' Hc _ _ (lstore_rel_initial orc)) as Hs.
  destruct (exec_block d n [] [] b (initial_store orc)) as [sg s1|e s1| |w];
    destruct (exec_block d n [] [] b' (initial_store orc)) as [sg2 s2|e2 s2| |w2];
    cbn in Hs; try contradiction; try (exfalso; apply Hf; reflexivity).
  - destruct Hs as [<- Hst]. pose proof Hst as (_ & Ht & Htr & _).
    rewrite Htr. f_equal. destruct sg; try reflexivity.
    apply map_ext. intros v. symmetry. now apply render_rel.
  - destruct Hs as [<- (_ & _ & Htr & _)]. now rewrite Htr.
  - now subst.
Qed.

Theorem lifting_apply_hooks : forall H, hooks_ok H ->
  forall n orc b out, run_chunk d n orc b = out -> out <> OutFuel ->
  run_chunk d n orc (apply_hooks H b) = out.
Proof.
  intros H Hok n orc b out. apply crel_run_chunk. now apply apply_hooks_crel.
Qed.

End Run.
End Visit.

(** The largest base relations the fundamental lemma admits: a node is related to every node
    that refines it wherever the interpreter runs it (a block: as a block and as the body of
    [repeat]).  A hook record all of whose hooks are such refinements may be applied everywhere
    ([lifting_refining_hooks]); every rule but remove_method_definition is lifted through it. *)
Section Refining.
Variable d : dialect.

Definition ref_expr (e e1 : expr) : Prop :=
  forall n rho va, refines (eval d n rho va e) (eval d n rho va e1).
Definition ref_var (e e1 : expr) : Prop :=
  forall n rho va, refines (eval_target d n rho va e) (eval_target d n rho va e1).
Definition ref_entries (ens ens1 : list tentry) : Prop :=
  forall n rho va a pos, refines (fill_table d n rho va a ens pos) (fill_table d n rho va a ens1 pos).
Definition ref_stmt (st st1 : stmt) : Prop :=
  forall n rho va, refines (exec_stmt d n rho va st) (exec_stmt d n rho va st1).
Definition ref_block (b b1 : block) : Prop :=
  (forall n rho va, refines (exec_block d n rho va b) (exec_block d n rho va b1)) /\
  (forall n rho va c, refines (exec_repeat d n rho va b c) (exec_repeat d n rho va b1 c)).

Lemma ref_expr_refl e : ref_expr e e. Proof. intros n rho va. apply refines_refl. Qed.
Lemma ref_var_refl e : ref_var e e. Proof. intros n rho va. apply refines_refl. Qed.
Lemma ref_entries_refl ens : ref_entries ens ens. Proof. intros n rho va a pos. apply refines_refl. Qed.
Lemma ref_stmt_refl st : ref_stmt st st. Proof. intros n rho va. apply refines_refl. Qed.
Lemma ref_block_refl b : ref_block b b. Proof. split; intros; apply refines_refl. Qed.

Theorem lifting_ref_hooks H : hooks_ok ref_expr ref_var ref_entries ref_stmt ref_block H ->
  forall n orc b out, run_chunk d n orc b = out -> out <> OutFuel ->
  run_chunk d n orc (apply_hooks H b) = out.
Proof.
  apply (lifting_apply_hooks ref_expr ref_var ref_entries ref_stmt ref_block d).
  - intros e e1 Hr. exact Hr.
  - intros e e1 Hr. exact Hr.
  - intros ens ens1 Hr. exact Hr.
  - intros st st1 Hr. exact Hr.
  - intros b b1 Hr. exact (proj1 Hr).
  - intros b b1 Hr. exact (proj2 Hr).
Qed.

Theorem lifting_refining_hooks H :
  (forall e, ref_expr e (h_expr H e)) -> (forall e, ref_expr e (h_prefix H e)) ->
  (forall e, ref_var e (h_var H e)) -> (forall c, ref_expr c (h_call H c)) ->
  (forall ens, ref_entries ens (h_table H ens)) -> (forall st, ref_stmt st (h_stmt H st)) ->
  (forall b, ref_block b (h_block H b)) ->
  forall n orc b out, run_chunk d n orc b = out -> out <> OutFuel ->
  run_chunk d n orc (apply_hooks H b) = out.
Proof.
  intros He Hp Hv Hc Ht Hs Hb. apply lifting_ref_hooks.
  (* what the traversal leaves at an expression node: the hook's result, and the call hook on
     top of it when that is a call *)
  assert (Hch : forall x y, ref_expr x y -> ref_expr x (call_hook H y)).
  { intros x y Hxy n rho va. eapply refines_trans; [apply Hxy|].
    destruct y; try apply refines_refl. apply Hc. }
  constructor.
  - intros e e' Hg. eapply cr_e_rw; [apply Hch, He|exact Hg].
  - intros e e' Hg. eapply cr_e_rw; [apply Hch, Hp|exact Hg].
  - intros e e' Hg. eapply cr_v_rw; [apply Hv|exact Hg].
  - intros c c' Hg. eapply cr_e_rw; [apply Hc|exact Hg].
  - intros ens ens' Hg. eapply cr_t_rw; [apply Ht|exact Hg].
  - intros st st' Hg. eapply cr_s_rw; [apply Hs|exact Hg].
  - intros b b' Hg. eapply cr_b_rw; [apply Hb|exact Hg].
Qed.

End Refining.
