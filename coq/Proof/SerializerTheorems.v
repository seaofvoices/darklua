(** C14 — the theorems: soundness of the serializer model with respect to the reference
    interpreter, the integers it covers, and the refutation for the keys Lua cannot hold. *)
From Coq Require Import ZArith NArith List Bool Lia.
From Coq Require Import Floats.SpecFloat.
From DL Require Import Lib.Bytes Lib.F64 Lua.Syntax Lua.Sem Lua.DataSpec Model.Serializer.
From DL Require Import Proof.SerializerF64 Proof.SerializerTable Proof.SerializerSound.
From DL Require Model.Lexer.
Import ListNotations.
Open Scope N_scope.
Local Notation len := List.length.

Theorem serialize_sound_fuel d e :
  ints_ok d -> wf_keys d -> seq_len_ok d -> to_expression d = Some e ->
  forall dialect n rho va s, (size d <= n)%nat ->
  exists v s', eval dialect n rho va e s = Ok [v] s' /\
    (* every table of [s] is unchanged, the value lives in tables allocated after [s] *)
    (forall b t, nth_N (tables s) b = Some t -> nth_N (tables s') b = Some t) /\
    value_denotes_from (len (tables s)) s' v d.
Proof.
  intros Hi Hw Hl He dl n rho va s Hn.
  destruct (evaluates_all dl d (conj Hi (conj Hw Hl)) e He n rho va s Hn) as (v & s' & E & K & D).
  exists v, s'. split; [exact E|]. split; [exact (proj1 K)|exact D].
Qed.

Lemma serialize_sound_core d e :
  ints_ok d -> wf_keys d -> seq_len_ok d -> to_expression d = Some e ->
  forall dialect, exists n vs s',
    eval dialect n [] [] e (initial_store []) = Ok vs s' /\ value_denotes s' (first vs) d.
Proof.
  intros Hi Hw Hl He dl.
  destruct (serialize_sound_fuel d e Hi Hw Hl He dl (size d) [] [] (initial_store []) (le_n _))
    as (v & s' & E & _ & D).
  exists (size d), [v], s'. split; [exact E|]. cbn [first]. unfold value_denotes.
  eapply denotes_weaken; [exact D|lia].
Qed.

(** every integer: Flocq's [binary_round_correct] (classical reals) *)
Lemma ints_ok_all d : ints_ok d.
Proof.
  induction d as [| b | z | bits | str | items IH | entries IH] using data_ind'; cbn [ints_ok]; auto.
  - apply int_roundtrip_valid.
  - induction IH; cbn; auto.
  - induction IH as [|[k v] r [Hk Hv] Hr IHr]; cbn; auto.
Qed.

(** integers that binary64 represents exactly: no axiom *)
Fixpoint ints_exact (d : data) : Prop :=
  match d with
  | DInt z => (Z.abs z < 9007199254740992)%Z
  | DSeq items => (fix all (l : list data) : Prop :=
                     match l with [] => True | x :: r => ints_exact x /\ all r end) items
  | DMap entries => (fix all (l : list (data * data)) : Prop :=
                       match l with
                       | [] => True
                       | (k, v) :: r => ints_exact k /\ ints_exact v /\ all r
                       end) entries
  | _ => True
  end.

Lemma ints_exact_ok d : ints_exact d -> ints_ok d.
Proof.
  induction d as [| b | z | bits | str | items IH | entries IH] using data_ind'; cbn [ints_ok ints_exact]; auto.
  - apply int_roundtrip_small.
  - induction IH as [|x r Hx Hr IHr]; [auto|]. intros [A B]. split; [exact (Hx A)|exact (IHr B)].
  - induction IH as [|[k v] r [Hk Hv] Hr IHr]; [auto|]. cbn [fst snd] in *. intros (A & B & C).
    split; [exact (Hk A)|]. split; [exact (Hv B)|exact (IHr C)].
Qed.

Theorem serialize_sound d e :
  wf_keys d -> seq_len_ok d -> to_expression d = Some e ->
  forall dialect, exists n vs s',
    eval dialect n [] [] e (initial_store []) = Ok vs s' /\ value_denotes s' (first vs) d.
Proof. intros. eapply serialize_sound_core; eauto. apply ints_ok_all. Qed.

Theorem serialize_sound_exact_ints d e :
  ints_exact d -> wf_keys d -> seq_len_ok d -> to_expression d = Some e ->
  forall dialect, exists n vs s',
    eval dialect n [] [] e (initial_store []) = Ok vs s' /\ value_denotes s' (first vs) d.
Proof. intros. eapply serialize_sound_core; eauto. now apply ints_exact_ok. Qed.

(** * the keys [wf_keys] excludes: the emitted constructor raises a run-time error *)

Theorem serialize_null_key_refuted :
  exists d e, to_expression d = Some e /\
    forall dialect, exists s', eval dialect 4 [] [] e (initial_store []) = Err (ERun 12) s'.
Proof.
  exists (DMap [(DNull, DInt 1)]). eexists. split; [reflexivity|].
  intros []; eexists; vm_compute; reflexivity.
Qed.

Theorem serialize_nan_key_refuted :
  exists d e, to_expression d = Some e /\
    forall dialect, exists s', eval dialect 4 [] [] e (initial_store []) = Err (ERun 12) s'.
Proof.
  exists (DMap [(DFloat 9221120237041090560, DInt 2)]). eexists. split; [reflexivity|].
  intros []; eexists; vm_compute; reflexivity.
Qed.

(** * what the serializer cannot express: only integers outside i64 / u64 *)

Fixpoint ints_supported (d : data) : Prop :=
  match d with
  | DInt z => int_supported z = true
  | DSeq items => (fix all (l : list data) : Prop :=
                     match l with [] => True | x :: r => ints_supported x /\ all r end) items
  | DMap entries => (fix all (l : list (data * data)) : Prop :=
                       match l with
                       | [] => True
                       | (k, v) :: r => ints_supported k /\ ints_supported v /\ all r
                       end) entries
  | _ => True
  end.

Theorem serialize_total d : ints_supported d -> exists e, to_expression d = Some e.
Proof.
  induction d as [| b | z | bits | str | items IH | entries IH] using data_ind'; cbn [ints_supported].
  - intros _. eexists. reflexivity.
  - intros _. destruct b; eexists; reflexivity.
  - intros H. cbn [to_expression]. rewrite H. eexists. reflexivity.
  - intros _. eexists. reflexivity.
  - intros _. eexists. reflexivity.
  - intros H. rewrite to_expression_seq.
    assert (exists es, seq_entries items = Some es) as [es ->]; [|eexists; reflexivity].
    induction IH as [|x r Hx Hr IHr]; [eexists; reflexivity|]. destruct H as [A B].
    destruct (Hx A) as [e E]. destruct (IHr B) as [es Hes].
    cbn [seq_entries]. rewrite E, Hes. eexists. reflexivity.
  - intros H. rewrite to_expression_map.
    assert (exists es, map_entries entries = Some es) as [es ->]; [|eexists; reflexivity].
    induction IH as [|[k v] r [Hk Hv] Hr IHr]; [eexists; reflexivity|]. cbn [fst snd] in *.
    destruct H as (A & B & C).
    destruct (Hk A) as [ke Eke]. destruct (Hv B) as [ve Eve]. destruct (IHr C) as [es Hes].
    cbn [map_entries]. rewrite Eke, Eve, Hes. eexists. reflexivity.
Qed.

(** * keys written bare ([name = v]) are Lua names that are not reserved words, in the sense of
    the lexer model of C03 ([Model/Lexer.v]) *)

Lemma ident_chars_tail s : ident_chars false s = true -> forallb Lexer.is_ident_char s = true.
Proof.
  induction s as [|c r IH]; [reflexivity|]. cbn [ident_chars forallb]. intros H.
  apply andb_true_iff in H as [A B]. rewrite IH by exact B. rewrite andb_true_r.
  unfold Lexer.is_ident_char, Lexer.is_alpha. unfold is_ascii_alpha in A. cbn [negb] in A.
  rewrite andb_true_r in A.
  destruct (((65 <=? c) && (c <=? 90)) || ((97 <=? c) && (c <=? 122))); [reflexivity|].
  cbn [orb] in *. destruct (c =? 95); [now rewrite orb_true_r|]. now rewrite orb_false_r in *.
Qed.

Theorem field_names_are_names s : is_valid_identifier s = true ->
  exists c r, s = c :: r /\ Lexer.is_ident_start c = true /\
              forallb Lexer.is_ident_char r = true /\ Lexer.is_keyword s = false.
Proof.
  unfold is_valid_identifier. intros H.
  apply andb_true_iff in H as [H Hk]. apply andb_true_iff in H as [H Hc].
  apply andb_true_iff in H as [Hne _].
  destruct s as [|c r]; [discriminate|]. exists c, r. split; [reflexivity|].
  cbn [ident_chars] in Hc. apply andb_true_iff in Hc as [Hs Hr]. split; [|split].
  - unfold Lexer.is_ident_start, Lexer.is_alpha. unfold is_ascii_alpha in Hs. cbn [negb] in Hs.
    rewrite andb_false_r, orb_false_r in Hs. exact Hs.
  - now apply ident_chars_tail.
  - apply negb_true_iff in Hk. exact Hk.
Qed.

Definition example_doc : data :=
  DMap [ (DString (of_string "do"), DSeq [DInt 1; DNull; DFloat 4609434218613702656; DBool true]);
         (DString (of_string "a b"), DMap [(DInt 7, DString [0; 255]); (DString [], DNull)]);
         (DString (of_string "a b"), DInt (-3));
         (DString (of_string "x"), DInt 12345678901234567890) ].

Example example_doc_hypotheses :
  wf_keys example_doc /\ seq_len_ok example_doc /\ ints_supported example_doc /\
  exists e, to_expression example_doc = Some e.
Proof.
  split; [|split; [|split]].
  - cbn. repeat split; discriminate.
  - cbn. repeat split; lia.
  - cbn. repeat split.
  - eexists. vm_compute. reflexivity.
Qed.
