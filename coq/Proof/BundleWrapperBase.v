(** Symbolic execution of the bundler's module accessor ([Model/BundleWrapper.v]) in the
    reference interpreter ([Lua/Sem.v]): the stores an update produces and what can be read
    from them, raw accesses to string keys, and what one step of each kind of statement the
    accessor is made of does, in "[m s = Ok a s']" form. *)
From Coq Require Import ZArith NArith List Bool String Lia.
From DL Require Import Lib.Bytes Lib.F64 Lua.Syntax Lua.Sem Proof.SemFacts Proof.EvaluatorStore Proof.DefaultRulesSem
  Proof.RefactorSem Model.BundleWrapper.
Import ListNotations.
Open Scope N_scope.
Local Notation llen := List.length.

(** the stores that [new_cell], [new_table], [set_cell], [set_table] produce *)

Definition add_cell (s : store) (v : value) : store :=
  mkStore (cells s ++ [v]) (tables s) (closures s) (trace s) (oracle s) (fresh s).
Definition add_table (s : store) (t : table) : store :=
  mkStore (cells s) (tables s ++ [t]) (closures s) (trace s) (oracle s) (fresh s).
Definition upd_cell (s : store) (a : N) (v : value) : store :=
  mkStore (set_nth (cells s) (N.to_nat a) v) (tables s) (closures s) (trace s) (oracle s) (fresh s).
Definition upd_table (s : store) (a : N) (t : table) : store :=
  mkStore (cells s) (set_nth (tables s) (N.to_nat a) t) (closures s) (trace s) (oracle s) (fresh s).

Lemma new_cell_eq v s : new_cell v s = Ok (N.of_nat (llen (cells s))) (add_cell s v).
Proof. reflexivity. Qed.
Lemma new_table_eq t s : new_table t s = Ok (N.of_nat (llen (tables s))) (add_table s t).
Proof. reflexivity. Qed.
Lemma set_cell_eq a v s : set_cell a v s = Ok tt (upd_cell s a v).
Proof. reflexivity. Qed.
Lemma set_table_eq a t s : set_table a t s = Ok tt (upd_table s a t).
Proof. reflexivity. Qed.

Lemma fresh_neq {A} (l : list A) a x : nth_N l (N.to_nat a) = Some x -> N.of_nat (llen l) <> a.
Proof. intros H <-. apply nth_N_lt in H. rewrite Nat2N.id in H. lia. Qed.

Lemma add_cell_new s v : nth_N (cells (add_cell s v)) (N.to_nat (N.of_nat (llen (cells s)))) = Some v.
Proof. apply nth_N_last. Qed.

Lemma add_cell_old s v i x : nth_N (cells s) i = Some x -> nth_N (cells (add_cell s v)) i = Some x.
Proof. apply nth_N_app_l. Qed.

Lemma upd_cell_same s a v :
  (N.to_nat a < llen (cells s))%nat -> nth_N (cells (upd_cell s a v)) (N.to_nat a) = Some v.
Proof. apply nth_N_set_same. Qed.

Lemma upd_cell_other s a v b :
  a <> b -> nth_N (cells (upd_cell s a v)) (N.to_nat b) = nth_N (cells s) (N.to_nat b).
Proof. intros H. apply nth_N_set_other. intros E. apply N2Nat.inj in E. contradiction. Qed.

Lemma upd_table_same s a t :
  (N.to_nat a < llen (tables s))%nat -> nth_N (tables (upd_table s a t)) (N.to_nat a) = Some t.
Proof. apply nth_N_set_same. Qed.

Lemma upd_table_other s a t b :
  a <> b -> nth_N (tables (upd_table s a t)) (N.to_nat b) = nth_N (tables s) (N.to_nat b).
Proof. intros H. apply nth_N_set_other. intros E. apply N2Nat.inj in E. contradiction. Qed.

Lemma raw_get_set_same es k v : raw_get (raw_set es (VStr k) v) (VStr k) = v.
Proof.
  induction es as [|[k' v'] es IH]; cbn [raw_set].
  - destruct v; cbn [raw_get raw_equal]; rewrite ?bytes_eqb_refl; reflexivity.
  - destruct (raw_equal k' (VStr k)) eqn:E; cbn [raw_get]; rewrite E; auto.
Qed.

Section Steps.
Variable d : dialect.

Lemma eval_ident_cell n rho va x a v s :
  lookup rho x = Some a -> nth_N (cells s) (N.to_nat a) = Some v ->
  eval d (S n) rho va (EIdent x) s = Ok [v] s.
Proof.
  intros Hl Hc. rewrite eval_S_ident, Hl. unfold bind, get_cell. rewrite Hc. reflexivity.
Qed.

Lemma eval1_ident_cell n rho va x a v s :
  lookup rho x = Some a -> nth_N (cells s) (N.to_nat a) = Some v ->
  eval1 d (S (S n)) rho va (EIdent x) s = Ok v s.
Proof.
  intros Hl Hc. exact (eval1_of_eval _ _ _ _ _ _ _ _ (eval_ident_cell n rho va x a v s Hl Hc)).
Qed.

(** reading a string key: no metamethod is consulted when the entry is there, or when the
    table has no metatable *)
Lemma index_table_get n a k t v s :
  nth_N (tables s) (N.to_nat a) = Some t ->
  raw_get (t_entries t) (VStr k) = v ->
  (v <> VNil \/ t_meta t = None) ->
  index d (S n) (VTable a) (VStr k) s = Ok v s.
Proof.
  intros Ht Hv Hm. rewrite index_S_table. unfold bind at 1. rewrite (get_table_some _ _ _ Ht).
  cbn [norm_key]. rewrite Hv. destruct v; try reflexivity.
  destruct Hm as [Hm|Hm]; [congruence|]. unfold bind.
  rewrite (metamethod_plain_tab s a "__index"); [reflexivity|now exists t].
Qed.

Lemma setindex_table_raw n a k t v s :
  nth_N (tables s) (N.to_nat a) = Some t -> t_meta t = None ->
  setindex d (S n) (VTable a) (VStr k) v s =
  Ok tt (upd_table s a (mkTable (raw_set (t_entries t) (VStr k) v) None)).
Proof.
  intros Ht Hm. rewrite setindex_S_table. unfold bind at 1. rewrite (get_table_some _ _ _ Ht).
  cbn [norm_key]. cbv zeta.
  assert (Hh : (match raw_get (t_entries t) (VStr k) with
                | VNil => metamethod (VTable a) "__newindex"
                | _ => ret VNil
                end) s = Ok VNil s).
  { destruct (raw_get (t_entries t) (VStr k)); try reflexivity. apply metamethod_plain_tab. now exists t. }
  eapply bind_ok_intro; [exact Hh|]. cbv beta iota. rewrite Hm. reflexivity.
Qed.

Lemma eval_field_get n rho va p f s a t v :
  eval1 d (S n) rho va p s = Ok (VTable a) s ->
  nth_N (tables s) (N.to_nat a) = Some t ->
  raw_get (t_entries t) (VStr f) = v ->
  (v <> VNil \/ t_meta t = None) ->
  eval d (S (S n)) rho va (EField p f) s = Ok [v] s.
Proof.
  intros Hp Ht Hv Hm. rewrite eval_S_field. eapply bind_ok_intro; [exact Hp|].
  eapply bind_ok_intro; [eapply index_table_get; eassumption|reflexivity].
Qed.

Lemma exec_stmts_step n rho va st rest last s rho' s' r :
  exec_stmt d n rho va st s = Ok (rho', SigNone) s' ->
  exec_stmts d n rho' va rest last s' = r ->
  exec_stmts d (S n) rho va (st :: rest) last s = r.
Proof. intros H1 H2. rewrite exec_stmts_S_cons. exact (bind_ok_intro _ _ _ _ _ _ H1 H2). Qed.

Lemma local1_step n rho va c x ty e s vs s1 :
  eval d n rho va e s = Ok vs s1 ->
  exec_stmt d (S (S n)) rho va (SLocal c [Param x ty] [e]) s =
  Ok ((x, N.of_nat (llen (cells s1))) :: rho, SigNone) (add_cell s1 (arg vs 0)).
Proof.
  intros H. rewrite exec_stmt_S_local, eval_list_S_one. eapply bind_ok_intro; [exact H|reflexivity].
Qed.

Lemma if1_step n rho va c b s cv s1 sg s2 :
  eval1 d n rho va c s = Ok cv s1 ->
  (if truthy cv then exec_block d n rho va b else ret SigNone) s1 = Ok sg s2 ->
  exec_stmt d (S n) rho va (SIf [SBranch c b] None) s = Ok (rho, sg) s2.
Proof.
  intros Hc Hb. rewrite exec_stmt_S_if, sif_go_cons. eapply bind_ok_intro; [|reflexivity].
  eapply bind_ok_intro; [exact Hc|exact Hb].
Qed.

Lemma assign1_step n rho va tgt e s t s1 vs s2 s3 :
  eval_target d (S n) rho va tgt s = Ok t s1 ->
  eval d n rho va e s1 = Ok vs s2 ->
  assign_target d (S n) rho t (arg vs 0) s2 = Ok tt s3 ->
  exec_stmt d (S (S n)) rho va (SAssign [tgt] [e]) s = Ok (rho, SigNone) s3.
Proof.
  intros Ht He Ha. rewrite exec_stmt_S_assign.
  eapply bind_ok_intro; [eapply bind_ok_intro; [exact Ht|reflexivity]|]. cbv beta.
  eapply bind_ok_intro; [rewrite eval_list_S_one; exact He|]. cbv beta.
  eapply bind_ok_intro; [eapply bind_ok_intro; [exact Ha|reflexivity]|reflexivity].
Qed.

End Steps.

Lemma lookup_skip rho x y a : x <> y -> lookup ((y, a) :: rho) x = lookup rho x.
Proof. intros H. cbn [lookup]. rewrite (bytes_eqb_neq _ _ H). reflexivity. Qed.
