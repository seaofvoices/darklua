(** C01, LIFTING - instantiations for the block- and statement-level rules that need no static
    evaluation: filter_after_early_return, remove_empty_do (every pass and the whole loop),
    remove_method_definition (all unconditional) and remove_unused_while restricted to the
    LITERAL conditions [false] / [nil] ([..._literal]; the general rule evaluates the condition
    statically, the node theorem [while_false_sound] needs [env_plain] and loses the condition's
    fresh allocations: PARTIAL). *)
From Coq Require Import ZArith NArith List Bool String Lia.
From DL Require Import Lib.Bytes Lib.F64 Lua.Syntax Lua.Sem Model.Evaluator Model.DefaultRules.
From DL Require Import Proof.LoweringFuel.
From DL Require Import Proof.SemFacts Proof.DefaultRulesSem Proof.RefactorSem.
From DL Require Import Proof.DefaultRulesSoundBlock Proof.DefaultRulesSoundFuel.
From DL Require Import Proof.LiftingDefs Proof.LiftingSim Proof.LiftingVisit Proof.LiftingConst Proof.LiftingRulesExpr.
Import ListNotations.
Open Scope N_scope.

Section Block.
Variable d : dialect.

Lemma lifting_block_hook (h : block -> block) : (forall b, ref_block d b (h b)) ->
  forall n orc b out, run_chunk d n orc b = out -> out <> OutFuel ->
  run_chunk d n orc
    (apply_hooks (mkHooks h (fun s => s) (fun e => e) (fun e => e) (fun e => e) (fun e => e) (fun t => t)) b) = out.
Proof.
  intros Hh. apply (lifting_refining_hooks d).
  - exact (ref_expr_refl d).
  - exact (ref_expr_refl d).
  - exact (ref_var_refl d).
  - exact (ref_expr_refl d).
  - exact (ref_entries_refl d).
  - exact (ref_stmt_refl d).
  - exact Hh.
Qed.

Definition noop (st : stmt) : Prop :=
  forall n rho va, refines (exec_stmt d n rho va st) (ret (rho, SigNone)).

Inductive stmts_ref : list stmt -> list stmt -> Prop :=
| sr_nil : stmts_ref [] []
| sr_keep st st1 ss ss1 : ref_stmt d st st1 -> stmts_ref ss ss1 -> stmts_ref (st :: ss) (st1 :: ss1)
| sr_drop st ss ss1 : noop st -> stmts_ref ss ss1 -> stmts_ref (st :: ss) ss1.

Lemma stmts_ref_stmts ss ss1 : stmts_ref ss ss1 -> forall n rho va last,
  refines (exec_stmts d n rho va ss last) (exec_stmts d n rho va ss1 last).
Proof.
  induction 1 as [|st st1 ss ss1 Hst Hss IH|st ss ss1 Hst Hss IH]; intros n rho va last;
    [apply refines_refl| |]; (destruct n as [|n]; [apply refines_out, exec_stmts_0|]).
  - rewrite !exec_stmts_S_cons. apply refines_bind; [apply Hst|]. intros [rho1 sg1]. cbn [stmts_cont].
    destruct sg1; try apply refines_refl. apply IH.
  - (* the shorter list runs with the fuel the dropped statement no longer takes *)
    rewrite exec_stmts_S_cons. eapply refines_bind_const; [apply Hst|]. cbn [stmts_cont].
    eapply refines_trans; [apply IH|]. apply exec_stmts_refines_le. lia.
Qed.

Lemma stmts_ref_repeat_go n va last ss ss1 : stmts_ref ss ss1 -> forall rho,
  refines (repeat_go d n va last ss rho) (repeat_go d n va last ss1 rho).
Proof.
  induction 1 as [|st st1 ss ss1 Hst Hss IH|st ss ss1 Hst Hss IH]; intros rho; [apply refines_refl| |].
  - rewrite !repeat_go_cons. apply refines_bind; [apply Hst|]. intros [rho1 sg1].
    destruct sg1; try apply refines_refl. apply IH.
  - rewrite repeat_go_cons. eapply refines_bind_const; [apply Hst|]. apply IH.
Qed.

Lemma stmts_ref_block ss ss1 last : stmts_ref ss ss1 -> ref_block d (Block ss last) (Block ss1 last).
Proof.
  intros Hss. split.
  - intros [|n] rho va; [apply refines_out, exec_block_0|]. rewrite !exec_block_S. now apply stmts_ref_stmts.
  - intros n rho va c. revert rho. induction n as [|n IHn]; intros rho; [apply refines_out, exec_repeat_0|].
    rewrite !exec_repeat_S. apply refines_bind; [now apply stmts_ref_repeat_go|]. intros [rho1 sg1].
    destruct sg1; try apply refines_refl; apply refines_bind_l; intros cv; destruct (truthy cv);
      try apply refines_refl; apply IHn.
Qed.

Lemma filter_noop (keep : stmt -> bool) ss : (forall st, keep st = false -> noop st) ->
  stmts_ref ss (filter keep ss).
Proof.
  intros Hk. induction ss as [|st ss IH]; cbn [filter]; [apply sr_nil|].
  destruct (keep st) eqn:Ek; [apply sr_keep; [apply ref_stmt_refl|exact IH] | apply sr_drop; [now apply Hk|exact IH]].
Qed.

Lemma empty_do_noop st : negb (empty_do st) = false -> noop st.
Proof.
  intros He n rho va. apply negb_false_iff in He. apply empty_do_is in He. subst st.
  destruct n as [|[|[|n]]]; try (intros s Hf; exfalso; apply Hf; reflexivity).
  intros s _. symmetry. apply empty_do_stmt_run.
Qed.

Theorem lifting_remove_empty_do_pass : forall n orc b out,
  run_chunk d n orc b = out -> out <> OutFuel ->
  run_chunk d n orc (apply_hooks hooks_empty_do b) = out.
Proof.
  apply (lifting_block_hook rw_empty_do). intros [ss last].
  apply stmts_ref_block, filter_noop, empty_do_noop.
Qed.

Lemma lifting_empty_do_loop : forall fuel n orc b out,
  run_chunk d n orc b = out -> out <> OutFuel ->
  run_chunk d n orc (empty_do_loop fuel b) = out.
Proof.
  induction fuel as [|fuel IHf]; intros n orc b out Hr Hf; cbn [empty_do_loop].
  - now apply lifting_remove_empty_do_pass.
  - destruct (empty_do_mutated b).
    + apply IHf; [|exact Hf]. now apply lifting_remove_empty_do_pass.
    + now apply lifting_remove_empty_do_pass.
Qed.

Theorem lifting_remove_empty_do : forall n orc b out,
  run_chunk d n orc b = out -> out <> OutFuel ->
  run_chunk d n orc (rule_remove_empty_do b) = out.
Proof. intros n orc b out. unfold rule_remove_empty_do. apply lifting_empty_do_loop. Qed.

Lemma early_return_repeat_go n va last pre : forall st rest rho s,
  stmt_returns st = true ->
  repeat_go d n va last (pre ++ st :: rest) rho s = repeat_go d n va None (pre ++ [st]) rho s.
Proof.
  induction pre as [|x pre IHp]; intros st rest rho s Hr; cbn [app]; rewrite !repeat_go_cons;
    apply bind_eq; intros [rho1 sg1] s1 H1.
  - destruct sg1; try reflexivity. exfalso. eapply (never_none_all d n); eauto.
  - destruct sg1; try reflexivity. now apply IHp.
Qed.

Lemma early_return_repeat b c : forall n rho va s,
  exec_repeat d n rho va (rw_early_return b) c s = exec_repeat d n rho va b c s.
Proof.
  destruct b as [ss last]. unfold rw_early_return.
  destruct (search_remove_after ss) as [i|] eqn:E; [|reflexivity].
  destruct (search_remove_after_spec _ _ E) as (pre & st & rest & -> & Hs & Hf). rewrite Hf.
  induction n as [|n IHn]; intros rho va s; [reflexivity|]. rewrite !exec_repeat_S.
  unfold bind. rewrite (early_return_repeat_go n va last pre st rest rho s Hs).
  destruct (repeat_go d n va None (pre ++ [st]) rho s) as [[rho1 sg1] s1|e s1| |w]; try reflexivity.
  destruct sg1; try reflexivity; destruct (eval1 d n rho1 va c s1) as [cv s2|e s2| |w]; try reflexivity;
    destruct (truthy cv); try reflexivity; apply IHn.
Qed.

Theorem lifting_filter_after_early_return : forall n orc b out,
  run_chunk d n orc b = out -> out <> OutFuel ->
  run_chunk d n orc (rule_filter_after_early_return b) = out.
Proof.
  apply (lifting_block_hook rw_early_return). intros b. split.
  - intros n rho va. apply refines_eq. intros s. symmetry. apply early_return_sound.
  - intros n rho va c. apply refines_eq. intros s. symmetry. apply early_return_repeat.
Qed.

Definition while_kept_lit (st : stmt) : bool :=
  match st with
  | SWhile EFalse _ | SWhile ENil _ => false
  | _ => true
  end.
Definition rw_while_lit (b : block) : block :=
  match b with Block ss last => Block (filter while_kept_lit ss) last end.
Definition hooks_while_lit : hooks :=
  mkHooks rw_while_lit (fun s => s) (fun e => e) (fun e => e) (fun e => e) (fun e => e) (fun t => t).
Definition rule_remove_unused_while_literal : block -> block := apply_hooks hooks_while_lit.

Lemma while_kept_lit_agrees st : while_kept_lit st = false -> while_kept st = false.
Proof. destruct st; try discriminate. destruct cond; try discriminate; reflexivity. Qed.

Lemma while_false_noop c b v : truthy v = false ->
  (forall n rho va, refines (eval1 d n rho va c) (ret v)) -> noop (SWhile c b).
Proof.
  intros Hv Hc n rho va.
  destruct n as [|n]; [apply refines_out, exec_stmt_0|]. rewrite exec_stmt_S_while.
  destruct n as [|n]; [apply refines_out; intros s; unfold bind; now rewrite exec_while_0|]. rewrite exec_while_S.
  apply (refines_trans _ (sg <- ret SigNone ;; ret (rho, sg))); [|apply refines_refl].
  apply refines_bind; [|intros; apply refines_refl].
  eapply refines_bind_const; [apply Hc|]. rewrite Hv. apply refines_refl.
Qed.

Lemma while_lit_noop st : while_kept_lit st = false -> noop st.
Proof.
  destruct st; try discriminate. destruct cond; try discriminate; intros _.
  - apply (while_false_noop _ _ VNil eq_refl). intros n rho va. now apply cval_sound1.
  - apply (while_false_noop _ _ (VBool false) eq_refl). intros n rho va. now apply cval_sound1.
Qed.

Theorem lifting_remove_unused_while_literal : forall n orc b out,
  run_chunk d n orc b = out -> out <> OutFuel ->
  run_chunk d n orc (rule_remove_unused_while_literal b) = out.
Proof.
  apply (lifting_block_hook rw_while_lit). intros [ss last].
  apply stmts_ref_block, filter_noop, while_lit_noop.
Qed.

(** the rule itself, on programs in which it only ever removes [while false] / [while nil] *)
Theorem lifting_remove_unused_while_partial : forall n orc b out,
  rule_remove_unused_while b = rule_remove_unused_while_literal b ->
  run_chunk d n orc b = out -> out <> OutFuel ->
  run_chunk d n orc (rule_remove_unused_while b) = out.
Proof. intros n orc b out ->. apply lifting_remove_unused_while_literal. Qed.

(** remove_method_definition needs no base step at all: [function a:m(ps)] and
    [function a.m(self, ps)] are congruent ([cg_sfunction]) *)

Lemma hooks_method_def_ok Re Rv Rt Rs Rb : hooks_ok Re Rv Rt Rs Rb hooks_method_def.
Proof.
  constructor; cbn [hooks_method_def h_expr h_prefix h_var h_call h_table h_stmt h_block].
  - intros e e' Hg. apply cr_e_same. destruct e; exact Hg.
  - intros e e' Hg. apply cr_e_same. destruct e; exact Hg.
  - apply cr_v_same.
  - apply cr_e_same.
  - apply cr_t_same.
  - intros st st' Hg. apply cr_s_same.
    destruct st; try exact Hg. destruct method as [m|]; [|exact Hg].
    cbn [rw_method_def] in Hg. inversion Hg as [| | | |base' fs fs' m0 m' f0 f' Hp Hf| | | | | | | | |]; subst.
    constructor.
    + cbn [opt_list] in *. rewrite app_nil_r in Hp. exact Hp.
    + destruct f as [ps v vt rt g at_ body]. cbn [add_self is_some] in *.
      inversion Hf; subst. constructor; assumption.
  - apply cr_b_same.
Qed.

Theorem lifting_remove_method_definition : forall n orc b out,
  run_chunk d n orc b = out -> out <> OutFuel ->
  run_chunk d n orc (rule_remove_method_definition b) = out.
Proof. apply (lifting_ref_hooks d hooks_method_def). apply hooks_method_def_ok. Qed.

End Block.
