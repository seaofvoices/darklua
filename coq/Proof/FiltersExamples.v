(** C20 — the hypotheses of the theorems are satisfiable by non-trivial inputs. *)
From Coq Require Import List Bool NArith.
From DL Require Import Model.Filters Model.FiltersTrace Proof.FiltersFacts.
Import ListNotations.
Open Scope N_scope.

(** patterns 0,1,2 ; files 0..3 ; pattern 0 matches every file, pattern 1 matches files 1 and 2,
    pattern 2 matches file 2 only *)
Definition ex_table : match_table := [(0,0);(0,1);(0,2);(0,3);(1,1);(1,2);(2,2)].
Definition ex_m := table_matches ex_table.
Definition ex_filter : filter N := Filter [1] [2].   (* apply to pattern 1, skip pattern 2: selects file 1 only *)
Definition ex_r (flt : filter N) (i : N) := mark_rule flt i.

Example ex_selected : selected ex_m ex_filter 1.
Proof. apply should_apply_selected. vm_compute. reflexivity. Qed.
Example ex_not_selected_by_apply : ~ selected ex_m ex_filter 0.
Proof. apply should_apply_not_selected. vm_compute. reflexivity. Qed.
Example ex_not_selected_by_skip : ~ selected ex_m ex_filter 2.
Proof. apply should_apply_not_selected. vm_compute. reflexivity. Qed.

(* rule_filter_skip has an instance where deleting the rule matters on another file *)
Example ex_rule_skip :
  should_apply ex_m (r_filter (ex_r ex_filter 2)) 2 = false /\
  run_rules ex_m [ex_r no_filter 1; ex_r ex_filter 2; ex_r no_filter 3] 2 [] = Some [3;1] /\
  run_rules ex_m [ex_r no_filter 1; ex_r no_filter 3] 2 [] = Some [3;1] /\
  run_rules ex_m [ex_r no_filter 1; ex_r ex_filter 2; ex_r no_filter 3] 1 [] = Some [3;2;1].
Proof. vm_compute. repeat split. Qed.

Example ex_rule_apply :
  should_apply ex_m (r_filter (ex_r ex_filter 2)) 1 = true /\
  run_rules ex_m [ex_r no_filter 1; unfiltered (ex_r ex_filter 2); ex_r no_filter 3] 1 [] = Some [3;2;1].
Proof. vm_compute. repeat split. Qed.

(* global_filter_spec: a parsed, bundled file; both branches occur *)
Example ex_global :
  trace_file ex_table ex_filter [no_filter; no_filter] 1 = Some [2;1] /\
  trace_file ex_table ex_filter [no_filter; no_filter] 2 = None /\
  trace_file ex_table no_filter [no_filter; no_filter] 2 = Some [2;1].
Proof. vm_compute. repeat split. Qed.

(* filters_local: two different filters with the same decision on file 3 (both reject), different on file 1 *)
Example ex_local :
  configs_agree ex_m 3 (trace_config no_filter [ex_filter; no_filter]) (trace_config no_filter [Filter [2] []; no_filter]) /\
  should_apply ex_m ex_filter 1 <> should_apply ex_m (Filter [2] []) 1.
Proof.
  split.
  - split; [reflexivity|]. cbn. constructor; [reflexivity|vm_compute; reflexivity|]. apply rules_agree_refl.
  - vm_compute. discriminate.
Qed.
