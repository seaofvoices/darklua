(** C16, convert_function_to_assignment: [function a.b.c(ps) body end] / [function a.b:m(ps) body end]
    against the assignment [a.b.c = function(ps) body end] / [a.b.m = function(self, ps) body end].

    The interpreter keeps the method flag in the closure record ([c_self]) and binds [self] at the
    call; the assignment creates a record with an explicit first parameter [self].  Both records
    are [clos_rel]-related (Proof/RefactorSimDefs.v): [call] cannot tell them apart.  Type
    annotations, generics and attributes, which the rule drops, are not looked at by [call] either.

    The function statement allocates the closure BEFORE it walks the path [a.b], the assignment
    evaluates [a.b] first.  With an [__index] metamethod on the path that allocates closures the
    two orders give different addresses; the theorem is stated for paths whose fields are present
    in the tables ([path_raw]: no metamethod runs), which is what a function definition on a
    module table looks like.  The final store operation ([setindex], which may run [__newindex])
    is compared through the closure-representation independence of [setindex]
    (Proof/RefactorSim.v), a section hypothesis here. *)
From Coq Require Import ZArith NArith List Bool String Lia.
From DL Require Import Lib.Bytes Lib.F64 Lua.Syntax Lua.Sem Lua.EvalSpec.
From DL Require Import Model.Removal Model.Refactor.
From DL Require Import Proof.LoweringFuel Proof.SemFacts Proof.EvaluatorStore Proof.DefaultRulesSem Proof.RefactorSem Proof.RefactorSimDefs.
From DL Require Import Proof.RefactorSimB.
Import ListNotations.
Open Scope N_scope.

Definition opt_list {A} (o : option A) : list A := match o with Some a => [a] | None => [] end.

(** every field of the path but the last is present in the table it is read from *)
Fixpoint path_raw (tabs : list table) (o : value) (ks : list name) : Prop :=
  match ks with
  | [] => True
  | k :: rest =>
    match rest with
    | [] => True
    | _ => exists a t, o = VTable a /\ nth_N tabs (N.to_nat a) = Some t /\
                       raw_get (t_entries t) (VStr k) <> VNil /\
                       path_raw tabs (raw_get (t_entries t) (VStr k)) rest
    end
  end.

Lemma path_raw_step tabs o k rest :
  rest <> [] -> path_raw tabs o (k :: rest) ->
  exists a t, o = VTable a /\ nth_N tabs (N.to_nat a) = Some t /\
              raw_get (t_entries t) (VStr k) <> VNil /\
              path_raw tabs (raw_get (t_entries t) (VStr k)) rest.
Proof. destruct rest; [contradiction|]. intros _ H. exact H. Qed.

Lemma store_rel_refl s : store_rel s s.
Proof. exact (RefactorSimB.store_rel_refl s). Qed.

Lemma function_records_rel ps variadic vt rt gen attrs body rho (method : option name) :
  clos_rel (mkClosure (FBody ps variadic vt rt gen attrs body) rho (match method with Some _ => true | None => false end))
           (mkClosure (FBody (match method with Some _ => Param nm_self None :: ps | None => ps end)
                             variadic None None None 0 body) rho false).
Proof.
  unfold clos_rel, effective_params, closure_variadic, closure_block. cbn [c_body c_self c_env].
  destruct method as [m|]; repeat split; auto.
Qed.

Section Function.
Variable d : dialect.

(** closure-representation independence of [setindex] (Proof/RefactorSim.v) *)
Hypothesis sim_setindex : forall n o k v s1 s2,
  store_rel s1 s2 -> res_rel eq (setindex d n o k v s1) (setindex d n o k v s2).

Lemma sim_assign_target n rho t v : rel2 eq (assign_target d n rho t v) (assign_target d n rho t v).
Proof.
  intros s1 s2 Hs. destruct n as [|n]; [exact I|]. destruct t as [[[a|] o] k].
  - rewrite !assign_target_S_cell. now apply obl_set_cell.
  - rewrite !assign_target_S_index. now apply sim_setindex.
Qed.

Lemma new_closure_frame c s a s' : new_closure c s = Ok a s' -> cells s' = cells s /\ tables s' = tables s.
Proof. unfold new_closure. intros H. injection H as _ <-. auto. Qed.

Lemma reads_same_tabs rho x s s2 v :
  cells s2 = cells s -> tables s2 = tables s -> reads rho x s v -> reads rho x s2 v.
Proof. unfold reads. intros -> ->. auto. Qed.

Lemma path_go_cons_ne n o k rest : rest <> [] ->
  path_go d n o (k :: rest) = (o' <- index d n o (VStr k) ;; path_go d n o' rest).
Proof. destruct rest; [contradiction|]. intros _. apply path_go_cons. Qed.

(** along a path of present fields the statement's loop and the nested field expression of the
    assignment (built on [acc], which denotes [o]) reach the same object, without effect *)
Lemma path_prefix rho va s sA n kl : tables sA = tables s -> forall ks acc o ja o' s',
  (1 <= ja)%nat -> (forall j, (ja <= j)%nat -> eval1 d j rho va acc s = Ok o s) ->
  path_raw (tables s) o (ks ++ [kl]) ->
  path_go d (S n) o (ks ++ [kl]) sA = Ok o' s' ->
  s' = sA /\ forall j, (ja + 2 * List.length ks <= j)%nat ->
             eval1 d j rho va (fold_left (fun a f => EField a f) ks acc) s = Ok o' s.
Proof.
  intros HtA.
  induction ks as [|k rest IH]; intros acc o ja o' s' Hja Hacc Hp Hgo; cbn [fold_left app List.length] in *.
  - apply ret_ok in Hgo as [-> ->]. split; [reflexivity|]. intros j L. apply Hacc. lia.
  - assert (Hne : rest ++ [kl] <> []) by (destruct rest; discriminate).
    apply path_raw_step in Hp as (a & t & -> & Ht & Hk & Hp); [|exact Hne].
    rewrite (path_go_cons_ne _ _ _ _ Hne) in Hgo. apply bind_ok in Hgo as (o1 & s1 & Hi & Hgo).
    rewrite (index_raw_hit d n a (VStr k) sA t) in Hi by (rewrite ?HtA; assumption).
    cbn [norm_key] in Hi. injection Hi as <- <-.
    apply (IH (EField acc k) _ (ja + 2)%nat) in Hgo as [-> Hev]; [|lia| |exact Hp].
    + split; [reflexivity|]. intros j L. apply Hev. lia.
    + intros i Li. destruct i as [|[|[|i]]]; try lia.
      rewrite eval1_S, eval_S_field. eapply bind_ok_intro.
      { eapply bind_ok_intro; [apply Hacc; lia|].
        eapply bind_ok_intro; [apply (index_raw_hit d i a (VStr k) s t Ht Hk)|reflexivity]. }
      reflexivity.
Qed.

(** what the function statement does once its closure [c] is allocated (store [sA], which has
    the cells and tables of [s]): it assigns [c] to the target that the variable of the
    rewritten statement evaluates to in [s] *)
Lemma sfunction_store_target n rho va base path c s sA r sL :
  cells sA = cells s -> tables sA = tables s ->
  (path <> [] -> exists o, reads rho base s o /\ path_raw (tables s) o path) ->
  sfunction_store d n rho va base path c sA = Ok r sL ->
  exists t m,
    (forall j, (m <= j)%nat ->
       eval_target d j rho va (fold_left (fun a f => EField a f) path (EIdent base)) s = Ok t s) /\
    assign_target d (S n) rho t (VClosure c) sA = Ok tt sL /\ r = (rho, SigNone).
Proof.
  intros Hc Ht Hpath H. unfold sfunction_store in H. destruct path as [|k0 path0].
  - apply bind_ok in H as (t & s1 & Htg & H). apply bind_ok in H as ([] & s2 & Ha & Hret).
    apply ret_ok in Hret as [-> ->].
    fuel_S n Htg. rewrite eval_target_ident in Htg. injection Htg as <- <-.
    eexists _, 1%nat. split; [|split; [|reflexivity]].
    + intros [|j] L; [lia|]. apply eval_target_ident.
    + eapply assign_target_mono; [|exact Ha]. lia.
  - destruct (Hpath ltac:(discriminate)) as (o & Hr & Hp).
    destruct (exists_last (l := k0 :: path0) ltac:(discriminate)) as (ks & kl & E).
    rewrite E in *. clear E k0 path0. rewrite last_last in H.
    apply bind_ok in H as (o1 & s1 & Ho & H). apply bind_ok in H as (o2 & s2 & Hgo & H).
    apply bind_ok in H as ([] & s3 & Hset & Hret). apply ret_ok in Hret as [-> ->].
    (* the base, read after the closure has been allocated *)
    pose proof (reads_same_tabs _ _ _ _ _ Hc Ht Hr) as HrA.
    pose proof (eval1_up d _ (n + 3) _ _ _ _ _ _ Ho ltac:(lia)) as Ho'.
    rewrite (reads_eval1 d rho va base sA o (n + 3) HrA ltac:(lia)) in Ho'. injection Ho' as <- <-.
    fuel_S n Ho.
    destruct (path_prefix rho va s sA n kl Ht ks (EIdent base) o 3 o2 s2 ltac:(lia)
                          (fun j => reads_eval1 d rho va base s o j Hr) Hp Hgo) as [-> Hev].
    exists (None, o2, VStr kl), (2 * List.length ks + 4)%nat. split; [|split; [|reflexivity]].
    + intros [|j] L; [lia|]. rewrite fold_left_app. cbn [fold_left]. rewrite eval_target_S_field.
      eapply bind_ok_intro; [apply Hev; lia|reflexivity].
    + rewrite assign_target_S_index. exact Hset.
Qed.

Lemma assign_function j rho va v f' s t c sB sR :
  eval_target d j rho va v s = Ok t s ->
  new_closure (mkClosure f' rho false) s = Ok c sB ->
  assign_target d j rho t (VClosure c) sB = Ok tt sR ->
  exec_stmt d (S (S (S j))) rho va (SAssign [v] [EFunction f']) s = Ok (rho, SigNone) sR.
Proof.
  intros Ht Hc Ha. rewrite exec_stmt_S_assign, targets_go_cons.
  eapply bind_ok_intro.
  { eapply bind_ok_intro; [eapply eval_target_mono; [|exact Ht]; lia|reflexivity]. }
  eapply bind_ok_intro.
  { rewrite eval_list_S_one, eval_S_function. eapply bind_ok_intro; [exact Hc|reflexivity]. }
  rewrite assign_go_cons. eapply bind_ok_intro; [|reflexivity].
  eapply bind_ok_intro; [eapply assign_target_mono; [|exact Ha]; lia|reflexivity].
Qed.

Theorem function_to_assign_sound n rho va base fields method f s r sL :
  exec_stmt d n rho va (SFunction base fields method f) s = Ok r sL ->
  (fields ++ opt_list method <> [] ->
   exists o, reads rho base s o /\ path_raw (tables s) o (fields ++ opt_list method)) ->
  exists m, forall j, (m <= j)%nat -> exists sR,
    exec_stmt d j rho va (rw_function_to_assign (SFunction base fields method f)) s = Ok r sR /\
    store_rel sL sR.
Proof.
  intros H Hpath. fuel_S n H. rewrite exec_stmt_S_function in H.
  destruct f as [ps variadic vt rt gen attrs body].
  apply bind_ok in H as (c & sA & HnA & H).
  (* the closure of the assignment gets the same address, in a related store *)
  pose proof (rel2_new_closure _ _ (function_records_rel ps variadic vt rt gen attrs body rho method)
                               s s (RefactorSimB.store_rel_refl s)) as HAB.
  rewrite HnA in HAB. destruct (new_closure _ s) as [c' sB| | |] eqn:HnB in HAB; try contradiction.
  destruct HAB as [<- HAB].
  destruct (new_closure_frame _ _ _ _ HnA) as [HcA HtA].
  apply (sfunction_store_target _ _ _ _ _ _ s _ _ _ HcA HtA Hpath) in H as (t & m & Ht & Ha & ->).
  (* the store operation cannot tell the two records apart *)
  pose proof (sim_assign_target (S n) rho t (VClosure c) sA sB HAB) as Hs. rewrite Ha in Hs.
  destruct (assign_target d (S n) rho t _ sB) as [[] sR| | |] eqn:EB; try contradiction.
  exists (S (S (S (S (m + n))))). intros j L. exists sR. split; [|apply Hs].
  destruct j as [|[|[|j]]]; try lia. cbn [rw_function_to_assign]. unfold function_variable, plain_function.
  apply (assign_function j rho va _ _ s t c sB sR); [apply Ht; lia|exact HnB|].
  eapply assign_target_mono; [|exact EB]. lia.
Qed.

End Function.
