(** C14 — tables of the reference interpreter as functions from keys to values: key
    equality is a partial equivalence, [raw_set] is a functional update, and the content
    of a table filled positionally / by key-value pairs is what the specification
    ([Lua/DataSpec.v]) says. *)
From Coq Require Import ZArith NArith List Bool Lia.
From Coq Require Import Floats.SpecFloat.
From DL Require Import Lib.Bytes Lib.F64 Lua.Syntax Lua.Sem Lua.DataSpec Proof.SerializerF64.
From DL Require Import Proof.ListFacts.
Import ListNotations.
Open Scope N_scope.

Lemma raw_equal_sym a b : raw_equal a b = true -> raw_equal b a = true.
Proof.
  destruct a, b; cbn; try discriminate; intros H.
  - reflexivity.
  - apply Bool.eqb_prop in H. subst. apply Bool.eqb_reflx.
  - now apply SFeqb_sym.
  - apply bytes_eqb_eq in H. subst. apply bytes_eqb_refl.
  - apply N.eqb_eq in H. subst. apply N.eqb_refl.
  - apply N.eqb_eq in H. subst. apply N.eqb_refl.
  - apply N.eqb_eq in H. subst. apply N.eqb_refl.
  - apply bytes_eqb_eq in H. subst. apply bytes_eqb_refl.
Qed.

Lemma raw_equal_trans a b c : raw_equal a b = true -> raw_equal b c = true -> raw_equal a c = true.
Proof.
  destruct a, b; cbn; try discriminate; intros H; destruct c; cbn; try discriminate; intros H2.
  - reflexivity.
  - apply Bool.eqb_prop in H. now subst.
  - eapply SFeqb_trans; eauto.
  - apply bytes_eqb_eq in H. now subst.
  - apply N.eqb_eq in H. now subst.
  - apply N.eqb_eq in H. now subst.
  - apply N.eqb_eq in H. now subst.
  - apply bytes_eqb_eq in H. now subst.
Qed.

Lemma raw_equal_cong a b c : raw_equal a b = true -> raw_equal a c = raw_equal b c.
Proof.
  intros H. destruct (raw_equal a c) eqn:E1, (raw_equal b c) eqn:E2; auto.
  - apply raw_equal_sym in H. rewrite (raw_equal_trans _ _ _ H E1) in E2. discriminate.
  - rewrite (raw_equal_trans _ _ _ H E2) in E1. discriminate.
Qed.

Lemma raw_equal_refl k : match k with VNum x => is_nan x = false | _ => True end ->
  raw_equal k k = true.
Proof.
  destruct k; cbn [raw_equal]; intros H.
  - reflexivity.
  - apply Bool.eqb_reflx.
  - apply SFeqb_refl, H.
  - apply bytes_eqb_refl.
  - apply N.eqb_refl.
  - apply N.eqb_refl.
  - apply N.eqb_refl.
  - apply bytes_eqb_refl.
Qed.

Lemma norm_key_refl k k' : norm_key k = Some k' -> raw_equal k' k' = true.
Proof.
  intros H. apply raw_equal_refl.
  destruct k; cbn [norm_key] in H; try discriminate; try (injection H as <-; exact I).
  destruct (is_nan x) eqn:En; [discriminate|].
  destruct (is_zero x); injection H as <-; [reflexivity|exact En].
Qed.

Lemma key_value_refl k kv : key_value k = Some kv -> raw_equal kv kv = true.
Proof.
  destruct k; cbn [key_value]; try discriminate; intros H.
  - injection H as <-. exact (raw_equal_refl (VBool b) I).
  - exact (norm_key_refl _ _ H).
  - exact (norm_key_refl _ _ H).
  - injection H as <-. exact (raw_equal_refl (VStr s) I).
Qed.

Lemma norm_key_idem k k' : norm_key k = Some k' -> norm_key k' = Some k'.
Proof.
  destruct k; cbn; try discriminate; intros H; try (inversion H; subst; reflexivity).
  destruct (is_nan x) eqn:En; [discriminate|]. destruct (is_zero x) eqn:Ez; inversion H; subst.
  - reflexivity.
  - cbn. now rewrite En, Ez.
Qed.

Lemma raw_get_set es k v k2 :
  raw_get (raw_set es k v) k2 = if raw_equal k k2 then v else raw_get es k2.
Proof.
  induction es as [|[k0 v0] rest IH]; cbn [raw_set raw_get].
  - destruct v; cbn [raw_get]; destruct (raw_equal k k2); reflexivity.
  - destruct (raw_equal k0 k) eqn:E0; cbn [raw_get].
    + rewrite (raw_equal_cong _ _ k2 E0). destruct (raw_equal k k2); reflexivity.
    + destruct (raw_equal k0 k2) eqn:E2; [|exact IH].
      destruct (raw_equal k k2) eqn:E; [|reflexivity].
      apply raw_equal_sym in E. rewrite (raw_equal_trans _ _ _ E2 E) in E0. discriminate.
Qed.

Fixpoint seq_fill (es : list (value * value)) (pos : Z) (vs : list value) : list (value * value) :=
  match vs with
  | [] => es
  | v :: r => seq_fill (match v with VNil => es | _ => raw_set es (VNum (of_Z pos)) v end) (pos + 1) r
  end.

Lemma seq_fill_other : forall vs es pos k,
  (forall i, (i < List.length vs)%nat -> raw_equal (VNum (of_Z (Z.of_nat i + pos))) k = false) ->
  raw_get (seq_fill es pos vs) k = raw_get es k.
Proof.
  induction vs as [|v r IH]; intros es pos k H; cbn [seq_fill]; [reflexivity|].
  rewrite IH.
  - assert (raw_equal (VNum (of_Z pos)) k = false) as H0.
    { specialize (H 0%nat). change (Z.of_nat 0 + pos)%Z with pos in H. apply H. cbn. lia. }
    destruct v; try reflexivity; rewrite raw_get_set, H0; reflexivity.
  - intros i Hi. replace (Z.of_nat i + (pos + 1))%Z with (Z.of_nat (S i) + pos)%Z by lia.
    apply H. cbn. lia.
Qed.

(** positional indices: integers from 1 below 2^53 are exact doubles, hence distinct keys *)
Lemma int_keys_distinct i j :
  (0 < i < 9007199254740992)%Z -> (0 < j < 9007199254740992)%Z -> i <> j ->
  raw_equal (VNum (of_Z i)) (VNum (of_Z j)) = false.
Proof.
  intros Hi Hj Hne. cbn [raw_equal]. destruct (feqb _ _) eqn:E; [|reflexivity].
  apply of_Z_small_inj in E; lia.
Qed.

Lemma int_key_refl i : (0 < i < 9007199254740992)%Z ->
  raw_equal (VNum (of_Z i)) (VNum (of_Z i)) = true.
Proof. intros Hi. apply raw_equal_refl, of_Z_small_finite, Hi. Qed.

Lemma seq_fill_nth : forall vs es pos i v,
  (1 <= pos)%Z -> (pos + Z.of_nat (List.length vs) <= 9007199254740992)%Z ->
  nth_error vs i = Some v ->
  raw_get es (VNum (of_Z (Z.of_nat i + pos))) = VNil ->
  raw_get (seq_fill es pos vs) (VNum (of_Z (Z.of_nat i + pos))) = v.
Proof.
  induction vs as [|v0 r IH]; intros es pos i v Hp Hlen Hn Hes; [destruct i; discriminate|].
  cbn [List.length] in Hlen. cbn [seq_fill]. destruct i as [|i]; cbn [nth_error] in Hn.
  - injection Hn as ->. change (Z.of_nat 0 + pos)%Z with pos in *.
    rewrite seq_fill_other.
    + destruct v; try exact Hes; rewrite raw_get_set, int_key_refl by lia; reflexivity.
    + intros j Hj. apply int_keys_distinct; lia.
  - assert (i < List.length r)%nat as Hi by (apply nth_error_Some; congruence).
    replace (Z.of_nat (S i) + pos)%Z with (Z.of_nat i + (pos + 1))%Z in * by lia.
    apply IH; try lia; try assumption.
    destruct v0; try exact Hes; rewrite raw_get_set, int_keys_distinct by lia; exact Hes.
Qed.

Fixpoint map_fill (es : list (value * value)) (kvs : list (value * value)) : list (value * value) :=
  match kvs with
  | [] => es
  | (k, v) :: r => map_fill (raw_set es k v) r
  end.

Lemma map_fill_app es l1 l2 : map_fill es (l1 ++ l2) = map_fill (map_fill es l1) l2.
Proof. revert es; induction l1 as [|[k v] r IH]; intros es; cbn; auto. Qed.

Lemma map_fill_other : forall kvs es k,
  (forall k0 v0, In (k0, v0) kvs -> raw_equal k0 k = false) ->
  raw_get (map_fill es kvs) k = raw_get es k.
Proof.
  induction kvs as [|[k1 v1] r IH]; intros es k H; cbn [map_fill]; [reflexivity|].
  rewrite IH by (intros k0 v0 Hin; eapply H; right; exact Hin).
  rewrite raw_get_set, (H k1 v1) by (left; reflexivity). reflexivity.
Qed.

Lemma map_fill_last es l1 k v l2 :
  raw_equal k k = true ->
  (forall k1 v1, In (k1, v1) l2 -> raw_equal k1 k = false) ->
  raw_get (map_fill es (l1 ++ (k, v) :: l2)) k = v.
Proof.
  intros Hr H. rewrite map_fill_app. cbn [map_fill].
  rewrite map_fill_other by exact H. now rewrite raw_get_set, Hr.
Qed.

