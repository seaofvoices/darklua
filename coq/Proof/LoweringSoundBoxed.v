(** C06, remove_if_expression: the boxed form [(c and {r} or {e})[1]], used when the result
    may be falsy.  PARTIAL: proved for results [r], [e] that are literals or local variables
    ("atomic": their evaluation neither allocates nor depends on the table store).  Then the
    values are the same and the final store is the original one plus exactly one unreachable
    table (the box), appended at the end.

    What is missing for arbitrary [r], [e]: the box is allocated BEFORE the result is
    evaluated, so every table the result expression allocates gets an address shifted by one
    in the rewritten program.  Values and stores then agree only up to a renaming of table
    addresses, and relating the two runs needs the frame / renaming property of the whole
    interpreter (an induction over all of Lua/Sem.v) - the "lifting" part of C06 that is not
    proved; the whole-program stream of vlib/c06.py validates those cases per run. *)
From Coq Require Import ZArith NArith List Bool String Lia.
From DL Require Import Lib.Bytes Lib.F64 Lua.Syntax Lua.Sem Model.Evaluator Lua.EvalSpec Lua.EvalSpec2
  Proof.SemFacts Proof.EvaluatorStore Proof.EvaluatorSound Proof.LoweringFuel Proof.RefactorSem
  Proof.DefaultRulesSoundBlock Proof.DefaultRulesSoundExpr Proof.LoweringSoundBasic Model.Visit Model.Lowering.
Import ListNotations.
Open Scope N_scope.
Local Notation llen := List.length.

Definition atomic (rho : env) (e : expr) : bool :=
  match e with
  | ENil | ETrue | EFalse | ENumber _ | EString _ => true
  | EIdent x => match lookup rho x with Some _ => true | None => false end
  | _ => false
  end.

Definition atomic_value (rho : env) (cs : list value) (e : expr) : option value :=
  match e with
  | ENil => Some VNil
  | ETrue => Some (VBool true)
  | EFalse => Some (VBool false)
  | ENumber x => Some (VNum (number_value x))
  | EString b => Some (VStr b)
  | EIdent x => match lookup rho x with Some a => nth_N cs (N.to_nat a) | None => None end
  | _ => None
  end.

Lemma atomic_eval d n rho va e s : atomic rho e = true ->
  eval d (S n) rho va e s = match atomic_value rho (cells s) e with Some v => Ok [v] s | None => Unsup 1 end.
Proof.
  destruct e; intros A; try discriminate A; try reflexivity.
  rewrite eval_S_ident. cbn [atomic atomic_value] in *. destruct (lookup rho x); [|discriminate A].
  unfold bind, get_cell. destruct (nth_N (cells s) (N.to_nat n0)); reflexivity.
Qed.

Lemma atomic_single rho e : atomic rho e = true -> can_return_multiple_values e = false.
Proof. destruct e; intros A; try discriminate A; reflexivity. Qed.

Lemma atomic_eval1_inv d n rho va e s v s' : atomic rho e = true ->
  eval1 d n rho va e s = Ok v s' -> s' = s /\ atomic_value rho (cells s) e = Some v.
Proof.
  intros A H. apply eval1_inv in H as (m & vs & -> & Hv & ->).
  fuel_S m Hv. rewrite (atomic_eval _ _ _ _ _ _ A) in Hv.
  destruct (atomic_value rho (cells s) e); [|discriminate Hv]. inversion Hv. auto.
Qed.

Definition with_table (s : store) (t : table) : store :=
  mkStore (cells s) (tables s ++ [t]) (closures s) (trace s) (oracle s) (fresh s).

Definition key_one : value := VNum (of_Z 1).
Definition box_of (v : value) : table :=
  mkTable (match v with VNil => [] | _ => [(key_one, v)] end) None.

Lemma norm_key_one : norm_key key_one = Some key_one.
Proof. reflexivity. Qed.

Lemma num_one_value : number_value (NDec 4607182418800017408 None) = of_Z 1.
Proof. vm_compute. reflexivity. Qed.

Lemma get_table_last s t : get_table (N.of_nat (llen (tables s))) (with_table s t) = Ok t (with_table s t).
Proof. apply get_table_some. cbn [with_table tables]. apply nth_N_last. Qed.

Lemma put_pos_box s v :
  put_pos (N.of_nat (llen (tables s))) 1 v (with_table s (mkTable [] None)) = Ok tt (with_table s (box_of v)).
Proof.
  destruct v; try reflexivity; unfold put_pos, put; fold key_one;
    (eapply bind_ok_intro; [apply get_table_last|]);
    rewrite norm_key_one; unfold set_table, with_table;
    cbn [tables cells closures trace oracle fresh t_entries t_meta raw_set box_of];
    rewrite set_nth_last; reflexivity.
Qed.

Lemma eval1_box d k rho va e s v : atomic rho e = true -> atomic_value rho (cells s) e = Some v ->
  (5 <= k)%nat ->
  eval1 d k rho va (ETable [TValue e]) s = Ok (VTable (N.of_nat (llen (tables s)))) (with_table s (box_of v)).
Proof.
  intros A V Hk. destruct k as [|[|[|[|[|k]]]]]; try lia.
  apply (eval1_of_eval d _ rho va _ s [VTable (N.of_nat (llen (tables s)))]).
  rewrite eval_S_table.
  eapply bind_ok_intro; [unfold new_table; reflexivity|]. fold (with_table s (mkTable [] None)).
  eapply bind_ok_intro; [|reflexivity]. rewrite fill_table_S_last.
  eapply bind_ok_intro; [rewrite (atomic_eval _ _ _ _ _ _ A); cbn [with_table cells]; rewrite V; reflexivity|].
  cbn [fill_go]. eapply bind_ok_intro; [apply put_pos_box|reflexivity].
Qed.

(** the box has no metatable: indexing it is a raw read *)
Lemma index_box d k s v : (1 <= k)%nat ->
  index d k (VTable (N.of_nat (llen (tables s)))) key_one (with_table s (box_of v)) =
  Ok v (with_table s (box_of v)).
Proof.
  intros Hk. destruct k as [|k]; [lia|].
  rewrite (index_plain_table d _ _ key_one _ (box_of v)); [|cbn [with_table tables]; apply nth_N_last|reflexivity].
  rewrite norm_key_one. destruct v; reflexivity.
Qed.

Lemma eval1_paren_SS d n rho va e s : eval1 d (S (S n)) rho va (EParen e) s = eval1 d n rho va e s.
Proof.
  rewrite eval1_S, eval_S_paren. unfold bind. destruct (eval1 d n rho va e s); reflexivity.
Qed.

Lemma eval1_num_one d k rho va s : (2 <= k)%nat -> eval1 d k rho va num_one s = Ok key_one s.
Proof.
  intros Hk. destruct k as [|[|k]]; try lia.
  unfold num_one, key_one. rewrite eval1_S, eval_S_number, <- num_one_value. reflexivity.
Qed.

Definition boxed (c r e : expr) : expr :=
  EIndex (EParen (EBinary BOr (EBinary BAnd c (wrap_in_table r)) (wrap_in_table e))) num_one.

Lemma convert_boxed c r e : is_truthy (evaluate r) <> Some true -> convert_if_branch c r e = boxed c r e.
Proof. unfold convert_if_branch, boxed. destruct (is_truthy (evaluate r)) as [[|]|]; try reflexivity. intros H. contradiction H. reflexivity. Qed.

Theorem ifexpr_boxed_partial : forall d n rho va c r els s vs s',
  atomic rho r = true -> atomic rho els = true ->
  eval d n rho va (EIf [EBranch c r] els) s = Ok vs s' ->
  exists n' t, eval d n' rho va (boxed c r els) s = Ok vs (with_table s' t) /\ t_meta t = None.
Proof.
  intros d n rho va c r els s vs s' Ar Ae H.
  fuel_S n H. rewrite eval_S_if, if_go_cons in H.
  unfold boxed, wrap_in_table. rewrite (atomic_single _ _ Ar), (atomic_single _ _ Ae).
  apply bind_ok in H as (cv & s0 & Hc & H).
  (* the value of the inner and/or is the box of the chosen result *)
  assert (exists v, vs = [v] /\ s' = s0 /\
            atomic_value rho (cells s0) (if truthy cv then r else els) = Some v /\
            atomic rho (if truthy cv then r else els) = true) as (v & -> & -> & Vv & Av).
  { destruct (truthy cv); [|rewrite if_go_nil in H];
      apply bind_ok in H as (v & s1 & Hr & H); apply ret_ok in H as [-> ->];
      (apply atomic_eval1_inv in Hr as [-> Vr]; [|assumption]); eauto. }
  exists (S (S (S (S (S (S (S (n + 5)))))))), (box_of v). split; [|reflexivity].
  rewrite eval_S_index. eapply bind_ok_intro.
  { rewrite eval1_paren_SS, eval1_or_S. unfold bind at 1. rewrite eval1_and_S. unfold bind at 1.
    rewrite (eval1_up _ _ (n + 5) _ _ _ _ _ _ Hc) by lia.
    destruct (truthy cv) eqn:Tc.
    - rewrite (eval1_box d _ rho va r s0 v Av Vv) by lia. reflexivity.
    - cbn [ret]. rewrite Tc. apply (eval1_box d _ rho va els s0 v Av Vv). lia. }
  eapply bind_ok_intro; [apply eval1_num_one; lia|].
  eapply bind_ok_intro; [apply index_box; lia|reflexivity].
Qed.

(** the rule's output on such an if-expression is that boxed form *)
Corollary ifexpr_boxed_rule_partial : forall d n rho va c r els s vs s',
  is_truthy (evaluate r) <> Some true -> atomic rho r = true -> atomic rho els = true ->
  eval d n rho va (EIf [EBranch c r] els) s = Ok vs s' ->
  exists n' t, eval d n' rho va (rw_if_expression (EIf [EBranch c r] els)) s = Ok vs (with_table s' t) /\
               t_meta t = None.
Proof.
  intros d n rho va c r els s vs s' Hn Ar Ae H. cbn [rw_if_expression fold_right].
  rewrite (convert_boxed _ _ _ Hn). eapply ifexpr_boxed_partial; eauto.
Qed.

Example ifexpr_boxed_example :
  let e := EIf [EBranch (EIdent (of_string "q")) ENil] EFalse in
  is_truthy (evaluate ENil) <> Some true /\ atomic [] ENil = true /\ atomic [] EFalse = true /\
  exists s', eval Luau 9 [] [] e (initial_store []) = Ok [VBool false] s' /\
             eval Luau 16 [] [] (rw_if_expression e) (initial_store []) =
             Ok [VBool false] (with_table s' (mkTable [(key_one, VBool false)] None)).
Proof. split; [discriminate|]. split; [reflexivity|]. split; [reflexivity|]. vm_compute. eexists. split; reflexivity. Qed.
