(** C06, remove_interpolated_string: the one-segment form [`{v}`] => [tostring(v)] (either
    strategy).  The [string.format] forms (several segments) have no local theorem: they go
    through the format-string interpreter of the library, validated per run only. *)
From Coq Require Import ZArith NArith List Bool String Lia.
From DL Require Import Lib.Bytes Lib.F64 Lua.Syntax Lua.Sem Proof.SemFacts Proof.EvaluatorStore Proof.DefaultRulesSem
  Proof.LoweringFuel Proof.RefactorSem Proof.DefaultRulesSoundBlock Proof.LoweringSoundBasic
  Proof.LoweringSoundArith Model.Visit Model.Lowering.
Import ListNotations.
Open Scope N_scope.

Definition tostring_bound (s : store) : Prop :=
  exists g, nth_N (tables s) (N.to_nat A_globals) = Some g /\
            raw_get (t_entries g) (VStr (lnm "tostring")) = VBuiltin B_tostring.

Lemma initial_store_tostring orc : tostring_bound (initial_store orc).
Proof. exists (nth 0 initial_tables (mkTable [] None)). split; reflexivity. Qed.

Lemma call_builtin_tostring d k args :
  call_builtin d (S k) B_tostring args = (v <- tostr d k (arg args 0) ;; ret [v]).
Proof. rewrite call_builtin_S. reflexivity. Qed.

Lemma arg0_first vs : arg vs 0 = first vs.
Proof. destruct vs; reflexivity. Qed.

Theorem interp_single_sound : forall st d n rho va v s vs s',
  lookup rho (lnm "tostring") = None -> tostring_bound s ->
  eval d n rho va (EInterp [ISExpr v]) s = Ok vs s' ->
  exists n', eval d n' rho va (rw_interpolated_string st (EInterp [ISExpr v])) s = Ok vs s'.
Proof.
  intros st d n rho va v s vs s' Hl (g & Hg & Ht) H.
  fuel_S n H. rewrite eval_S_interp, interp_go_expr in H.
  apply bind_ok in H as (x & s1 & Hx & H). apply bind_ok in H as (sv & s2 & Hsv & H).
  destruct sv; try discriminate H. rewrite interp_go_nil in H. apply ret_ok in H as [-> ->].
  apply eval1_inv in Hx as (m & xs & -> & Hxs & ->).
  cbn [rw_interpolated_string]. unfold call_tostring.
  exists (S (S (S (S (S m))))). rewrite eval_S_call_plain.
  eapply bind_ok_intro.
  { apply (reads_eval1 d rho va _ s (VBuiltin B_tostring)); [|lia]. eapply reads_global; eauto. discriminate. }
  eapply bind_ok_intro.
  { rewrite eval_args_S_tuple, eval_list_S_one. apply (eval_up _ _ (S (S m)) _ _ _ _ _ _ Hxs). lia. }
  rewrite call_S_builtin, call_builtin_tostring, arg0_first.
  eapply bind_ok_intro; [eapply tostr_mono; [|exact Hsv]; lia|reflexivity].
Qed.

Example interp_single_example :
  let e := EInterp [ISExpr (ENumber (NDec 4607182418800017408 None))] in
  lookup [] (lnm "tostring") = None /\ tostring_bound (initial_store []) /\
  rw_interpolated_string false e = ECall (EIdent (lnm "tostring")) None (ATuple [ENumber (NDec 4607182418800017408 None)]) /\
  exists s', eval Luau 5 [] [] e (initial_store []) = Ok [VStr [49]] s' /\
             eval Luau 9 [] [] (rw_interpolated_string false e) (initial_store []) = Ok [VStr [49]] s'.
Proof.
  split; [reflexivity|]. split; [apply initial_store_tostring|]. split; [reflexivity|].
  vm_compute. eexists. split; reflexivity.
Qed.
