(** A bounded, exhaustive complement to [convert_keeps_target]: on a fixed universe that
    also contains aliases (with longest-alias selection), a custom module folder name,
    file-valued aliases (an ordinary file and a module-folder file),
    module-folder requiring files at every depth, absolute targets and targets reached
    through redundant segments, every conversion between the path and the luau mode keeps
    the target unless (a) the target is not the first existing candidate of its stripped
    form, or (b) the resolved path starts with "."/".." and the requiring file is not
    directly in the working directory. Proved by evaluation ([vm_compute]) over all
    6 configuration pairs x 128 file subsets x 6 requiring files x 35 require strings.

    What is evaluated is not [conv_ok] 161 280 times. [conv_ok] meets the file system only in
    [first_file f l], where the candidate list [l] does not depend on [f]. So the checker
    builds, once per (pair, requiring file, require string), a table from the candidates to
    what remains to be checked should that candidate be the first existing one ([stage2]: the
    candidate tables of the re-resolution and of carve-out (a), again independent of [f]), and
    only then runs over the 128 subsets. A candidate stands in a table as the test [present],
    which has compared it with the file names once and decides from the mask alone whether it
    is a file, so that per subset nothing is left but reading bits of the mask ([pick]). *)
From DL Require Import Lib.Bytes Model.Paths Model.Require Proof.PathsBasics Proof.PathsFacts Proof.PathsConvert.
Open Scope N_scope.
Local Open Scope string_scope.

Definition BS (s : string) : bytes := of_string s.
Definition BP (s : string) : path := parse_path (BS s).

(** carve-out (a), for any resolved path: compare files, not spellings *)
Definition ambiguousb (tgt : config) (f : fs) (t : path) : bool :=
  match first_file f (candidates (strip_target tgt (normalize false t)) (module_folder_name tgt)) with
  | Some q => negb (same_file q t)
  | None => true
  end.
(** carve-out (b) *)
Definition nested (src : path) : bool := Nat.ltb 1 (List.length (normalize false src)).
Definition relative_result (src t : path) : bool := is_require_relative t && nested src.

Definition conv_ok (cur tgt : config) (f : fs) (src : path) (lit : bytes) : bool :=
  match find_require cur [] f src lit with
  | Found t =>
    match find_require tgt [] f src (generate_require tgt src t) with
    | Found t' => same_file t' t
    | Failed _ => false
    end || ambiguousb tgt f t || relative_result src t
  | Failed _ => true
  end.

Definition mk_config (luau : bool) (mfn : string) (srcs : list (string * string)) (proj : option string) : config :=
  {| c_luau := luau; c_mfn := BS mfn; c_sources := map (fun kv => (BS (fst kv), BP (snd kv))) srcs;
     c_project := option_map BP proj; c_use_rc := false |}.

Definition bounded_pairs : list (config * config) :=
  [ (mk_config false "init" [] None, mk_config true "init" [] None);
    (mk_config true "init" [] None, mk_config false "init" [] None);
    (mk_config false "index" [] None, mk_config true "init" [] None);
    (mk_config true "init" [] None, mk_config false "index" [] None);
    (mk_config false "init" [("pkg", "pkg"); ("@deep", "pkg/b"); ("@binit", "src/b/init.lua"); ("@bfile", "pkg/b.lua")] (Some ""),
     mk_config true "init" [("@pkg", "pkg"); ("@deep", "pkg/b"); ("@binit", "src/b/init.lua"); ("@bfile", "pkg/b.lua")] (Some ""));
    (mk_config true "init" [("@pkg", "pkg"); ("@deep", "pkg/b"); ("@binit", "src/b/init.lua"); ("@bfile", "pkg/b.lua")] (Some ""),
     mk_config false "init" [("@pkg", "pkg"); ("@deep", "pkg/b"); ("@binit", "src/b/init.lua"); ("@bfile", "pkg/b.lua")] (Some "")) ].

Definition bounded_optional : list path :=
  map BP ["src/b.lua"; "src/b.luau"; "src/b/init.lua"; "pkg/b.lua"; "pkg/b/c.luau"; "b.lua"; "/abs/b.lua"].
Definition bounded_base : list path :=
  map BP ["src/a.lua"; "src/init.lua"; "main.lua"; "init.luau"; "src/sub/init.luau"; "src/sub/c.lua"].
Definition bounded_sources : list path := bounded_base.
Definition bounded_literals : list bytes :=
  map BS ["./b"; "./b.lua"; "./b.luau"; "./b/init"; "./b/init.lua"; "./b/index"; "../b"; "../src/b"; "./x/../b"; "../../b";
          "@self/b"; "@self"; "."; ".."; "./sub"; "./c"; "../c"; "./a"; "../a"; "./init"; "../init";
          "pkg/b"; "@pkg/b"; "@pkg/b.lua"; "@pkg/b/c"; "@deep"; "@deep/c"; "/abs/b"; "/abs/b.lua"; "../pkg/b"; "./pkg/b"; "src/b"; "b"; "@binit"; "@bfile"].

Fixpoint select_mask {A} (l : list A) (mask : N) : list A :=
  match l with
  | [] => []
  | x :: r => if N.odd mask then x :: select_mask r (N.div2 mask) else select_mask r (N.div2 mask)
  end.
Definition bounded_masks : list N := map N.of_nat (seq 0 128).
Definition bounded_fs (mask : N) : fs := (select_mask (mk_fs bounded_optional) mask ++ mk_fs bounded_base)%list.

Fixpoint positions {A} (p : A -> bool) (l : list A) (i : N) : list N :=
  match l with
  | [] => []
  | x :: r => if p x then i :: positions p r (N.succ i) else positions p r (N.succ i)
  end.

Lemma existsb_select_mask : forall A (p : A -> bool) l m i,
  existsb p (select_mask l (N.shiftr m i)) = existsb (N.testbit m) (positions p l i).
Proof.
  intros A p l m. induction l as [|x l IH]; intro i; [reflexivity|].
  cbn [select_mask positions]. rewrite <- N.shiftr_succ_r, <- N.testbit_odd.
  destruct (N.testbit m i) eqn:Hb, (p x) eqn:Hx; cbn [existsb]; rewrite ?Hb, ?Hx, IH; reflexivity.
Qed.

Section Checker.
(** the optional and the permanent files, as the file system holds them *)
Variables opt base : list path.

Definition fs_of (m : N) : fs := (select_mask opt m ++ base)%list.

Definition present (key : path) : N -> bool :=
  if existsb (path_eqb key) base then fun _ => true
  else let pos := positions (path_eqb key) opt 0 in fun m => existsb (N.testbit m) pos.

Lemma present_correct : forall key m, present key m = existsb (path_eqb key) (fs_of m).
Proof.
  intros. unfold present, fs_of. rewrite existsb_app, orb_comm.
  destruct (existsb _ base); [reflexivity|]. symmetry. exact (existsb_select_mask _ _ opt m 0).
Qed.

Definition keyed {A} (k : path -> A) (l : list path) : list ((N -> bool) * A) :=
  map (fun q => (present (normalize false q), k q)) l.

Fixpoint pick {A} (m : N) (d : A) (tbl : list ((N -> bool) * A)) : A :=
  match tbl with
  | [] => d
  | (test, a) :: r => if test m then a else pick m d r
  end.

Lemma pick_keyed : forall A m (d : A) k l,
  pick m d (keyed k l) = match first_file (fs_of m) l with Some q => k q | None => d end.
Proof.
  intros A m d k l. induction l as [|q l IH]; [reflexivity|].
  cbn [keyed map pick first_file]. unfold is_file. rewrite present_correct.
  destruct (existsb _ _); [reflexivity|exact IH].
Qed.

(** the candidates of [find_require c [] _ src lit]; none when the head of the path fails *)
Definition cands (c : config) (src : path) (lit : bytes) : list path :=
  match head_path c (rc_aliases c [] src) src (normalize true (parse_path lit)) with
  | inl q => candidates (normalize true q) (module_folder_name c)
  | inr _ => []
  end.

Definition on_found {A} (r : res) (d : A) (k : path -> A) : A :=
  match r with Found t => k t | Failed _ => d end.

Lemma on_found_find_require : forall A c m src lit (d : A) k,
  on_found (find_require c [] (fs_of m) src lit) d k
  = pick m d (keyed (fun q => k (normalize true q)) (cands c src lit)).
Proof.
  intros. rewrite pick_keyed. unfold find_require, find_require_path, locate, cands.
  destruct (head_path _ _ _ _) as [q|e]; [|reflexivity].
  destruct (first_file _ _); reflexivity.
Qed.

(** what is left of [conv_ok] once the first resolution has found [t] *)
Definition stage2 (tgt : config) (src t : path) : N -> bool :=
  if relative_result src t then fun _ => true
  else
    let refound := keyed (fun q => same_file (normalize true q) t) (cands tgt src (generate_require tgt src t)) in
    let own := keyed (fun q => negb (same_file q t))
                     (candidates (strip_target tgt (normalize false t)) (module_folder_name tgt)) in
    fun m => pick m false refound || pick m true own.

Lemma stage2_correct : forall tgt src t m,
  stage2 tgt src t m
  = on_found (find_require tgt [] (fs_of m) src (generate_require tgt src t)) false (fun t' => same_file t' t)
    || ambiguousb tgt (fs_of m) t || relative_result src t.
Proof.
  intros. unfold stage2. destruct (relative_result src t); [rewrite orb_true_r; reflexivity|].
  cbv zeta. rewrite orb_false_r, on_found_find_require. unfold ambiguousb. f_equal. apply pick_keyed.
Qed.

Definition conv_table (cur tgt : config) (src : path) (lit : bytes) : list ((N -> bool) * (N -> bool)) :=
  keyed (fun q => stage2 tgt src (normalize true q)) (cands cur src lit).

Lemma conv_ok_pick : forall cur tgt m src lit,
  conv_ok cur tgt (fs_of m) src lit = pick m (fun _ => true) (conv_table cur tgt src lit) m.
Proof.
  intros. unfold conv_table. rewrite <- on_found_find_require. unfold conv_ok, on_found.
  destruct (find_require cur [] (fs_of m) src lit) as [t|e]; [|reflexivity].
  symmetry. apply stage2_correct.
Qed.
End Checker.

(** the enumeration, the subsets innermost, under the table they share. The statement that is
    evaluated is an explicit [forallb] (a defined constant here would make the kernel unfold
    the wrong side at [Qed]) *)
Lemma bounded_ok_true :
  let opt := mk_fs bounded_optional in
  let base := mk_fs bounded_base in
  forallb (fun pr => forallb (fun src => forallb (fun lit =>
    let tbl := conv_table opt base (fst pr) (snd pr) src lit in
    forallb (fun m => pick m (fun _ => true) tbl m) bounded_masks) bounded_literals) bounded_sources) bounded_pairs = true.
Proof. vm_compute. reflexivity. Qed.

Lemma bounded_all :
  forall pr, In pr bounded_pairs -> forall mask, In mask bounded_masks ->
  forall src, In src bounded_sources -> forall lit, In lit bounded_literals ->
  conv_ok (fst pr) (snd pr) (bounded_fs mask) src lit = true.
Proof.
  intros pr Hp mask Hm src Hs lit Hl.
  change (bounded_fs mask) with (fs_of (mk_fs bounded_optional) (mk_fs bounded_base) mask).
  rewrite conv_ok_pick.
  pose proof bounded_ok_true as H. cbv zeta in H.
  apply (proj1 (forallb_forall _ _)) with (x := pr) in H; [|exact Hp].
  apply (proj1 (forallb_forall _ _)) with (x := src) in H; [|exact Hs].
  apply (proj1 (forallb_forall _ _)) with (x := lit) in H; [|exact Hl].
  exact (proj1 (forallb_forall _ _) H mask Hm).
Qed.

Theorem convert_keeps_target_bounded :
  forall cur tgt mask src lit t,
    In (cur, tgt) bounded_pairs -> In mask bounded_masks -> In src bounded_sources -> In lit bounded_literals ->
    find_require cur [] (bounded_fs mask) src lit = Found t ->
    ambiguousb tgt (bounded_fs mask) t = false ->
    relative_result src t = false ->
    exists t', find_require tgt [] (bounded_fs mask) src (generate_require tgt src t) = Found t' /\ same_file t' t = true.
Proof.
  intros cur tgt mask src lit t Hp Hm Hs Hl Hfind Ha Hr.
  pose proof (bounded_all (cur, tgt) Hp mask Hm src Hs lit Hl) as H.
  unfold conv_ok, fst, snd in H. rewrite Hfind, Ha, Hr, !orb_false_r in H.
  destruct (find_require tgt [] (bounded_fs mask) src (generate_require tgt src t)) as [t'|]; [|discriminate].
  exists t'. split; [reflexivity|exact H].
Qed.

(** carve-out (a) is needed in this universe: here the re-resolution does not give the target
    back and (b) does not apply, so [conv_ok] holds by [ambiguousb] alone *)
Example bounded_ambiguous_witness :
  conv_ok (mk_config false "init" [] None) (mk_config true "init" [] None) (bounded_fs 3) (BP "src/a.lua") (BS "./b.lua") = true /\
  ambiguousb (mk_config true "init" [] None) (bounded_fs 3) (BP "src/b.lua") = true.
Proof. vm_compute. split; reflexivity. Qed.
