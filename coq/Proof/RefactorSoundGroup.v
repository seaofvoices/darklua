(** C16, group_local_assignment: [local vars1 = vals1  local vars2 = vals2] is merged into
    [local vars1, vars2 = merge_values ...] when [should_merge vars1 vals1 vals2].

    In the reference interpreter the two programs differ in WHEN the cells of [vars1] are
    allocated (before / after the evaluation of [vals2]) and in the environment [vals2] is
    evaluated in (with / without the bindings of [vars1]).  EXACT equality of the final
    environment and store therefore holds when evaluating [vals2] neither depends on nor changes
    the cell list: [group_local_sound_partial] proves it for the class [frame_simple] of second
    initialisers (literals, [...], locals of the enclosing scope, under parentheses / type casts
    / [not]).  [group_local_exact_refuted_call] shows that exact equality fails for a second
    initialiser that allocates a cell (the returned values agree, the stores do not):
    observational equivalence of whole programs is validated per run, not proved here.
    [group_local_unguarded_refuted] and [group_local_mention_refuted] show that both guards of
    [should_merge] are necessary. *)
From Coq Require Import ZArith NArith List Bool String Lia.
From DL Require Import Lib.Bytes Lib.F64 Lua.Syntax Lua.Sem Lua.EvalSpec.
From DL Require Import Model.Removal Model.Refactor.
From DL Require Import Proof.SemFacts Proof.EvaluatorStore Proof.DefaultRulesSem Proof.RefactorSem.
Import ListNotations.
Open Scope N_scope.
Local Notation llen := List.length.

Fixpoint frame_simple (rho : env) (e : expr) : bool :=
  match e with
  | ENil | ETrue | EFalse | ENumber _ | EString _ | EVarArgs => true
  | EIdent y => match lookup rho y with Some _ => true | None => false end
  | EParen e' => frame_simple rho e'
  | ETypeCast e' _ => frame_simple rho e'
  | EUnary UNot e' => frame_simple rho e'
  | _ => false
  end.

Lemma arg_nil i : arg [] i = VNil.
Proof. unfold arg. destruct i; reflexivity. Qed.

Lemma arg_tl vs i : arg (tl vs) i = arg vs (S i).
Proof. unfold arg. destruct vs; [destruct i; reflexivity|reflexivity]. Qed.

Lemma arg_repeat_nil q i : arg (repeat VNil q) i = VNil.
Proof. unfold arg. revert i. induction q as [|q IH]; intros [|i]; cbn [repeat nth]; auto. Qed.

Lemma arg_skipn (l : list value) n i : arg (skipn n l) i = arg l (n + i).
Proof.
  unfold arg. revert l. induction n as [|n IH]; intros l; [reflexivity|].
  destruct l as [|x l]; [destruct i; reflexivity|]. cbn [skipn Nat.add nth]. apply IH.
Qed.

Definition add_cells (s : store) (extra : list value) : store :=
  mkStore (cells s ++ extra) (tables s) (closures s) (trace s) (oracle s) (fresh s).

Lemma add_cells_nil s : add_cells s [] = s.
Proof. destruct s. unfold add_cells. cbn. rewrite app_nil_r. reflexivity. Qed.

Lemma add_cells_add s a b : add_cells (add_cells s a) b = add_cells s (a ++ b).
Proof. unfold add_cells. cbn. rewrite app_assoc. reflexivity. Qed.

Lemma new_cell_add v s : new_cell v s = Ok (N.of_nat (llen (cells s))) (add_cells s [v]).
Proof. reflexivity. Qed.

(** the new bindings hide only the declared names, the store only gets new cells *)
Lemma local_go_spec vars : forall vs acc s rho' s',
  local_go vars vs acc s = Ok rho' s' ->
  (exists extra, s' = add_cells s extra) /\
  (forall y, is_target (map param_name vars) y = false -> lookup rho' y = lookup acc y).
Proof.
  induction vars as [|p ps IH]; intros vs acc s rho' s' H.
  - rewrite local_go_nil in H. apply ret_ok in H as [-> ->]. split; [exists []; symmetry; apply add_cells_nil|auto].
  - rewrite local_go_cons in H. apply bind_ok in H as (a & s1 & Ha & Hb).
    rewrite new_cell_add in Ha. inversion Ha; subst a s1. clear Ha.
    apply IH in Hb as [(extra & ->) Hl]. split.
    + eexists. apply add_cells_add.
    + intros y Hy. unfold is_target in *. cbn [map existsb] in Hy. apply orb_false_elim in Hy as [Hy1 Hy2].
      rewrite (Hl y Hy2). cbn [lookup]. rewrite Hy1. reflexivity.
Qed.

(** only the first [|vars|] values matter *)
Lemma local_go_ext vars : forall vs vs' acc s,
  (forall i, (i < llen vars)%nat -> arg vs i = arg vs' i) ->
  local_go vars vs acc s = local_go vars vs' acc s.
Proof.
  induction vars as [|p ps IH]; intros vs vs' acc s H; [reflexivity|].
  rewrite !local_go_cons. rewrite (H 0%nat) by (cbn [List.length]; lia).
  apply bind_eq. intros a s1 _. apply IH. intros i L. rewrite !arg_tl. apply H. cbn [List.length]. lia.
Qed.

Lemma local_go_app vars1 vars2 : forall vs acc s rho1 s1 rho2 s2,
  local_go vars1 vs acc s = Ok rho1 s1 ->
  local_go vars2 (skipn (llen vars1) vs) rho1 s1 = Ok rho2 s2 ->
  local_go (vars1 ++ vars2) vs acc s = Ok rho2 s2.
Proof.
  induction vars1 as [|p ps IH]; intros vs acc s rho1 s1 rho2 s2 H1 H2.
  - rewrite local_go_nil in H1. apply ret_ok in H1 as [-> ->]. exact H2.
  - cbn [app]. rewrite local_go_cons in *. apply bind_ok in H1 as (a & sa & Ha & Hb).
    eapply bind_ok_intro; [exact Ha|]. eapply IH; [exact Hb|].
    replace (skipn (llen ps) (tl vs)) with (skipn (llen (p :: ps)) vs); [exact H2|].
    cbn [List.length]. destruct vs; [destruct (llen ps); reflexivity|reflexivity].
Qed.

Lemma should_merge_lengths vars1 vals1 vals2 :
  should_merge vars1 vals1 vals2 = true -> vals1 = [] \/ llen vals1 = llen vars1.
Proof.
  unfold should_merge. destruct (Nat.ltb_spec (llen vals1) (llen vars1)) as [L1|L1]; cbn [andb].
  - destruct vals1; [auto|discriminate].
  - destruct (Nat.ltb_spec (llen vars1) (llen vals1)); [discriminate|]. intros _. right. lia.
Qed.

Lemma should_merge_no_mention vars1 vals1 vals2 :
  should_merge vars1 vals1 vals2 = true -> existsb (ment_expr (map param_name vars1)) vals2 = false.
Proof.
  unfold should_merge. destruct (_ && _); [discriminate|]. destruct (_ <? _)%nat; [discriminate|].
  apply negb_true_iff.
Qed.

Section Group.
Variable d : dialect.
Variable va : list value.

Section Frame.
Variable xs : list name.            (* the names declared by the first statement *)
Variable rho1 rho : env.            (* with / without their bindings *)
Variable s1 : store.
Variable extra : list value.
Hypothesis Hrho : forall y, is_target xs y = false -> lookup rho1 y = lookup rho y.
Hypothesis Hin : forall y c, lookup rho y = Some c -> (N.to_nat c < llen (cells s1))%nat.

(** whatever [m1] yields in the store with the new cells, it leaves that store alone and [m]
    yields the same in the store without them; a relation on computations that goes through
    [bind], so that the interpreter's equations can be followed on both sides at once *)
Definition framed {A} (m1 m : M A) : Prop :=
  forall a s3, m1 (add_cells s1 extra) = Ok a s3 -> s3 = add_cells s1 extra /\ m s1 = Ok a s1.

Lemma framed_ret {A} (a : A) : framed (ret a) (ret a).
Proof. intros b s3 H. apply ret_ok in H as [-> ->]. auto. Qed.

Lemma framed_bind {A B} (m1 m : M A) (f1 f : A -> M B) :
  framed m1 m -> (forall a, framed (f1 a) (f a)) -> framed (bind m1 f1) (bind m f).
Proof.
  intros Hm Hf b s3 H. apply bind_ok in H as (a & s2 & H1 & H2).
  apply Hm in H1 as [-> H1]. apply Hf in H2 as [-> H2]. split; [reflexivity|].
  eapply bind_ok_intro; [exact H1|exact H2].
Qed.

Lemma framed_get_cell c : (N.to_nat c < llen (cells s1))%nat -> framed (get_cell c) (get_cell c).
Proof.
  intros L v s3. unfold get_cell. cbn [cells add_cells]. rewrite (nth_N_app_lt _ _ _ L).
  destruct (nth_N (cells s1) (N.to_nat c)); [|discriminate]. intros H. inversion H. auto.
Qed.

Lemma framed_eval1 e :
  (forall k, framed (eval d k rho1 va e) (eval d k rho va e)) ->
  forall k, framed (eval1 d k rho1 va e) (eval1 d k rho va e).
Proof.
  intros H [|k]; [intros v s3 Hv; discriminate Hv|].
  rewrite !eval1_S. apply framed_bind; [apply H|]. intros vs. apply framed_ret.
Qed.

Lemma frame_eval e : frame_simple rho e = true -> ment_expr xs e = false ->
  forall k, framed (eval d k rho1 va e) (eval d k rho va e).
Proof.
  induction e; cbn [frame_simple ment_expr]; intros Hq Hm k; try discriminate Hq;
    (destruct k as [|k]; [intros vs s3 H; rewrite eval_0 in H; discriminate H|]).
  - rewrite !eval_S_nil. apply framed_ret.
  - rewrite !eval_S_true. apply framed_ret.
  - rewrite !eval_S_false. apply framed_ret.
  - rewrite !eval_S_number. apply framed_ret.
  - rewrite !eval_S_string. apply framed_ret.
  - rewrite !eval_S_varargs. apply framed_ret.
  - rewrite !eval_S_ident, (Hrho x Hm). destruct (lookup rho x) as [c|] eqn:El; [|discriminate Hq].
    apply framed_bind; [apply framed_get_cell; eauto|]. intros v. apply framed_ret.
  - rewrite !eval_S_paren. apply framed_bind; [apply framed_eval1; auto|]. intros v. apply framed_ret.
  - destruct op; try discriminate Hq.
    rewrite !eval_S_unary. apply framed_bind; [apply framed_eval1; auto|]. intros v. apply framed_ret.
  - apply orb_false_elim in Hm as [Hm _].
    rewrite !eval_S_typecast. apply framed_bind; [apply framed_eval1; auto|]. intros v. apply framed_ret.
Qed.

Lemma frame_eval_list es : forallb (frame_simple rho) es = true -> existsb (ment_expr xs) es = false ->
  forall k, framed (eval_list d k rho1 va es) (eval_list d k rho va es).
Proof.
  induction es as [|e es IH]; intros Hq Hm k; (destruct k as [|k]; [intros vs s3 H; rewrite eval_list_0 in H; discriminate H|]).
  - rewrite !eval_list_S_nil. apply framed_ret.
  - cbn [forallb existsb] in Hq, Hm. apply andb_prop in Hq as [Hq1 Hq2]. apply orb_false_elim in Hm as [Hm1 Hm2].
    destruct es as [|e2 rest].
    + rewrite !eval_list_S_one. now apply frame_eval.
    + rewrite !eval_list_S_cons. apply framed_bind; [apply framed_eval1; now apply frame_eval|]. intros v.
      apply framed_bind; [now apply IH|]. intros vs. apply framed_ret.
Qed.

End Frame.

Section Lists.
Variable rho : env.

(** two lists one after the other, as [arg] sees the values: in front of a non-empty list every
    expression is truncated to one value *)
Lemma eval_list_app k es2 s1 vs2 s2 :
  eval_list d k rho va es2 s1 = Ok vs2 s2 ->
  forall es1 s vs1, eval_list d k rho va es1 s = Ok vs1 s1 ->
  exists vs, eval_list d (k + llen es1) rho va (es1 ++ es2) s = Ok vs s2 /\
             (forall i, (i < llen es1)%nat -> arg vs i = arg vs1 i) /\
             (es2 <> [] -> forall i, arg vs (llen es1 + i) = arg vs2 i).
Proof.
  intros H2. fuel_S k H2. destruct es2 as [|e2 es2].
  { intros es1 s vs1 H1. rewrite eval_list_S_nil in H2. apply ret_ok in H2 as [_ ->].
    exists vs1. rewrite app_nil_r. split; [eapply eval_list_up; [exact H1|lia]|]. split; [reflexivity|contradiction]. }
  induction es1 as [|e es1 IH]; intros s vs1 H1; cbn [List.length app].
  - rewrite eval_list_S_nil in H1. apply ret_ok in H1 as [_ ->]. exists vs2. rewrite Nat.add_0_r.
    split; [exact H2|]. split; [intros i L; lia|reflexivity].
  - rewrite Nat.add_succ_r. destruct es1 as [|e1 es1]; cbn [app]; rewrite eval_list_S_cons.
    + rewrite eval_list_S_one in H1. exists (first vs1 :: vs2). split; [|split].
      * eapply bind_ok_intro.
        { eapply eval1_up; [|apply Nat.le_add_r]. rewrite eval1_S. eapply bind_ok_intro; [exact H1|reflexivity]. }
        eapply bind_ok_intro; [|reflexivity]. rewrite Nat.add_0_r. exact H2.
      * intros [|i] L; [destruct vs1; reflexivity|cbn [List.length] in L; lia].
      * reflexivity.
    + rewrite eval_list_S_cons in H1. apply bind_ok in H1 as (v & sv & Hv & H1).
      apply bind_ok in H1 as (vs & s' & Hvs & Hret). apply ret_ok in Hret as [-> ->].
      destruct (IH sv vs) as (vsR & ER & B1 & B2); [eapply eval_list_up; [exact Hvs|lia]|].
      exists (v :: vsR). split; [|split].
      * eapply bind_ok_intro; [eapply eval1_up; [exact Hv|lia]|]. eapply bind_ok_intro; [exact ER|reflexivity].
      * intros [|i] L; [reflexivity|]. apply (B1 i). cbn [List.length] in L |- *. lia.
      * exact B2.
Qed.

Lemma repeat_nil_eval_list q : forall k s, (q + 2 <= k)%nat ->
  eval_list d k rho va (repeat ENil q) s = Ok (repeat VNil q) s.
Proof.
  induction q as [|q IH]; intros k s L; (destruct k as [|k]; [lia|]); cbn [repeat].
  - rewrite eval_list_S_nil. reflexivity.
  - destruct k as [|k]; [lia|]. destruct q as [|q]; cbn [repeat].
    + rewrite eval_list_S_one, eval_S_nil. reflexivity.
    + rewrite eval_list_S_cons. eapply bind_ok_intro.
      { destruct k as [|k]; [lia|]. rewrite eval1_S, eval_S_nil. reflexivity. }
      eapply bind_ok_intro; [apply (IH (S k)); lia|reflexivity].
Qed.

(** an empty initialiser list stands for one [nil] per variable *)
Definition nilpad (q : nat) (es : list expr) : list expr :=
  match es with [] => repeat ENil q | _ => es end.

Lemma merge_values_nilpad vars1 vals1 vars2 vals2 :
  (vals1 = [] /\ vals2 = [] /\ merge_values vars1 vals1 vars2 vals2 = []) \/
  merge_values vars1 vals1 vars2 vals2 = nilpad (llen vars1) vals1 ++ nilpad (llen vars2) vals2.
Proof.
  unfold merge_values, nilpad. destruct vals1, vals2; [left; auto|right; reflexivity..].
Qed.

Lemma nilpad_length vars1 vals1 vals2 :
  should_merge vars1 vals1 vals2 = true -> llen (nilpad (llen vars1) vals1) = llen vars1.
Proof.
  intros H. destruct (should_merge_lengths _ _ _ H) as [->|E]; [apply repeat_length|].
  destruct vals1; [symmetry in E; rewrite E; reflexivity|exact E].
Qed.

Lemma eval_list_nilpad q es k s vs s' :
  eval_list d k rho va es s = Ok vs s' ->
  exists vs', (forall i, arg vs' i = arg vs i) /\
              forall j, (k + q + 2 <= j)%nat -> eval_list d j rho va (nilpad q es) s = Ok vs' s'.
Proof.
  intros H. destruct es as [|e es]; cbn [nilpad].
  - fuel_S k H. rewrite eval_list_S_nil in H. apply ret_ok in H as [-> ->].
    exists (repeat VNil q). split; [intros i; rewrite arg_repeat_nil, arg_nil; reflexivity|].
    intros j L. apply repeat_nil_eval_list. lia.
  - exists vs. split; [reflexivity|]. intros j L. eapply eval_list_up; [exact H|lia].
Qed.

(** [vs1] / [vs2]: the values of the two original lists, [vals2] evaluated in the store reached
    after [vals1] and leaving it unchanged.  The merged list yields, in that same store, a list
    that agrees with [vs1] on the positions of [vars1] and with [vs2] on those of [vars2]. *)
Lemma merged_values vars1 vals1 vars2 vals2 n s vs1 s1 vs2 :
  should_merge vars1 vals1 vals2 = true ->
  eval_list d n rho va vals1 s = Ok vs1 s1 ->
  eval_list d n rho va vals2 s1 = Ok vs2 s1 ->
  exists vsM m,
    eval_list d m rho va (merge_values vars1 vals1 vars2 vals2) s = Ok vsM s1 /\
    (forall i, (i < llen vars1)%nat -> arg vsM i = arg vs1 i) /\
    (forall i, (i < llen vars2)%nat -> arg vsM (llen vars1 + i) = arg vs2 i).
Proof.
  intros Hsm H1 H2. destruct (merge_values_nilpad vars1 vals1 vars2 vals2) as [(-> & -> & ->) | ->].
  - fuel_S n H1. rewrite eval_list_S_nil in H1, H2.
    apply ret_ok in H1 as [-> ->]. apply ret_ok in H2 as [-> _].
    exists [], 1%nat. split; [reflexivity|]. split; intros; rewrite !arg_nil; reflexivity.
  - destruct (eval_list_nilpad (llen vars1) _ _ _ _ _ H1) as (vs1' & A1 & E1).
    destruct (eval_list_nilpad (llen vars2) _ _ _ _ _ H2) as (vs2' & A2 & E2).
    set (k := (n + llen vars1 + llen vars2 + 2)%nat).
    destruct (eval_list_app k _ _ _ _ (E2 k ltac:(lia)) _ _ _ (E1 k ltac:(lia))) as (vsM & EM & B1 & B2).
    rewrite (nilpad_length _ _ _ Hsm) in B1, B2.
    exists vsM, (k + llen (nilpad (llen vars1) vals1))%nat. split; [exact EM|]. split.
    + intros i L. rewrite (B1 i L). apply A1.
    + intros i L. rewrite B2, A2; [reflexivity|].
      unfold nilpad. destruct vals2; [|discriminate]. destruct (llen vars2); [lia|discriminate].
Qed.

End Lists.

Lemma exec_stmts_local_inv n rho k vars vals rest last s r s' :
  exec_stmts d n rho va (SLocal k vars vals :: rest) last s = Ok r s' ->
  exists vs s1 rho1 s2,
    eval_list d n rho va vals s = Ok vs s1 /\ local_go vars vs rho s1 = Ok rho1 s2 /\
    exec_stmts d n rho1 va rest last s2 = Ok r s'.
Proof.
  intros H. fuel_S n H. rewrite exec_stmts_S_cons in H.
  apply bind_ok in H as ([rho1 sg] & s2 & Hst & Hk).
  fuel_S n Hst. rewrite exec_stmt_S_local in Hst.
  apply bind_ok in Hst as (vs & s1 & Hv & Hst). apply bind_ok in Hst as (rho1' & s2' & Hl & Hret).
  apply ret_ok in Hret as [E <-]. inversion E; subst rho1' sg. cbn [stmts_cont] in Hk.
  exists vs, s1, rho1, s2. split; [eapply eval_list_up; [exact Hv|lia]|]. split; [exact Hl|].
  eapply exec_stmts_up; [exact Hk|lia].
Qed.

Lemma exec_stmts_local_intro n rho k vars vals rest last s vs s1 rho1 s2 r s' :
  eval_list d n rho va vals s = Ok vs s1 -> local_go vars vs rho s1 = Ok rho1 s2 ->
  exec_stmts d (S n) rho1 va rest last s2 = Ok r s' ->
  exec_stmts d (S (S n)) rho va (SLocal k vars vals :: rest) last s = Ok r s'.
Proof.
  intros Hv Hl Hk. rewrite exec_stmts_S_cons, exec_stmt_S_local. eapply bind_ok_intro.
  - eapply bind_ok_intro; [exact Hv|]. eapply bind_ok_intro; [exact Hl|reflexivity].
  - exact Hk.
Qed.

End Group.

(** The second initialisers may be anything that neither sees nor changes what the first
    statement allocates ([framed], for every store whose cells the environment points into and
    every environment that differs from [rho] on the names of [vars1] only).  Further hypotheses:
    - the environment points into the store (an invariant of every run from the empty
      environment);
    - evaluating the first initialisers does not shrink the cell list (no construct of
      the interpreter ever removes a cell - [set_cell] overwrites, [new_cell] appends - but that
      invariant of the whole mutual fixpoint is not available as a lemma, so it is a hypothesis
      on the one evaluation that matters).
    Both programs then continue with [rest] in the SAME environment and the SAME store. *)
Theorem group_local_sound_framed d n rho va k1 vars1 vals1 k2 vars2 vals2 rest last s r s' :
  should_merge vars1 vals1 vals2 = true ->
  (forall rho1 s1 extra,
     (forall y, is_target (map param_name vars1) y = false -> lookup rho1 y = lookup rho y) ->
     (forall y c, lookup rho y = Some c -> (N.to_nat c < llen (cells s1))%nat) ->
     forall k, framed s1 extra (eval_list d k rho1 va vals2) (eval_list d k rho va vals2)) ->
  (forall y c, lookup rho y = Some c -> (N.to_nat c < llen (cells s))%nat) ->
  (forall k vs s1, eval_list d k rho va vals1 s = Ok vs s1 -> (llen (cells s) <= llen (cells s1))%nat) ->
  exec_stmts d n rho va (SLocal k1 vars1 vals1 :: SLocal k2 vars2 vals2 :: rest) last s = Ok r s' ->
  exists m, forall j, (m <= j)%nat ->
    exec_stmts d j rho va (SLocal k1 (vars1 ++ vars2) (merge_values vars1 vals1 vars2 vals2) :: rest) last s = Ok r s'.
Proof.
  intros Hsm Hfr Henv Hgrow H.
  apply exec_stmts_local_inv in H as (vs1 & s1 & rho1 & s2 & Hv1 & Hl1 & H).
  apply exec_stmts_local_inv in H as (vs2 & s3 & rho2 & s4 & Hv2 & Hl2 & H).
  (* the second initialisers in the store and environment before the first allocation *)
  destruct (local_go_spec _ _ _ _ _ _ Hl1) as [(extra & ->) Hlk].
  assert (Hin1 : forall y c, lookup rho y = Some c -> (N.to_nat c < llen (cells s1))%nat).
  { intros y c Hy. specialize (Henv y c Hy). specialize (Hgrow _ _ _ Hv1). lia. }
  destruct (Hfr rho1 s1 extra Hlk Hin1 _ _ _ Hv2) as [-> Hv2'].
  destruct (merged_values d va rho vars1 vals1 vars2 vals2 n s vs1 s1 vs2 Hsm Hv1 Hv2') as (vsM & m & HvM & Ha1 & Ha2).
  exists (S (S (m + n))). intros j L. destruct j as [|[|j]]; try lia.
  eapply exec_stmts_local_intro.
  - eapply eval_list_up; [exact HvM|lia].
  - eapply local_go_app.
    + rewrite (local_go_ext vars1 vsM vs1) by exact Ha1. exact Hl1.
    + rewrite (local_go_ext vars2 _ vs2) by (intros i Li; rewrite arg_skipn; apply Ha2; exact Li). exact Hl2.
  - eapply exec_stmts_up; [exact H|lia].
Qed.

Theorem group_local_sound_partial d n rho va k1 vars1 vals1 k2 vars2 vals2 rest last s r s' :
  should_merge vars1 vals1 vals2 = true ->
  forallb (frame_simple rho) vals2 = true ->
  (forall y c, lookup rho y = Some c -> (N.to_nat c < List.length (cells s))%nat) ->
  (forall k vs s1, eval_list d k rho va vals1 s = Ok vs s1 ->
                   (List.length (cells s) <= List.length (cells s1))%nat) ->
  exec_stmts d n rho va (SLocal k1 vars1 vals1 :: SLocal k2 vars2 vals2 :: rest) last s = Ok r s' ->
  exists m, forall j, (m <= j)%nat ->
    exec_stmts d j rho va (SLocal k1 (vars1 ++ vars2) (merge_values vars1 vals1 vars2 vals2) :: rest) last s = Ok r s'.
Proof.
  intros Hsm Hfs. apply group_local_sound_framed; [exact Hsm|].
  intros rho1 s1 extra Hlk Hin. apply (frame_eval_list d va _ rho1 rho s1 extra Hlk Hin vals2 Hfs).
  exact (should_merge_no_mention _ _ _ Hsm).
Qed.

Definition gl_nm (x : string) : name := of_string x.
Definition gl_num (z : Z) : expr := ENumber (NDec (to_bits (of_Z z)) None).
Definition gl_pa : param := Param (gl_nm "a") None.
Definition gl_pb : param := Param (gl_nm "b") None.
Definition gl_ext_call_a : expr := ECall (EIdent (gl_nm "ext_a")) None (ATuple []).
Definition gl_ret_ab : option laststmt := Some (LReturn [EIdent (gl_nm "a"); EIdent (gl_nm "b")]).
Definition gl_ret_b : option laststmt := Some (LReturn [EIdent (gl_nm "b")]).
Definition gl_st_example : store := initial_store [[ONum (to_bits (of_Z 7))]].

(** [local a = ext_a()  local b = 2  return a, b] with [ext_a] returning 7: the hypotheses of
    the theorem hold, and both programs end with the same signal in the same store *)
Example group_local_example :
  should_merge [gl_pa] [gl_ext_call_a] [gl_num 2] = true /\
  forallb (frame_simple []) [gl_num 2] = true /\
  (forall y c, lookup [] y = Some c -> (N.to_nat c < llen (cells gl_st_example))%nat) /\
  (forall k vs s1, eval_list L51 k [] [] [gl_ext_call_a] gl_st_example = Ok vs s1 ->
                   (llen (cells gl_st_example) <= llen (cells s1))%nat) /\
  exists s',
    exec_stmts L51 12 [] [] [SLocal false [gl_pa] [gl_ext_call_a]; SLocal false [gl_pb] [gl_num 2]] gl_ret_ab gl_st_example
    = Ok (SigReturn [VNum (of_Z 7); VNum (of_Z 2)]) s' /\
    exec_stmts L51 12 [] [] [SLocal false ([gl_pa] ++ [gl_pb]) (merge_values [gl_pa] [gl_ext_call_a] [gl_pb] [gl_num 2])] gl_ret_ab gl_st_example
    = Ok (SigReturn [VNum (of_Z 7); VNum (of_Z 2)]) s' /\
    trace s' = [EvCall (gl_nm "ext_a") []].
Proof.
  split; [reflexivity|]. split; [reflexivity|]. split; [intros y c Hy; discriminate Hy|].
  split; [intros k vs s1 _; cbn [gl_st_example initial_store cells List.length]; lia|].
  eexists. split; [vm_compute; reflexivity|]. split; vm_compute; reflexivity.
Qed.

Definition gl_id_call (e : expr) : expr :=
  ECall (EParen (EFunction (FBody [Param (gl_nm "p") None] false None None None 0
                                  (Block [] (Some (LReturn [EIdent (gl_nm "p")])))))) None (ATuple [e]).

(** [local a = 1  local b = (function(p) return p end)(2)  return a, b]: the guard accepts, both
    programs return [1, 2], but the call allocates the cell of [p] - after the cell of [a] in the
    original, before it in the merged program - and the closure captures [a] in the original
    only: the final stores differ *)
Theorem group_local_exact_refuted_call :
  exists dl rho va vars1 vals1 vars2 vals2 last s vs s1 s2,
    should_merge vars1 vals1 vals2 = true /\
    (forall y c, lookup rho y = Some c -> (N.to_nat c < llen (cells s))%nat) /\
    exec_stmts dl 14 rho va [SLocal false vars1 vals1; SLocal false vars2 vals2] last s = Ok (SigReturn vs) s1 /\
    exec_stmts dl 14 rho va [SLocal false (vars1 ++ vars2) (merge_values vars1 vals1 vars2 vals2)] last s
    = Ok (SigReturn vs) s2 /\
    vs = [VNum (of_Z 1); VNum (of_Z 2)] /\
    cells s1 = [VNum (of_Z 1); VNum (of_Z 2); VNum (of_Z 2)] /\
    cells s2 = [VNum (of_Z 2); VNum (of_Z 1); VNum (of_Z 2)] /\
    s1 <> s2.
Proof.
  exists L51, [], [], [gl_pa], [gl_num 1], [gl_pb], [gl_id_call (gl_num 2)], gl_ret_ab, (initial_store []).
  do 3 eexists.
  split; [reflexivity|]. split; [intros y c Hy; discriminate Hy|].
  split; [vm_compute; reflexivity|]. split; [vm_compute; reflexivity|].
  split; [reflexivity|]. split; [reflexivity|]. split; [reflexivity|].
  intros E. apply (f_equal cells) in E. vm_compute in E. discriminate E.
Qed.

(** [local a = 1, 2  local b = 3  return b]: more values than variables; merged naively,
    [local a, b = 1, 2, 3  return b] returns 2 instead of 3 *)
Theorem group_local_unguarded_refuted :
  exists dl vars1 vals1 vars2 vals2 last,
    should_merge vars1 vals1 vals2 = false /\
    rw_group_local [SLocal false vars1 vals1; SLocal false vars2 vals2]
    = [SLocal false vars1 vals1; SLocal false vars2 vals2] /\
    run_chunk dl 12 [] (Block [SLocal false vars1 vals1; SLocal false vars2 vals2] last)
    = OutOk [] [RNum (to_bits (of_Z 3))] /\
    run_chunk dl 12 [] (Block [SLocal false (vars1 ++ vars2) (merge_values vars1 vals1 vars2 vals2)] last)
    = OutOk [] [RNum (to_bits (of_Z 2))].
Proof.
  exists L51, [gl_pa], [gl_num 1; gl_num 2], [gl_pb], [gl_num 3], gl_ret_b.
  split; [reflexivity|]. split; [reflexivity|]. split; vm_compute; reflexivity.
Qed.

(** [local a = 1  local b = a  return b]: the second initialiser mentions [a]; merged naively,
    [local a, b = 1, a  return b] reads the global [a] and returns nil instead of 1 *)
Theorem group_local_mention_refuted :
  exists dl vars1 vals1 vars2 vals2 last,
    should_merge vars1 vals1 vals2 = false /\
    rw_group_local [SLocal false vars1 vals1; SLocal false vars2 vals2]
    = [SLocal false vars1 vals1; SLocal false vars2 vals2] /\
    run_chunk dl 12 [] (Block [SLocal false vars1 vals1; SLocal false vars2 vals2] last)
    = OutOk [] [RNum (to_bits (of_Z 1))] /\
    run_chunk dl 12 [] (Block [SLocal false (vars1 ++ vars2) (merge_values vars1 vals1 vars2 vals2)] last)
    = OutOk [] [RNil].
Proof.
  exists L51, [gl_pa], [gl_num 1], [gl_pb], [EIdent (gl_nm "a")], gl_ret_b.
  split; [reflexivity|]. split; [reflexivity|]. split; vm_compute; reflexivity.
Qed.

Lemma rw_group_local_pair k1 vars1 vals1 k2 vars2 vals2 :
  should_merge vars1 vals1 vals2 = true ->
  rw_group_local [SLocal k1 vars1 vals1; SLocal k2 vars2 vals2]
  = [SLocal k1 (vars1 ++ vars2) (merge_values vars1 vals1 vars2 vals2)].
Proof. intros H. cbn [rw_group_local group_go]. rewrite H. reflexivity. Qed.

Print Assumptions group_local_sound_partial.
