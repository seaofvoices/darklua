(** C14 — the expression the serializer model builds evaluates, in the reference interpreter
    ([Lua/Sem.v]) and under either dialect, to a value that denotes the document
    ([Lua/DataSpec.v: value_denotes]).  Induction on the document; the fuel is given
    explicitly ([size]). *)
From Coq Require Import ZArith NArith List Bool Lia.
From Coq Require Import Floats.SpecFloat.
From DL Require Import Lib.Bytes Lib.F64 Lua.Syntax Lua.Sem Lua.DataSpec Model.Serializer.
From DL Require Import Proof.SemFacts Proof.SerializerF64 Proof.SerializerTable.
From DL Require Import Proof.ListFacts.
Import ListNotations.
Open Scope N_scope.
Local Notation len := List.length.

Lemma Forall2_nth_r {A B} (R : A -> B -> Prop) l l' i y :
  Forall2 R l l' -> nth_error l' i = Some y -> exists x, nth_error l i = Some x /\ R x y.
Proof.
  intros H; revert i; induction H as [|x0 y0 l l' H0 H IH]; intros [|i] Hn; cbn in *; try discriminate.
  - inversion Hn; subst. eauto.
  - apply IH. exact Hn.
Qed.

Definition keeps (s s' : store) : Prop :=
  (forall b t, nth_N (tables s) b = Some t -> nth_N (tables s') b = Some t) /\
  (len (tables s) <= len (tables s'))%nat.

Definition keeps_except (a : nat) (s s' : store) : Prop :=
  (forall b t, b <> a -> nth_N (tables s) b = Some t -> nth_N (tables s') b = Some t) /\
  (len (tables s) <= len (tables s'))%nat.

Lemma keeps_refl s : keeps s s.
Proof. split; auto. Qed.
Lemma keeps_except_refl a s : keeps_except a s s.
Proof. split; auto. Qed.
Lemma keeps_weaken a s s' : keeps s s' -> keeps_except a s s'.
Proof. intros [A B]. split; auto. Qed.
Lemma keeps_except_trans a s1 s2 s3 : keeps_except a s1 s2 -> keeps_except a s2 s3 -> keeps_except a s1 s3.
Proof. intros [A B] [C D]. split; [|lia]. intros b t Hb H. apply C; auto. Qed.

Definition upd (s : store) (a : N) (t : table) : store :=
  mkStore (cells s) (set_nth (tables s) (N.to_nat a) t) (closures s) (trace s) (oracle s) (fresh s).

Lemma upd_same s a t t0 : nth_N (tables s) (N.to_nat a) = Some t0 ->
  nth_N (tables (upd s a t)) (N.to_nat a) = Some t.
Proof. intros H. cbn. apply nth_N_set_same. exact (nth_N_lt _ _ _ H). Qed.

Lemma upd_keeps s a t : keeps_except (N.to_nat a) s (upd s a t).
Proof.
  split; cbn.
  - intros b t0 Hb H. rewrite nth_N_set_other by congruence. exact H.
  - rewrite set_nth_length. lia.
Qed.

Lemma eval1_run dl n rho va e s v s1 :
  eval dl n rho va e s = Ok [v] s1 -> eval1 dl (S n) rho va e s = Ok v s1.
Proof. exact (eval1_of_eval dl n rho va e s [v] s1). Qed.

Lemma put_run a k k' v s en :
  nth_N (tables s) (N.to_nat a) = Some (mkTable en None) -> norm_key k = Some k' ->
  put a k v s = Ok tt (upd s a (mkTable (raw_set en k' v) None)).
Proof.
  intros Ht Hk. unfold put. rewrite (bind_run _ _ s (mkTable en None) s).
  - rewrite Hk. reflexivity.
  - unfold get_table. rewrite Ht. reflexivity.
Qed.

Definition with_new_table (s : store) : store :=
  mkStore (cells s) (tables s ++ [mkTable [] None]) (closures s) (trace s) (oracle s) (fresh s).

Lemma new_table_run s :
  new_table (mkTable [] None) s = Ok (N.of_nat (len (tables s))) (with_new_table s).
Proof. reflexivity. Qed.

Lemma new_table_nth s :
  nth_N (tables (with_new_table s)) (N.to_nat (N.of_nat (len (tables s)))) = Some (mkTable [] None).
Proof. apply nth_N_last. Qed.

Lemma eval_table_run dl n rho va es s s2 :
  fill_table dl n rho va (N.of_nat (len (tables s))) es 1 (with_new_table s) = Ok tt s2 ->
  keeps_except (N.to_nat (N.of_nat (len (tables s)))) (with_new_table s) s2 ->
  eval dl (S n) rho va (ETable es) s = Ok [VTable (N.of_nat (len (tables s)))] s2 /\ keeps s s2.
Proof.
  rewrite Nat2N.id. intros F [K L]. split.
  - rewrite eval_S_table, (bind_run _ _ _ _ _ (new_table_run s)), (bind_run _ _ _ _ _ F).
    reflexivity.
  - split.
    + intros b t Hb. apply K; [apply nth_N_lt in Hb; lia|]. apply nth_N_app_l, Hb.
    + cbn [with_new_table tables] in L. rewrite app_length in L. lia.
Qed.

(** the specification looks only at the tables from [lo] up: it survives a change of the
    tables below and a lower bound *)
Lemma denotes_mono lo lo' s s' v d :
  value_denotes_from lo s v d -> (lo' <= lo)%nat ->
  (forall b t, (lo <= b)%nat -> nth_N (tables s) b = Some t -> nth_N (tables s') b = Some t) ->
  value_denotes_from lo' s' v d.
Proof.
  induction 1 as [| | | | |a t items Hlo Ht Hm Hel IHel Hno|a t entries Hlo Ht Hm Hel IHel Hno];
    intros L F; try constructor.
  - econstructor; eauto. lia.
  - econstructor; eauto. lia.
Qed.

Lemma denotes_weaken lo lo' s v d :
  value_denotes_from lo s v d -> (lo' <= lo)%nat -> value_denotes_from lo' s v d.
Proof. intros D L. apply (denotes_mono _ _ _ _ _ _ D L). auto. Qed.

(** writes to the table at [a] do not disturb a value that lives above it *)
Lemma denotes_kept a s s' v d :
  value_denotes_from (S a) s v d -> keeps_except a s s' -> value_denotes_from (S a) s' v d.
Proof.
  intros D [K _]. apply (denotes_mono _ _ _ _ _ _ D (le_n _)). intros b t Hb. apply K. lia.
Qed.

Lemma seq_table_denotes lo s a vals items :
  (lo <= N.to_nat a)%nat ->
  nth_N (tables s) (N.to_nat a) = Some (mkTable (seq_fill [] 1 vals) None) ->
  (Z.of_nat (len items) < 9007199254740992)%Z ->
  Forall2 (value_denotes_from (S (N.to_nat a)) s) vals items ->
  value_denotes_from lo s (VTable a) (DSeq items).
Proof.
  intros Hlo T Hlen D. pose proof (Forall2_len _ _ _ D) as L.
  eapply VD_seq; [exact Hlo|exact T|reflexivity| |]; cbn [t_entries].
  - intros i d Hi. destruct (Forall2_nth_r _ _ _ _ _ D Hi) as (v & Hv & Dv).
    unfold seq_key. rewrite (seq_fill_nth vals [] 1%Z i v); try reflexivity; try lia; try assumption.
    eapply denotes_weaken; [exact Dv|lia].
  - intros k Hk. rewrite seq_fill_other; [reflexivity|].
    intros i Hi. apply Hk. rewrite <- L. exact Hi.
Qed.

(** a table filled with the Lua keys of the document keys, in order, and values that denote the
    document values is the mapping: the last binding of a key is the one that stays *)
Lemma map_table_denotes lo s a kvs entries :
  (lo <= N.to_nat a)%nat ->
  nth_N (tables s) (N.to_nat a) = Some (mkTable (map_fill [] kvs) None) ->
  Forall2 (fun kv kd => key_value (fst kd) = Some (fst kv) /\
                        value_denotes_from (S (N.to_nat a)) s (snd kv) (snd kd)) kvs entries ->
  value_denotes_from lo s (VTable a) (DMap entries).
Proof.
  intros Hlo T D. eapply VD_map; [exact Hlo|exact T|reflexivity| |]; cbn [t_entries].
  - intros before k d after kv -> Hkv Hlater.
    apply Forall2_app_inv_r in D as (kvs1 & kvs2 & D1 & D2 & ->).
    inversion D2 as [|[kv' v] ? kvs3 ? [Hk' Dv] D3]; subst. cbn [fst snd] in Hk', Dv.
    rewrite Hkv in Hk'. injection Hk' as <-.
    rewrite map_fill_last; [eapply denotes_weaken; [exact Dv|lia]|exact (key_value_refl _ _ Hkv)|].
    intros k1 v1 Hin. destruct (Forall2_in_l _ _ _ _ D3 Hin) as ([kd dd] & Hin' & Hkd & _).
    cbn [fst snd] in Hkd. eapply Hlater; [|exact Hkd]. apply in_map_iff. exists (kd, dd). auto.
  - intros k Hk. rewrite map_fill_other; [reflexivity|].
    intros k0 v0 Hin. destruct (Forall2_in_l _ _ _ _ D Hin) as ([kd dd] & Hin' & Hkd & _).
    cbn [fst snd] in Hkd. eapply Hk; [|exact Hkd]. apply in_map_iff. exists (kd, dd). auto.
Qed.

Fixpoint size (d : data) : nat :=
  match d with
  | DSeq items => 2 + (fix go (l : list data) : nat :=
                         match l with [] => 0 | x :: r => 2 + size x + go r end) items
  | DMap entries => 2 + (fix go (l : list (data * data)) : nat :=
                           match l with [] => 0 | (k, v) :: r => 3 + size k + size v + go r end) entries
  | _ => 1
  end%nat.

Fixpoint seq_size (l : list data) : nat :=
  match l with [] => 0 | x :: r => 2 + size x + seq_size r end%nat.
Fixpoint map_size (l : list (data * data)) : nat :=
  match l with [] => 0 | (k, v) :: r => 3 + size k + size v + map_size r end%nat.

Lemma size_seq items : size (DSeq items) = (2 + seq_size items)%nat.
Proof. reflexivity. Qed.
Lemma size_map entries : size (DMap entries) = (2 + map_size entries)%nat.
Proof. reflexivity. Qed.
Lemma size_pos d : (1 <= size d)%nat.
Proof. destruct d; cbn; lia. Qed.

(** the bit pattern of every integer of the document decodes to the same float
    ([SerializerF64.int_roundtrip_small] / [int_roundtrip_valid]) *)
Fixpoint ints_ok (d : data) : Prop :=
  match d with
  | DInt z => int_roundtrip z
  | DSeq items => (fix all (l : list data) : Prop :=
                     match l with [] => True | x :: r => ints_ok x /\ all r end) items
  | DMap entries => (fix all (l : list (data * data)) : Prop :=
                       match l with
                       | [] => True
                       | (k, v) :: r => ints_ok k /\ ints_ok v /\ all r
                       end) entries
  | _ => True
  end.

Definition ok (d : data) : Prop := ints_ok d /\ wf_keys d /\ seq_len_ok d.

Lemma ok_seq (P : data -> Prop) items :
  ok (DSeq items) -> Forall (fun x => ok x -> P x) items ->
  (Z.of_nat (len items) < 9007199254740992)%Z /\ Forall P items.
Proof.
  intros (A & B & C & D) IH. split; [exact C|]. clear C.
  induction IH as [|x r Hx _ IHr]; constructor; cbn in A, B, D.
  - apply Hx. unfold ok. tauto.
  - apply IHr; tauto.
Qed.

Lemma ok_map (P : data -> Prop) entries :
  ok (DMap entries) -> Forall (fun kd => (ok (fst kd) -> P (fst kd)) /\ (ok (snd kd) -> P (snd kd))) entries ->
  Forall (fun kd => ints_ok (fst kd) /\ key_value (fst kd) <> None /\ P (snd kd)) entries.
Proof.
  intros (A & B & C) IH.
  induction IH as [|[k v] r [_ Hv] _ IHr]; constructor; cbn in A, B, C, Hv |- *.
  - split; [tauto|]. split; [tauto|]. apply Hv. unfold ok. tauto.
  - apply IHr; tauto.
Qed.

Definition evaluates (dl : dialect) (d : data) : Prop :=
  forall e, to_expression d = Some e ->
  forall n rho va s, (size d <= n)%nat ->
  exists v s', eval dl n rho va e s = Ok [v] s' /\ keeps s s' /\
               value_denotes_from (len (tables s)) s' v d.

Lemma to_expression_seq items :
  to_expression (DSeq items) = match seq_entries items with Some es => Some (ETable es) | None => None end.
Proof. reflexivity. Qed.
Lemma to_expression_map entries :
  to_expression (DMap entries) = match map_entries entries with Some es => Some (ETable es) | None => None end.
Proof. reflexivity. Qed.

(** the two forms of a mapping entry: [[key] = v] in general, [name = v] only for a string key *)
Lemma table_entry_cases k ke ve : to_expression k = Some ke ->
  table_entry ke ve = TIndex ke ve \/
  exists f, k = DString f /\ ke = EString f /\ table_entry ke ve = TField f ve.
Proof.
  intros Ek. unfold table_entry. destruct ke as [| | | |f| | | | | | | | | | | | | |]; auto.
  destruct (is_valid_identifier f); auto. right. exists f.
  destruct k; cbn [to_expression] in Ek.
  - discriminate.
  - destruct b; discriminate.
  - destruct (int_supported z); discriminate.
  - discriminate.
  - injection Ek as ->. auto.
  - fold (seq_entries items) in Ek. destruct (seq_entries items); discriminate.
  - fold (map_entries entries) in Ek. destruct (map_entries entries); discriminate.
Qed.

Lemma key_eval dl k kv ke :
  ints_ok k -> key_value k = Some kv -> to_expression k = Some ke ->
  forall n rho va s, exists v, eval dl (S n) rho va ke s = Ok [v] s /\ norm_key v = Some kv.
Proof.
  intros Hi Hk He n rho va s. destruct k; cbn [key_value] in Hk; try discriminate.
  - injection Hk as <-. exists (VBool b). split; [|reflexivity].
    destruct b; injection He as <-; [rewrite eval_S_true|rewrite eval_S_false]; reflexivity.
  - cbn [to_expression] in He. destruct (int_supported z); [|discriminate]. injection He as <-.
    eexists. split; [rewrite eval_S_number; reflexivity|]. cbn [number_value].
    cbn [ints_ok] in Hi. unfold int_roundtrip in Hi. rewrite Hi. exact Hk.
  - injection He as <-. eexists. split; [rewrite eval_S_number; reflexivity|]. exact Hk.
  - injection Hk as <-. injection He as <-. eexists. split; [rewrite eval_S_string|]; reflexivity.
Qed.

Lemma norm_pos pos : (1 <= pos < 9007199254740992)%Z ->
  norm_key (VNum (of_Z pos)) = Some (VNum (of_Z pos)).
Proof.
  intros H. destruct (of_Z_small_finite pos) as [A B]; [lia|]. cbn [norm_key]. now rewrite A, B.
Qed.

(** an element or a value of the table under construction at [a]: its evaluation leaves that
    table alone and the result lives above it *)
Lemma elem_eval dl d e a t : evaluates dl d -> to_expression d = Some e ->
  forall n rho va s, (size d <= n)%nat -> nth_N (tables s) (N.to_nat a) = Some t ->
  exists v s1, eval dl n rho va e s = Ok [v] s1 /\ keeps s s1 /\
               nth_N (tables s1) (N.to_nat a) = Some t /\
               value_denotes_from (S (N.to_nat a)) s1 v d.
Proof.
  intros Hd Ed n rho va s Hn Ht. destruct (Hd e Ed n rho va s Hn) as (v & s1 & E1 & K1 & D1).
  exists v, s1. split; [exact E1|]. split; [exact K1|]. split; [exact (proj1 K1 _ _ Ht)|].
  eapply denotes_weaken; [exact D1|]. apply nth_N_lt in Ht. lia.
Qed.

Lemma put_pos_run a pos v s en : (1 <= pos < 9007199254740992)%Z ->
  nth_N (tables s) (N.to_nat a) = Some (mkTable en None) ->
  exists s2, put_pos a pos v s = Ok tt s2 /\ keeps_except (N.to_nat a) s s2 /\
    nth_N (tables s2) (N.to_nat a) =
      Some (mkTable (match v with VNil => en | _ => raw_set en (VNum (of_Z pos)) v end) None).
Proof.
  intros Hp Ht. pose proof (put_run a _ _ v s en Ht (norm_pos pos Hp)) as P.
  destruct v; unfold put_pos;
    try (eexists; split; [exact P|]; split; [apply upd_keeps|eapply upd_same; exact Ht]).
  exists s. split; [reflexivity|]. split; [apply keeps_except_refl|exact Ht].
Qed.

Lemma fill_seq dl rho va a : forall items es,
  seq_entries items = Some es ->
  Forall (evaluates dl) items ->
  forall n pos s en,
    (seq_size items < n)%nat ->
    (1 <= pos)%Z -> (pos + Z.of_nat (len items) <= 9007199254740992)%Z ->
    nth_N (tables s) (N.to_nat a) = Some (mkTable en None) ->
    exists s' vals,
      fill_table dl n rho va a es pos s = Ok tt s' /\
      nth_N (tables s') (N.to_nat a) = Some (mkTable (seq_fill en pos vals) None) /\
      keeps_except (N.to_nat a) s s' /\
      Forall2 (value_denotes_from (S (N.to_nat a)) s') vals items.
Proof.
  induction items as [|d r IH]; intros es Hes HF n pos s en Hn Hp Hlen Ht;
    (destruct n as [|n]; [lia|]).
  - injection Hes as <-. exists s, []. rewrite fill_table_S_nil.
    split; [reflexivity|]. split; [exact Ht|]. split; [apply keeps_except_refl|constructor].
  - cbn [seq_entries] in Hes. destruct (to_expression d) as [e|] eqn:Ed; [|discriminate].
    destruct (seq_entries r) as [l|] eqn:Er; [|discriminate]. injection Hes as <-.
    inversion HF as [|? ? Hd Hr]; subst. cbn [seq_size len] in *.
    destruct n as [|n]; [lia|].
    (* the element is evaluated and stored at [pos].  The last entry of a constructor is
       evaluated for all its values, with one unit of fuel more than the others; after it
       the loop has nothing left to do. *)
    assert (exists v s1,
              fill_table dl (S (S n)) rho va a (TValue e :: l) pos s =
                (_ <- put_pos a pos v ;; fill_table dl (S n) rho va a l (pos + 1)) s1 /\
              keeps s s1 /\ nth_N (tables s1) (N.to_nat a) = Some (mkTable en None) /\
              value_denotes_from (S (N.to_nat a)) s1 v d) as (v & s1 & -> & K1 & T1 & D1).
    { destruct l as [|x l].
      - destruct (elem_eval dl d e a _ Hd Ed (S n) rho va s ltac:(lia) Ht) as (v & s1 & E1 & R).
        exists v, s1. split; [|exact R].
        rewrite fill_table_S_last, (bind_run _ _ _ _ _ E1), fill_table_S_nil. reflexivity.
      - destruct (elem_eval dl d e a _ Hd Ed n rho va s ltac:(lia) Ht) as (v & s1 & E1 & R).
        exists v, s1. split; [|exact R].
        rewrite fill_table_S_value, (bind_run _ _ _ _ _ (eval1_run _ _ _ _ _ _ _ _ E1)). reflexivity. }
    destruct (put_pos_run a pos v s1 en ltac:(lia) T1) as (s2 & P2 & K2 & T2).
    rewrite (bind_run _ _ _ _ _ P2).
    destruct (IH l eq_refl Hr (S n) (pos + 1)%Z s2 _ ltac:(lia) ltac:(lia) ltac:(lia) T2)
      as (s3 & vals & F3 & T3 & K3 & D3).
    pose proof (keeps_except_trans _ _ _ _ K2 K3) as K23.
    exists s3, (v :: vals). split; [exact F3|]. split; [exact T3|]. split.
    + eapply keeps_except_trans; [apply keeps_weaken, K1|exact K23].
    + constructor; [exact (denotes_kept _ _ _ _ _ D1 K23)|exact D3].
Qed.

Lemma fill_map dl rho va a : forall entries es,
  map_entries entries = Some es ->
  Forall (fun kd => ints_ok (fst kd) /\ key_value (fst kd) <> None /\ evaluates dl (snd kd)) entries ->
  forall n pos s en,
    (map_size entries < n)%nat ->
    nth_N (tables s) (N.to_nat a) = Some (mkTable en None) ->
    exists s' kvs,
      fill_table dl n rho va a es pos s = Ok tt s' /\
      nth_N (tables s') (N.to_nat a) = Some (mkTable (map_fill en kvs) None) /\
      keeps_except (N.to_nat a) s s' /\
      Forall2 (fun kv kd => key_value (fst kd) = Some (fst kv) /\
                            value_denotes_from (S (N.to_nat a)) s' (snd kv) (snd kd)) kvs entries.
Proof.
  induction entries as [|[k d] r IH]; intros es Hes HF n pos s en Hn Ht;
    (destruct n as [|n]; [lia|]).
  - injection Hes as <-. exists s, []. rewrite fill_table_S_nil.
    split; [reflexivity|]. split; [exact Ht|]. split; [apply keeps_except_refl|constructor].
  - cbn [map_entries] in Hes. destruct (to_expression k) as [ke|] eqn:Ek; [|discriminate].
    destruct (to_expression d) as [ve|] eqn:Ed; [|discriminate].
    destruct (map_entries r) as [l|] eqn:Er; [|discriminate]. injection Hes as <-.
    inversion HF as [|? ? Hkd Hr]; subst. cbn [fst snd] in Hkd. destruct Hkd as (Hik & Hkv & Hd).
    destruct (key_value k) as [kv|] eqn:Ekv; [clear Hkv|congruence].
    cbn [map_size] in Hn. destruct n as [|[|n]]; [lia|lia|].
    (* both forms of the entry evaluate the value and store it under a key that normalises
       to [kv] *)
    assert (exists kraw, norm_key kraw = Some kv /\
              fill_table dl (S (S (S n))) rho va a (table_entry ke ve :: l) pos s =
              (v <- eval1 dl (S (S n)) rho va ve ;; _ <- put a kraw v ;;
               fill_table dl (S (S n)) rho va a l pos) s)
      as (kraw & Hraw & ->).
    { destruct (table_entry_cases k ke ve Ek) as [->|(f & -> & -> & ->)].
      - destruct (key_eval dl k kv ke Hik Ekv Ek n rho va s) as (kr & Ekr & Nkr).
        exists kr. split; [exact Nkr|].
        rewrite fill_table_S_index, (bind_run _ _ _ _ _ (eval1_run _ _ _ _ _ _ _ _ Ekr)). reflexivity.
      - exists (VStr f). split; [injection Ekv as <-; reflexivity|].
        rewrite fill_table_S_field. reflexivity. }
    destruct (elem_eval dl d ve a _ Hd Ed (S n) rho va s ltac:(lia) Ht)
      as (v & s1 & E1 & K1 & T1 & D1).
    rewrite (bind_run _ _ _ _ _ (eval1_run _ _ _ _ _ _ _ _ E1)).
    rewrite (bind_run _ _ _ _ _ (put_run a kraw kv v s1 en T1 Hraw)).
    destruct (IH l eq_refl Hr (S (S n)) pos _ (raw_set en kv v) ltac:(lia) (upd_same _ _ _ _ T1))
      as (s3 & kvs & F3 & T3 & K3 & D3).
    pose proof (keeps_except_trans _ _ _ _ (upd_keeps s1 a _) K3) as K23.
    exists s3, ((kv, v) :: kvs). split; [exact F3|]. split; [exact T3|]. split.
    + eapply keeps_except_trans; [apply keeps_weaken, K1|exact K23].
    + constructor; [|exact D3]. cbn [fst snd]. split; [exact Ekv|].
      exact (denotes_kept _ _ _ _ _ D1 K23).
Qed.

Lemma data_ind' (P : data -> Prop) :
  P DNull -> (forall b, P (DBool b)) -> (forall z, P (DInt z)) -> (forall bits, P (DFloat bits)) ->
  (forall s, P (DString s)) ->
  (forall items, Forall P items -> P (DSeq items)) ->
  (forall entries, Forall (fun kd => P (fst kd) /\ P (snd kd)) entries -> P (DMap entries)) ->
  forall d, P d.
Proof.
  intros Hn Hb Hi Hf Hs Hq Hm. fix rec 1. intros d. destruct d.
  - exact Hn. - apply Hb. - apply Hi. - apply Hf. - apply Hs.
  - apply Hq. induction items as [|x r IH]; constructor; [apply rec|exact IH].
  - apply Hm. induction entries as [|[k v] r IH]; constructor; [split; apply rec|exact IH].
Qed.

Lemma evaluates_all dl d : ok d -> evaluates dl d.
Proof.
  induction d as [| b | z | bits | str | items IH | entries IH] using data_ind';
    intros Hok e He n rho va s Hn; (destruct n as [|n]; [cbn in Hn; lia|]).
  - injection He as <-. exists VNil, s. rewrite eval_S_nil.
    split; [reflexivity|]. split; [apply keeps_refl|constructor].
  - exists (VBool b), s. split; [|split; [apply keeps_refl|constructor]].
    destruct b; injection He as <-; [rewrite eval_S_true|rewrite eval_S_false]; reflexivity.
  - cbn [to_expression] in He. destruct (int_supported z); [|discriminate]. injection He as <-.
    exists (VNum (of_Z z)), s. rewrite eval_S_number. cbn [number_value].
    destruct Hok as (Hi & _). cbn [ints_ok] in Hi. unfold int_roundtrip in Hi. rewrite Hi.
    split; [reflexivity|]. split; [apply keeps_refl|constructor].
  - injection He as <-. exists (VNum (of_bits bits)), s. rewrite eval_S_number.
    split; [reflexivity|]. split; [apply keeps_refl|constructor].
  - injection He as <-. exists (VStr str), s. rewrite eval_S_string.
    split; [reflexivity|]. split; [apply keeps_refl|constructor].
  - rewrite to_expression_seq in He. destruct (seq_entries items) as [es|] eqn:Ees; [|discriminate].
    inversion He; subst e; clear He. rewrite size_seq in Hn.
    destruct (ok_seq _ items Hok IH) as [Hlen HF].
    destruct (fill_seq dl rho va _ items es Ees HF n 1%Z _ [] ltac:(lia) ltac:(lia) ltac:(lia)
                (new_table_nth s)) as (s2 & vals & F2 & T2 & K2 & D2).
    destruct (eval_table_run dl n rho va es s s2 F2 K2) as [E K].
    eexists _, s2. split; [exact E|]. split; [exact K|].
    apply (seq_table_denotes _ _ _ vals); [lia|exact T2|exact Hlen|exact D2].
  - rewrite to_expression_map in He. destruct (map_entries entries) as [es|] eqn:Ees; [|discriminate].
    inversion He; subst e; clear He. rewrite size_map in Hn.
    pose proof (ok_map _ entries Hok IH) as HF.
    destruct (fill_map dl rho va _ entries es Ees HF n 1%Z _ [] ltac:(lia) (new_table_nth s))
      as (s2 & kvs & F2 & T2 & K2 & D2).
    destruct (eval_table_run dl n rho va es s s2 F2 K2) as [E K].
    eexists _, s2. split; [exact E|]. split; [exact K|].
    apply (map_table_denotes _ _ _ kvs); [lia|exact T2|exact D2].
Qed.
