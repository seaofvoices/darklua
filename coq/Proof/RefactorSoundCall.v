(** C16, remove_method_call: [x:m(args)] and [x.m(x, args)] evaluate alike when reading [x]
    runs no code and the method lookup does not rebind [x]. *)
From Coq Require Import ZArith NArith List Bool String Lia.
From DL Require Import Lib.Bytes Lib.F64 Lua.Syntax Lua.Sem Lua.EvalSpec.
From DL Require Import Model.Removal Model.Refactor.
From DL Require Import Proof.SemFacts Proof.EvaluatorStore Proof.DefaultRulesSem Proof.RefactorSem.
Import ListNotations.
Open Scope N_scope.

Section Call.
Variable d : dialect.

(** the arguments of a call, as the expression list [Arguments::to_expressions] gives *)
Lemma eval_args_exprs n rho va a s vs s' :
  eval_args d n rho va a s = Ok vs s' ->
  forall k, (n + 1 <= k)%nat -> eval_list d k rho va (args_exprs a) s = Ok vs s'.
Proof.
  intros H k L. fuel_S n H. destruct a as [es|str|ens]; cbn [args_exprs].
  - rewrite eval_args_S_tuple in H. eapply eval_list_up; [exact H|lia].
  - rewrite eval_args_S_string in H. destruct k as [|[|k]]; try lia.
    rewrite eval_list_S_one, eval_S_string. exact H.
  - rewrite eval_args_S_table in H. destruct k as [|k]; [lia|]. rewrite eval_list_S_one.
    eapply eval_up; [|instantiate (1 := S n); lia]. rewrite eval_S_table. exact H.
Qed.

Lemma rw_method_call_ident x m a :
  rw_method_call (ECall (EIdent x) (Some m) a) =
  ECall (EField (EIdent x) m) None (ATuple (EIdent x :: args_exprs a)).
Proof. reflexivity. Qed.

(** the general shape: receiver [p], duplicated as [np] ([method_receiver p = Some np]).  The
    receiver evaluates without effect to [o]; [np] evaluates to [o] without effect before and
    after the lookup of the method. *)
Definition stable_receiver (rho : env) (va : list value) (p np : expr) (m : name) (s : store) : Prop :=
  forall k o s0, eval1 d k rho va p s = Ok o s0 ->
    s0 = s /\
    (forall j, (3 <= j)%nat -> eval d j rho va np s = Ok [o] s) /\
    (forall k2 f s1, index d k2 o (VStr m) s = Ok f s1 ->
       forall j, (3 <= j)%nat -> eval d j rho va np s1 = Ok [o] s1).

Lemma method_call_gen n rho va p np m a s r s' :
  stable_receiver rho va p np m s ->
  eval d n rho va (ECall p (Some m) a) s = Ok r s' ->
  forall k, (n + 7 <= k)%nat ->
  eval d k rho va (ECall (EField np m) None (ATuple (np :: args_exprs a))) s = Ok r s'.
Proof.
  intros Hst H k L.
  fuel_S n H. rewrite eval_S_call in H.
  apply bind_ok in H as (o & s0 & Ho & H). apply bind_ok in H as (f & s1 & Hidx & H).
  apply bind_ok in H as (args & s2 & Hargs & Hcall).
  destruct (Hst _ _ _ Ho) as (-> & Hnp & Hafter). specialize (Hafter _ _ _ Hidx).
  destruct k as [|[|[|k]]]; try lia.
  rewrite eval_S_call. eapply bind_ok_intro.
  { apply eval1_of_eval. rewrite eval_S_field.
    eapply bind_ok_intro; [eapply eval1_up; [apply eval1_of_eval, (Hnp 3%nat); lia|lia]|].
    eapply bind_ok_intro; [eapply index_up; [exact Hidx|lia]|reflexivity]. }
  cbn [first]. eapply bind_ok_intro; [|eapply call_up; [exact Hcall|lia]].
  rewrite eval_args_S_tuple.
  pose proof (eval_args_exprs _ _ _ _ _ _ _ Hargs) as Hl.
  destruct (args_exprs a) as [|e rest].
  - specialize (Hl (S k) ltac:(lia)). rewrite eval_list_S_nil in Hl. apply ret_ok in Hl as [-> ->].
    rewrite eval_list_S_one. apply Hafter. lia.
  - rewrite eval_list_S_cons.
    eapply bind_ok_intro; [eapply eval1_up; [apply eval1_of_eval, (Hafter 3%nat); lia|lia]|].
    eapply bind_ok_intro; [apply Hl; lia|reflexivity].
Qed.

(** [x:m(args)] -> [x.m(x, args)].  Hypotheses: reading [x] runs no code (a local, or a global of
    a globals table without metatable), and the lookup of [m] (which may run an [__index]
    metamethod) leaves the binding of [x] as it is. *)
Theorem method_call_sound n rho va x m a s r s' :
  pure_ident rho x s ->
  (forall o k f s1, reads rho x s o -> index d k o (VStr m) s = Ok f s1 -> reads rho x s1 o) ->
  eval d n rho va (ECall (EIdent x) (Some m) a) s = Ok r s' ->
  forall k, (n + 7 <= k)%nat ->
  eval d k rho va (rw_method_call (ECall (EIdent x) (Some m) a)) s = Ok r s'.
Proof.
  intros Hp Hstable H k L. rewrite rw_method_call_ident.
  eapply method_call_gen; [|exact H|exact L].
  intros k0 o s0 Ho. apply (eval1_reads d _ _ _ _ _ _ _ Hp) in Ho as [-> Hr].
  split; [reflexivity|]. split.
  - intros j Lj. apply (reads_eval d _ _ _ _ _ _ Hr). lia.
  - intros k2 f s1 Hidx j Lj. apply (reads_eval d _ _ _ _ _ _ (Hstable _ _ _ _ Hr Hidx)). lia.
Qed.

(** a literal receiver: [("s"):m(args)] -> [("s").m(("s"), args)] - no hypothesis at all *)
Definition is_literal (e : expr) : bool :=
  match e with ENil | ETrue | EFalse | EString _ | ENumber _ => true | _ => false end.

Lemma literal_eval e : is_literal e = true ->
  exists v, forall rho va s j, (1 <= j)%nat -> eval d j rho va e s = Ok [v] s.
Proof.
  destruct e; try discriminate; intros _; eexists; intros rho0 va0 st [|j] L; try lia.
  - rewrite eval_S_nil. reflexivity.
  - rewrite eval_S_true. reflexivity.
  - rewrite eval_S_false. reflexivity.
  - rewrite eval_S_number. reflexivity.
  - rewrite eval_S_string. reflexivity.
Qed.

Lemma literal_eval_inv e v : is_literal e = true ->
  (forall rho va s j, (1 <= j)%nat -> eval d j rho va e s = Ok [v] s) ->
  forall rho va s j vs s', eval d j rho va e s = Ok vs s' -> vs = [v] /\ s' = s.
Proof.
  intros Hl Hv rho va s j vs s' H. fuel_S j H.
  rewrite (Hv rho va s (S j) ltac:(lia)) in H. inversion H; auto.
Qed.

Theorem method_call_literal_sound n rho va lit m a s r s' :
  is_literal lit = true ->
  eval d n rho va (ECall (EParen lit) (Some m) a) s = Ok r s' ->
  forall k, (n + 7 <= k)%nat ->
  eval d k rho va (rw_method_call (ECall (EParen lit) (Some m) a)) s = Ok r s'.
Proof.
  intros Hl H k L.
  replace (rw_method_call (ECall (EParen lit) (Some m) a))
    with (ECall (EField (EParen lit) m) None (ATuple (EParen lit :: args_exprs a)))
    by (destruct lit; try discriminate Hl; reflexivity).
  destruct (literal_eval lit Hl) as (v & Hv).
  assert (Hparen : forall s0 j, (3 <= j)%nat -> eval d j rho va (EParen lit) s0 = Ok [v] s0).
  { intros s0 [|[|j]] Lj; try lia. rewrite eval_S_paren.
    eapply bind_ok_intro; [apply eval1_of_eval, Hv; lia|reflexivity]. }
  eapply method_call_gen; [|exact H|exact L].
  intros k0 o s0 Ho.
  pose proof (eval1_up d _ (S (k0 + 3)) _ _ _ _ _ _ Ho ltac:(lia)) as Ho'.
  rewrite (eval1_of_eval _ _ _ _ _ _ _ _ (Hparen s (k0 + 3)%nat ltac:(lia))) in Ho'.
  injection Ho' as <- <-. split; [reflexivity|]. split; intros; now apply Hparen.
Qed.

(** a sufficient condition for the second hypothesis: the lookup does not touch the store *)
Corollary method_call_sound_quiet_lookup n rho va x m a s r s' :
  pure_ident rho x s ->
  (forall o k f s1, reads rho x s o -> index d k o (VStr m) s = Ok f s1 -> s1 = s) ->
  eval d n rho va (ECall (EIdent x) (Some m) a) s = Ok r s' ->
  forall k, (n + 7 <= k)%nat ->
  eval d k rho va (rw_method_call (ECall (EIdent x) (Some m) a)) s = Ok r s'.
Proof.
  intros Hp Hq. apply method_call_sound; [exact Hp|].
  intros o k f s1 Hr Hi. now rewrite (Hq _ _ _ _ Hr Hi).
Qed.

End Call.

(** the receiver is evaluated once in the original and twice in the output: if reading it is
    NOT free of effects the two differ - the rule duplicates only identifiers and literals, and
    an identifier read can run code only through a metatable on the globals table *)

(** satisfiable: a local string [x], [x:len()] *)
Definition ex_store : store :=
  mkStore [VStr (of_string "abc")] initial_tables [] [] [] 0.
Definition ex_rho : env := [(of_string "x", 0)].
Definition ex_call : expr := ECall (EIdent (of_string "x")) (Some (of_string "len")) (ATuple []).

Example method_call_example :
  pure_ident ex_rho (of_string "x") ex_store /\
  eval L51 8 ex_rho [] ex_call ex_store = Ok [VNum (of_Z 3)] ex_store /\
  eval L51 15 ex_rho [] (rw_method_call ex_call) ex_store = Ok [VNum (of_Z 3)] ex_store.
Proof.
  split; [left; discriminate|]. split; vm_compute; reflexivity.
Qed.
