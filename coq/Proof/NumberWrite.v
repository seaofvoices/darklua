(** Round-trip theorems for the number writer model ([Model/NumberWrite.v]) against the number
    reader model ([Model/NumberLit.v]): what the writer prints for hexadecimal and binary nodes is
    read back as the same node, and the digits of an integer-valued decimal node as that integer. *)
From Coq Require Import ZArith NArith List Bool Lia.
From Coq Require Import ZifyBool ZifyN.
From DL Require Import Lib.Bytes Lib.F64 Lua.Syntax Model.NumberLit Model.NumberWrite.
Import ListNotations.
Open Scope N_scope.

Ltac Zify.zify_post_hook ::= Z.div_mod_to_equations.

Arguments N.add : simpl never.
Arguments N.sub : simpl never.
Arguments N.mul : simpl never.
Arguments N.eqb : simpl never.
Arguments N.ltb : simpl never.
Arguments N.leb : simpl never.
Arguments N.div : simpl never.
Arguments N.modulo : simpl never.
Arguments N.pow : simpl never.

Lemma digit_char_range d : d < 16 ->
  (48 <= digit_char d /\ digit_char d <= 57) \/ (97 <= digit_char d /\ digit_char d <= 102).
Proof.
  intros H. unfold digit_char. destruct (N.ltb_spec d 10); lia.
Qed.

Lemma digit_char_dec d : d < 10 -> 48 <= digit_char d /\ digit_char d <= 57.
Proof. intros H. unfold digit_char. destruct (N.ltb_spec d 10); lia. Qed.

Lemma digit_val_char radix d : radix <= 16 -> d < radix -> digit_val radix (digit_char d) = Some d.
Proof.
  intros Hr Hd. unfold digit_val, digit_char, lower.
  assert (Hlt : (d <? radix) = true) by lia.
  destruct (N.ltb_spec d 10).
  - replace ((48 <=? 48 + d) && (48 + d <=? 57)) with true by lia.
    replace (48 + d - 48) with d by lia. rewrite Hlt. reflexivity.
  - replace ((48 <=? 87 + d) && (87 + d <=? 57)) with false by lia.
    replace ((65 <=? 87 + d) && (87 + d <=? 90)) with false by lia.
    replace ((97 <=? 87 + d) && (87 + d <=? 122)) with true by lia.
    replace (87 + d - 87) with d by lia. rewrite Hlt. reflexivity.
Qed.

Lemma digits_rev_S radix f v :
  digits_rev radix (S f) v =
  if v <? radix then [digit_char v]
  else digit_char (v mod radix) :: digits_rev radix f (v / radix).
Proof. reflexivity. Qed.

Lemma pos_size_nat_gt p : N.pos p < 2 ^ N.of_nat (Pos.size_nat p).
Proof.
  induction p as [p IH|p IH|]; cbn [Pos.size_nat];
    try (rewrite Nat2N.inj_succ, N.pow_succ_r'; lia).
Qed.

Lemma size_nat_gt v : v < 2 ^ N.of_nat (N.size_nat v).
Proof.
  destruct v as [|p]; [reflexivity|]. apply pos_size_nat_gt.
Qed.

(** The written text follows the number: one digit below the radix, or the text of
    [v / radix] followed by the digit [v mod radix].  The fuel of [fmt_radix] is dealt with
    here and nowhere else: what the reader makes of the text, and which characters occur in
    it, are inductions along this principle. *)
Lemma fmt_radix_ind radix (P : N -> bytes -> Prop) : 2 <= radix ->
  (forall v, v < radix -> P v [digit_char v]) ->
  (forall v l, radix <= v -> P (v / radix) l -> P v (l ++ [digit_char (v mod radix)])) ->
  forall v, P v (fmt_radix radix v).
Proof.
  intros H2 Hone Hsnoc.
  assert (Hfuel : forall f v, v < 2 ^ N.of_nat f -> P v (rev (digits_rev radix (S f) v))).
  { induction f as [|f IH]; intros v Hv; rewrite digits_rev_S;
      destruct (N.ltb_spec v radix) as [Hlt|Hge].
    - apply Hone, Hlt.
    - change (N.of_nat 0) with 0 in Hv. rewrite N.pow_0_r in Hv. lia.
    - apply Hone, Hlt.
    - cbn [rev]. apply Hsnoc; [exact Hge|]. apply IH.
      rewrite Nat2N.inj_succ, N.pow_succ_r' in Hv.
      apply N.div_lt_upper_bound; [lia|].
      pose proof (N.mul_le_mono_r 2 radix (2 ^ N.of_nat f) H2). lia. }
  intros v. apply Hfuel, size_nat_gt.
Qed.

Lemma parse_digits_app radix bound l1 l2 : forall acc,
  parse_digits radix bound (l1 ++ l2) acc =
  match parse_digits radix bound l1 acc with
  | Some a => parse_digits radix bound l2 a
  | None => None
  end.
Proof.
  induction l1 as [|c l1 IH]; intros acc; [reflexivity|].
  cbn [app parse_digits]. destruct (digit_val radix c); [|reflexivity].
  destruct (bound <? acc * radix + n); [reflexivity|]. apply IH.
Qed.

Lemma parse_digits_single radix bound d acc : radix <= 16 -> d < radix -> acc * radix + d <= bound ->
  parse_digits radix bound [digit_char d] acc = Some (acc * radix + d).
Proof.
  intros Hr Hd Hb. cbn [parse_digits]. rewrite digit_val_char by assumption.
  destruct (N.ltb_spec bound (acc * radix + d)); [lia|reflexivity].
Qed.

Theorem fmt_radix_parse : forall radix bound v, 2 <= radix -> radix <= 16 -> v <= bound ->
  parse_digits radix bound (fmt_radix radix v) 0 = Some v.
Proof.
  intros radix bound v H2 H16. revert v.
  apply (fmt_radix_ind radix (fun v l => v <= bound -> parse_digits radix bound l 0 = Some v) H2).
  - intros v Hv Hb. rewrite parse_digits_single by lia. reflexivity.
  - intros v l Hge IH Hb.
    pose proof (N.div_lt v radix ltac:(lia) ltac:(lia)) as Hq.
    rewrite parse_digits_app, IH by lia.
    pose proof (N.div_mod' v radix) as Hdm. pose proof (N.mod_lt v radix ltac:(lia)) as Hr.
    rewrite parse_digits_single by lia. f_equal. lia.
Qed.

Theorem fmt_radix_nonempty : forall radix v, fmt_radix radix v <> [].
Proof.
  intros radix v. unfold fmt_radix. rewrite digits_rev_S.
  destruct (v <? radix); cbn [rev]; intros H; symmetry in H; exact (app_cons_not_nil _ _ _ H).
Qed.

Lemma fmt_radix_chars radix v c : 2 <= radix -> In c (fmt_radix radix v) ->
  exists d, d < radix /\ c = digit_char d.
Proof.
  intros H2. revert v c.
  apply (fmt_radix_ind radix (fun _ l => forall c, In c l -> exists d, d < radix /\ c = digit_char d) H2).
  - intros v Hv c [<-|[]]. exists v. split; [exact Hv|reflexivity].
  - intros v l _ IH c Hin. apply in_app_or in Hin as [Hin|[<-|[]]]; [exact (IH c Hin)|].
    exists (v mod radix). split; [apply N.mod_lt; lia|reflexivity].
Qed.

Theorem fmt_radix_digits : forall radix v c, 2 <= radix -> radix <= 16 -> In c (fmt_radix radix v) ->
  (48 <= c /\ c <= 57) \/ (97 <= c /\ c <= 102).
Proof.
  intros radix v c H2 H16 Hin. destruct (fmt_radix_chars radix v c H2 Hin) as (d & Hd & ->).
  apply digit_char_range. lia.
Qed.

Lemma fmt_radix_notin radix v c : 2 <= radix -> radix <= 16 ->
  ~ ((48 <= c /\ c <= 57) \/ (97 <= c /\ c <= 102)) -> ~ In c (fmt_radix radix v).
Proof.
  intros H2 H16 Hc Hin. apply Hc. exact (fmt_radix_digits radix v c H2 H16 Hin).
Qed.

Lemma parse_unsigned_cons radix bound c r : c <> 43 ->
  parse_unsigned radix bound (c :: r) = parse_digits radix bound (c :: r) 0.
Proof.
  intros H. unfold parse_unsigned. destruct c as [|p]; [reflexivity|].
  do 6 (try (destruct p as [p|p|]; try reflexivity)).
  congruence.
Qed.

Lemma parse_unsigned_fmt radix bound v : 2 <= radix -> radix <= 16 -> v <= bound ->
  parse_unsigned radix bound (fmt_radix radix v) = Some v.
Proof.
  intros H2 H16 Hb.
  pose proof (fmt_radix_nonempty radix v) as Hne.
  pose proof (fmt_radix_digits radix v) as Hd.
  pose proof (fmt_radix_parse radix bound v H2 H16 Hb) as Hp.
  destruct (fmt_radix radix v) as [|c r]; [congruence|].
  rewrite parse_unsigned_cons; [assumption|].
  specialize (Hd c H2 H16 (or_introl eq_refl)). lia.
Qed.

Lemma parse_u32_fmt e : e < 2 ^ 32 -> parse_u32 (fmt_radix 10 e) = Some e.
Proof.
  intros He. change (2 ^ 32) with 4294967296 in He. unfold parse_u32.
  apply parse_unsigned_fmt; lia.
Qed.

Lemma filter_underscore_id s : ~ In 95 s -> filter_underscore s = s.
Proof.
  unfold filter_underscore. induction s as [|c s IH]; intros H; [reflexivity|].
  apply not_in_cons in H as [Hne H]. cbn [filter].
  destruct (N.eqb_spec c 95) as [E|_]; [congruence|]. cbn [negb]. f_equal. exact (IH H).
Qed.

Lemma parse_u64_radix_fmt radix v : 2 <= radix -> radix <= 16 -> v < 2 ^ 64 ->
  parse_u64_radix radix (fmt_radix radix v) = Some v.
Proof.
  intros H2 H16 Hv. change (2 ^ 64) with 18446744073709551616 in Hv.
  unfold parse_u64_radix. apply parse_unsigned_fmt; lia.
Qed.

(** The digits after a [0x] / [0b] prefix as the reader takes them, at any radix: the hexadecimal
    and the binary round trip are this at 16 and at 2. *)
Lemma prefixed_digits_read radix v : 2 <= radix -> radix <= 16 -> v < 2 ^ 64 ->
  parse_u64_radix radix (filter_underscore (fmt_radix radix v)) = Some v.
Proof.
  intros H2 H16 Hv. rewrite filter_underscore_id by (apply fmt_radix_notin; lia).
  apply parse_u64_radix_fmt; assumption.
Qed.

Lemma index_of_notin c s : ~ In c s -> forall i, index_of c s i = None.
Proof.
  induction s as [|x s IH]; intros H i; [reflexivity|].
  apply not_in_cons in H as [Hne H]. cbn [index_of].
  destruct (N.eqb_spec x c) as [E|_]; [congruence|]. exact (IH H _).
Qed.

Lemma index_of_app_notin c d t : ~ In c d -> forall i,
  index_of c (d ++ t) i = index_of c t (List.length d + i)%nat.
Proof.
  induction d as [|x d IH]; intros H i; [reflexivity|].
  apply not_in_cons in H as [Hne H]. cbn [app List.length index_of].
  destruct (N.eqb_spec x c) as [E|_]; [congruence|]. rewrite (IH H). f_equal. lia.
Qed.

(** position and case of the exponent letter as [from_str] looks for it, the lower-case letter
    first *)
Definition exp_index (lo hi : N) (value : bytes) : option (bool * nat) :=
  match index_of lo value 0 with
  | Some i => Some (false, i)
  | None => match index_of hi value 0 with
            | Some i => Some (true, i)
            | None => None
            end
  end.

Lemma exp_index_none lo hi s : ~ In lo s -> ~ In hi s -> exp_index lo hi s = None.
Proof. intros Hlo Hhi. unfold exp_index. rewrite !index_of_notin by assumption. reflexivity. Qed.

Lemma exp_index_found lo hi d (up : bool) t : lo <> hi -> ~ In lo d -> ~ In hi d -> ~ In lo t ->
  exp_index lo hi (d ++ (if up then hi else lo) :: t) = Some (up, List.length d).
Proof.
  intros Hne Hlo Hhi Ht. unfold exp_index. rewrite !index_of_app_notin by assumption.
  rewrite Nat.add_0_r. cbn [index_of]. destruct up.
  - destruct (N.eqb_spec hi lo) as [E|_]; [congruence|].
    rewrite index_of_notin by assumption. rewrite N.eqb_refl. reflexivity.
  - rewrite N.eqb_refl. reflexivity.
Qed.

Lemma skipn_past (d : bytes) p t : skipn (S (List.length d)) (d ++ p :: t) = t.
Proof. induction d as [|x d IH]; [reflexivity|exact IH]. Qed.

Lemma firstn_length_app (d t : bytes) : firstn (List.length d) (d ++ t) = d.
Proof.
  induction d as [|x d IH]; [reflexivity|]. cbn [List.length app firstn]. f_equal. exact IH.
Qed.

Lemma from_str_hex (u : bool) rest :
  from_str (48 :: (if u then 88 else 120) :: rest) =
  match exp_index 112 80 (48 :: (if u then 88 else 120) :: rest) with
  | Some (eupper, i) =>
    match parse_u32 (skipn (S i) (48 :: (if u then 88 else 120) :: rest)),
          parse_u64_radix 16 (firstn (i - 2) rest) with
    | Some ex, Some v => Some (NHex v u (Some (ex, eupper)))
    | _, _ => None
    end
  | None =>
    match parse_u64_radix 16 (filter_underscore rest) with
    | Some v => Some (NHex v u None)
    | None => None
    end
  end.
Proof. destruct u; reflexivity. Qed.

Lemma from_str_bin (u : bool) rest :
  from_str (48 :: (if u then 66 else 98) :: rest) =
  match parse_u64_radix 2 (filter_underscore rest) with
  | Some v => Some (NBin v u)
  | None => None
  end.
Proof. destruct u; reflexivity. Qed.

Theorem write_bin_roundtrip : forall v u, v < 2 ^ 64 ->
  from_str (write_bin v u) = Some (NBin v u).
Proof.
  intros v u Hv. unfold write_bin.
  rewrite from_str_bin, prefixed_digits_read by (assumption || lia). reflexivity.
Qed.

Theorem write_hex_roundtrip : forall v u e, v < 2 ^ 64 ->
  (forall ex up, e = Some (ex, up) -> ex < 2 ^ 32) ->
  from_str (write_hex v u e) = Some (NHex v u e).
Proof.
  intros v u e Hv He. unfold write_hex. rewrite from_str_hex.
  (* neither exponent letter occurs in [0x] followed by the digits *)
  assert (Hpre : forall c, c = 112 \/ c = 80 ->
                 ~ In c (48 :: (if u then 88 else 120) :: fmt_radix 16 v)).
  { intros c Hc [<-|[Hx|Hin]].
    - lia.
    - destruct u; lia.
    - revert Hin. apply fmt_radix_notin; lia. }
  destruct e as [[ex up]|].
  - specialize (He ex up eq_refl).
    rewrite 2!app_comm_cons.
    rewrite exp_index_found, skipn_past
      by (auto; try discriminate; apply fmt_radix_notin; lia).
    cbn [List.length]. rewrite Nat.sub_succ, Nat.sub_succ, Nat.sub_0_r, firstn_length_app.
    rewrite parse_u32_fmt, parse_u64_radix_fmt by (assumption || lia). reflexivity.
  - rewrite app_nil_r, exp_index_none by auto.
    rewrite prefixed_digits_read by (assumption || lia). reflexivity.
Qed.

(** Up to here nothing depends on the floating-point library.  Reading a decimal text goes
    through [of_decimal_c], whose result is a valid binary64 by [EvaluatorF64.valid_of_decimal_c]
    (Flocq, hence the axioms [Print Assumptions] shows for [write_dec_int_reads_value] alone). *)
From Coq Require Import Floats.SpecFloat.
From DL Require Import Proof.EvaluatorF64.
Open Scope N_scope.

Lemma fmt_radix_dec_digits v c : In c (fmt_radix 10 v) -> 48 <= c /\ c <= 57.
Proof.
  intros Hin. destruct (fmt_radix_chars 10 v c ltac:(lia) Hin) as (d & Hd & ->).
  apply digit_char_dec, Hd.
Qed.

Lemma take_digits_app l l2 : forall acc n a k, take_digits l acc n = (a, k, []) ->
  take_digits (l ++ l2) acc n = take_digits l2 a k.
Proof.
  induction l as [|c l IH]; intros acc n a k H.
  - cbn [take_digits] in H. injection H as <- <-. reflexivity.
  - cbn [app take_digits] in *. destruct (is_digit c).
    + apply IH. exact H.
    + discriminate.
Qed.

Lemma take_digits_single d a k : d < 10 ->
  take_digits [digit_char d] a k = ((a * 10 + Z.of_N d)%Z, (k + 1)%Z, []).
Proof.
  intros H. cbn [take_digits]. unfold is_digit, digit_char. destruct (N.ltb_spec d 10); [|lia].
  replace ((48 <=? 48 + d) && (48 + d <=? 57)) with true by lia.
  replace (48 + d - 48) with d by lia. reflexivity.
Qed.

Lemma fmt_radix_take v :
  exists k, (0 < k)%Z /\ take_digits (fmt_radix 10 v) 0 0 = (Z.of_N v, k, []).
Proof.
  revert v. apply (fmt_radix_ind 10
    (fun v l => exists k, (0 < k)%Z /\ take_digits l 0 0 = (Z.of_N v, k, []))); [lia| |].
  - intros v Hv. rewrite take_digits_single by exact Hv. exists 1%Z. split; [lia|reflexivity].
  - intros v l Hge (k & Hk & Ht). rewrite (take_digits_app _ _ _ _ _ _ Ht).
    rewrite take_digits_single by lia. exists (k + 1)%Z. split; [lia|].
    do 2 f_equal. lia.
Qed.

Lemma prefix_b_46_notin p value : ~ In 46 value -> prefix_b (46 :: p) value = false.
Proof.
  destruct value as [|c r]; intros H; [reflexivity|]. cbn [prefix_b].
  destruct (N.eqb_spec 46 c) as [<-|Hne]; [|reflexivity]. exfalso. apply H. left. reflexivity.
Qed.

Lemma nth_non_underscore_in : forall s k p pos c,
  nth_non_underscore s k p = Some (pos, c) -> In c s.
Proof.
  induction s as [|a s IH]; intros k p pos c H; cbn [nth_non_underscore] in H; [discriminate|].
  destruct (a =? 95).
  - right. eapply IH. exact H.
  - destruct k.
    + injection H as _ <-. left. reflexivity.
    + right. eapply IH. exact H.
Qed.

(** a text of digits and minus signs is read by the decimal arm of [from_str], which has no
    exponent to split off and no underscore to drop *)
Lemma from_str_decimal value : (forall c, In c value -> c = 45 \/ (48 <= c /\ c <= 57)) ->
  from_str value = match parse_f64 value with
                   | Some x => Some (NDec (to_bits x) None)
                   | None => None
                   end.
Proof.
  intros H.
  assert (Hnot : forall c, ~ (c = 45 \/ (48 <= c /\ c <= 57)) -> ~ In c value)
    by (intros c Hc Hin; exact (Hc (H c Hin))).
  unfold from_str. cbv beta zeta.
  rewrite prefix_b_46_notin by (apply Hnot; lia).
  rewrite (index_of_notin 101), (index_of_notin 69) by (apply Hnot; lia).
  rewrite filter_underscore_id by (apply Hnot; lia).
  cbv beta iota zeta.
  match goal with |- match ?b with true => _ | false => _ end = _ => destruct b end;
    [|reflexivity].
  destruct (nth_non_underscore value 1 0) as [[pos nota]|] eqn:E; [|reflexivity].
  apply nth_non_underscore_in in E. apply H in E.
  replace (nota =? 120) with false by lia. replace (nota =? 88) with false by lia.
  replace (nota =? 98) with false by lia. replace (nota =? 66) with false by lia.
  reflexivity.
Qed.

Lemma digit_cases c : 48 <= c /\ c <= 57 ->
  c = 48 \/ c = 49 \/ c = 50 \/ c = 51 \/ c = 52 \/ c = 53 \/ c = 54 \/ c = 55 \/ c = 56 \/ c = 57.
Proof. lia. Qed.

Lemma bytes_eqb_head x a y b : x <> y -> bytes_eqb (x :: a) (y :: b) = false.
Proof. intros H. cbn [bytes_eqb]. destruct (N.eqb_spec x y); [contradiction|reflexivity]. Qed.

(** a text starting with a digit is none of the words [inf], [infinity], [nan] *)
Lemma lower_bytes_not_word c r w : 48 <= c /\ c <= 57 -> 97 <= hd 0 w ->
  bytes_eqb (lower_bytes (c :: r)) w = false.
Proof.
  intros Hc Hw. destruct w as [|w0 w]; cbn [hd] in Hw; [lia|].
  unfold lower_bytes. cbn [map]. apply bytes_eqb_head. unfold lower.
  destruct ((65 <=? c) && (c <=? 90)); lia.
Qed.

Lemma parse_f64_digits (neg : bool) c r a k : 48 <= c /\ c <= 57 ->
  take_digits (c :: r) 0 0 = (a, k, []) -> (0 < k)%Z ->
  parse_f64 ((if neg then [45] else []) ++ c :: r) = Some (of_decimal_c neg a 0).
Proof.
  intros Hc Ht Hk. unfold parse_f64.
  (* the sign split: the first character after the optional minus is a digit, not a sign *)
  match goal with |- (let '(_, _) := ?split in _) = _ =>
    assert (Hsign : split = (neg, c :: r)) end.
  { destruct neg; [reflexivity|].
    destruct (digit_cases c Hc) as [->|[->|[->|[->|[->|[->|[->|[->|[->| ->]]]]]]]]]; reflexivity. }
  rewrite Hsign. cbv beta iota zeta.
  rewrite !(lower_bytes_not_word c r) by (assumption || (cbv; discriminate)).
  cbn [orb]. rewrite Ht. cbv beta iota zeta.
  destruct (Z.eqb_spec (k + 0) 0); [lia|]. reflexivity.
Qed.

Lemma parse_f64_dec_int neg m :
  parse_f64 (write_dec_int neg m) = Some (of_decimal_c neg (Z.of_N m) 0).
Proof.
  unfold write_dec_int. destruct (fmt_radix_take m) as (k & Hk & Ht).
  pose proof (fmt_radix_dec_digits m) as HD. pose proof (fmt_radix_nonempty 10 m) as Hne.
  destruct (fmt_radix 10 m) as [|c r]; [congruence|].
  apply (parse_f64_digits neg c r _ k); try assumption.
  apply HD. left. reflexivity.
Qed.

Lemma write_dec_int_chars neg m c : In c (write_dec_int neg m) -> c = 45 \/ (48 <= c /\ c <= 57).
Proof.
  unfold write_dec_int. intros Hin. apply in_app_or in Hin as [Hin|Hin].
  - destruct neg; [destruct Hin as [<-|[]]; left; reflexivity|destruct Hin].
  - right. exact (fmt_radix_dec_digits m c Hin).
Qed.

Lemma from_str_write_dec_int neg m :
  from_str (write_dec_int neg m) = Some (NDec (to_bits (of_decimal_c neg (Z.of_N m) 0)) None).
Proof.
  rewrite from_str_decimal by apply write_dec_int_chars.
  rewrite parse_f64_dec_int. reflexivity.
Qed.

Lemma ndigits_fuel_pos : forall f n, (1 <= ndigits_fuel f n)%Z.
Proof.
  induction f as [|f IH]; intros n; cbn [ndigits_fuel]; [lia|].
  destruct (n <? 10)%Z; [lia|]. specialize (IH (n / 10)%Z). lia.
Qed.

Lemma of_decimal_c_int neg m :
  of_decimal_c neg (Z.of_N m) 0 = if neg then fneg (of_N m) else of_N m.
Proof.
  unfold of_decimal_c.
  assert (E : clampZ (-400 - ndigits (Z.of_N m)) 400 0 = 0%Z).
  { unfold clampZ, ndigits. pose proof (ndigits_fuel_pos (S (Z.to_nat (Z.log2 (Z.of_N m)))) (Z.of_N m)). lia. }
  rewrite E. destruct m as [|p].
  - destruct neg; reflexivity.
  - cbn [Z.of_N].
    change (of_decimal neg (Z.pos p) 0)
      with (fnorm (if neg then - (Z.pos p * 10 ^ 0) else Z.pos p * 10 ^ 0)%Z 0 neg).
    rewrite Z.pow_0_r, Z.mul_1_r. destruct neg.
    + rewrite fneg_of_N. reflexivity.
    + reflexivity.
Qed.

Theorem write_dec_int_reads_value : forall neg m, m < 2 ^ 53 ->
  exists bits, from_str (write_dec_int neg m) = Some (NDec bits None) /\
               of_bits bits = (if neg then fneg (of_N m) else of_N m).
Proof.
  intros neg m _. exists (to_bits (of_decimal_c neg (Z.of_N m) 0)). split.
  - apply from_str_write_dec_int.
  - rewrite of_to_bits by apply valid_of_decimal_c. apply of_decimal_c_int.
Qed.

Print Assumptions fmt_radix_parse.
Print Assumptions fmt_radix_nonempty.
Print Assumptions fmt_radix_digits.
Print Assumptions write_hex_roundtrip.
Print Assumptions write_bin_roundtrip.
Print Assumptions write_dec_int_reads_value.
