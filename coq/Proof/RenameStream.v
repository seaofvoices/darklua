(** The name stream of rename_variables (Model/Rename.v: nth_raw, search, gen_stream):
    the raw permutator enumerates without repetition ([nth_raw] is injective, with an explicit
    inverse [index_of]), every string it yields is over the identifier alphabet, and whatever
    passes the filters is a valid identifier that is not a keyword. *)
From Coq Require Import NArith List Bool Lia ZArith ZifyBool ZifyN ZifyNat.
From DL Require Import Lib.Bytes Model.Rename.
Import ListNotations.
Open Scope N_scope.
Ltac Zify.zify_post_hook ::= Z.div_mod_to_equations.

Definition unalpha (c : N) : N :=
  if is_lower c then c - 97
  else if is_upper c then c - 65 + 26
  else if c =? 95 then 52
  else c - 48 + 53.

Lemma unalpha_alpha d : d < 63 -> unalpha (alpha d) = d.
Proof.
  intros H. unfold alpha.
  destruct (d <? 26) eqn:E1; [|destruct (d <? 52) eqn:E2; [|destruct (d =? 52) eqn:E3]];
    unfold unalpha, is_lower, is_upper;
    repeat match goal with |- context[if ?b then _ else _] => destruct b eqn:? end; lia.
Qed.

Lemma alpha_ident_char d : d < 63 -> is_ident_char (alpha d) = true.
Proof.
  intros H. unfold alpha.
  destruct (d <? 26) eqn:E1; [|destruct (d <? 52) eqn:E2; [|destruct (d =? 52) eqn:E3]];
    unfold is_ident_char, is_ident_start, is_lower, is_upper, is_digit; lia.
Qed.

Definition hstep (a c : N) : N := a * 63 + unalpha c + 1.
Definition hval (s : name) : N := fold_left hstep s 0.
Definition index_of (s : name) : N := hval s - 1.

Lemma nth_raw_fuel_S f n acc :
  nth_raw_fuel (S f) n acc =
  if n <? 63 then alpha n :: acc else nth_raw_fuel f (n / 63 - 1) (alpha (n mod 63) :: acc).
Proof. reflexivity. Qed.

Lemma nth_raw_fuel_val : forall fuel n acc,
  n < 2 ^ N.of_nat fuel ->
  fold_left hstep (nth_raw_fuel (S fuel) n acc) 0 = fold_left hstep acc (n + 1).
Proof.
  induction fuel as [|f IH]; intros n acc Hn.
  - assert (n = 0) by (cbn in Hn; lia). subst n. reflexivity.
  - rewrite nth_raw_fuel_S. destruct (n <? 63) eqn:E.
    + cbn [fold_left]. unfold hstep at 2. rewrite unalpha_alpha by lia. f_equal.
    + rewrite IH.
      * cbn [fold_left]. unfold hstep at 2. rewrite unalpha_alpha by (apply N.mod_lt; lia).
        f_equal. lia.
      * rewrite Nat2N.inj_succ, N.pow_succ_r' in Hn. lia.
Qed.

Lemma hval_nth_raw n : hval (nth_raw n) = n + 1.
Proof.
  unfold hval, nth_raw. rewrite nth_raw_fuel_val.
  - reflexivity.
  - rewrite N2Nat.id. apply N.size_gt.
Qed.

Lemma index_of_nth_raw n : index_of (nth_raw n) = n.
Proof. unfold index_of. rewrite hval_nth_raw. lia. Qed.

Theorem nth_raw_inj : forall n m, nth_raw n = nth_raw m -> n = m.
Proof.
  intros n m H. rewrite <- (index_of_nth_raw n), <- (index_of_nth_raw m). now rewrite H.
Qed.

Lemma nth_raw_nonempty n : nth_raw n <> [].
Proof.
  intros H. pose proof (hval_nth_raw n) as E. rewrite H in E. cbn in E. lia.
Qed.

Lemma nth_raw_fuel_chars : forall fuel n acc,
  Forall (fun c => is_ident_char c = true) acc ->
  Forall (fun c => is_ident_char c = true) (nth_raw_fuel fuel n acc).
Proof.
  induction fuel as [|f IH]; intros n acc H; [exact H|].
  rewrite nth_raw_fuel_S. destruct (n <? 63) eqn:E.
  - constructor; [apply alpha_ident_char; lia | exact H].
  - apply IH. constructor; [apply alpha_ident_char; apply N.mod_lt; lia | exact H].
Qed.

Lemma nth_raw_chars n : Forall (fun c => is_ident_char c = true) (nth_raw n).
Proof. apply nth_raw_fuel_chars. constructor. Qed.

Lemma start_or_digit c : is_ident_char c = true -> is_ident_start c = negb (is_digit c).
Proof.
  unfold is_ident_char, is_ident_start, is_lower, is_upper, is_digit. lia.
Qed.

Lemma raw_shape n : ident_shape (nth_raw n) = negb (starts_with_digit (nth_raw n)).
Proof.
  pose proof (nth_raw_chars n) as H. pose proof (nth_raw_nonempty n) as NE.
  destruct (nth_raw n) as [|c r]; [congruence|].
  inversion H as [|? ? Hc Hr]; subst. cbn [ident_shape starts_with_digit].
  rewrite (proj2 (forallb_forall _ _)).
  - rewrite andb_true_r. now apply start_or_digit.
  - intros x Hx. rewrite Forall_forall in Hr. now apply Hr.
Qed.

Lemma mem_In x l : mem x l = true <-> In x l.
Proof.
  unfold mem. rewrite existsb_exists. split.
  - intros [y [Hy E]]. apply bytes_eqb_eq in E. now subst.
  - intros H. exists x. split; [exact H|]. now apply bytes_eqb_eq.
Qed.

Lemma mem_false x l : mem x l = false <-> ~ In x l.
Proof.
  rewrite <- mem_In. destruct (mem x l); split; congruence.
Qed.

Lemma filter_valid av q :
  incl keywords av -> filter_identifier av (nth_raw q) = true -> valid_ident (nth_raw q) = true.
Proof.
  intros Hk H. unfold filter_identifier in H. apply andb_true_iff in H as [H1 H2].
  unfold valid_ident. rewrite raw_shape, H2. cbn [andb].
  apply negb_true_iff in H1. apply mem_false in H1.
  apply negb_true_iff. apply mem_false. intros K. apply H1. now apply Hk.
Qed.

Lemma valid_not_keyword s : valid_ident s = true -> ~ In s keywords.
Proof.
  unfold valid_ident. intros H. apply andb_true_iff in H as [_ H].
  apply negb_true_iff in H. now apply mem_false.
Qed.

Lemma search_char good : forall k p,
  match search good k p with
  | Some q => good q = true /\ p <= q /\ forall r, p <= r < q -> good r = false
  | None => forall r, p <= r < p + 2 ^ N.of_nat k -> good r = false
  end.
Proof.
  induction k as [|k IH]; intros p; cbn [search].
  - destruct (good p) eqn:E.
    + split; [exact E|]. split; lia.
    + intros r Hr. cbn in Hr. now replace r with p by lia.
  - pose proof (IH p) as H1. destruct (search good k p) as [q|]; [exact H1|].
    pose proof (IH (p + 2 ^ N.of_nat k)) as H2. rewrite Nat2N.inj_succ, N.pow_succ_r'.
    destruct (search good k (p + 2 ^ N.of_nat k)) as [q|].
    + destruct H2 as [G [L M]]. split; [exact G|]. split; [lia|]. intros r Hr.
      destruct (r <? p + 2 ^ N.of_nat k) eqn:C; [apply H1 | apply M]; lia.
    + intros r Hr. destruct (r <? p + 2 ^ N.of_nat k) eqn:C; [apply H1 | apply H2]; lia.
Qed.

Lemma search_spec good k p q : search good k p = Some q -> good q = true /\ p <= q.
Proof. intros H. pose proof (search_char good k p) as C. rewrite H in C. tauto. Qed.

Lemma search_finds good k p r :
  p <= r < p + 2 ^ N.of_nat k -> good r = true ->
  exists q, search good k p = Some q /\ good q = true /\ p <= q <= r.
Proof.
  intros Hr G. pose proof (search_char good k p) as C. destruct (search good k p) as [q|].
  - destruct C as [Gq [L M]]. exists q. repeat split; try assumption.
    destruct (r <? q) eqn:E; [|lia]. rewrite M in G by lia. discriminate.
  - rewrite C in G by exact Hr. discriminate.
Qed.

Lemma gen_stream_from_S n p :
  gen_stream_from (S n) p =
  match search (fun q => valid_ident (nth_raw q)) search_bits p with
  | Some q => nth_raw q :: gen_stream_from n (q + 1)
  | None => []
  end.
Proof. reflexivity. Qed.

Lemma gen_stream_from_prefix : forall n m p,
  gen_stream_from n p = firstn n (gen_stream_from (n + m) p).
Proof.
  induction n as [|n IH]; intros m p; [reflexivity|].
  cbn [Nat.add]. rewrite !gen_stream_from_S.
  destruct (search _ search_bits p) as [q|]; [|reflexivity].
  cbn [firstn]. f_equal. apply IH.
Qed.

Lemma gen_stream_from_spec : forall n p x,
  In x (gen_stream_from n p) -> valid_ident x = true /\ exists q, p <= q /\ x = nth_raw q.
Proof.
  induction n as [|n IH]; intros p x H; [contradiction|]. rewrite gen_stream_from_S in H.
  destruct (search (fun q => valid_ident (nth_raw q)) search_bits p) as [q|] eqn:E; [|contradiction].
  apply search_spec in E as [G L]. destruct H as [H|H].
  - subst x. split; [exact G|]. exists q. split; [exact L | reflexivity].
  - apply IH in H as [V [q' [L' E']]]. split; [exact V|]. exists q'. split; [lia | exact E'].
Qed.

Lemma gen_stream_from_nodup : forall n p, NoDup (gen_stream_from n p).
Proof.
  induction n as [|n IH]; intros p; [constructor|]. rewrite gen_stream_from_S.
  destruct (search (fun q => valid_ident (nth_raw q)) search_bits p) as [q|] eqn:E; [|constructor].
  constructor; [|apply IH].
  intros H. apply gen_stream_from_spec in H as [_ [q' [L E']]].
  apply nth_raw_inj in E'. lia.
Qed.

Theorem gen_stream_valid n : Forall (fun x => valid_ident x = true) (gen_stream n).
Proof. apply Forall_forall. intros x H. now apply gen_stream_from_spec in H as [V _]. Qed.

Theorem gen_stream_nodup n : NoDup (gen_stream n).
Proof. apply gen_stream_from_nodup. Qed.

(** position of "self": the first raw name the processor must never hand out but can *)
Definition self_index : N := 4771499.
Lemma nth_raw_self : nth_raw self_index = of_string "self".
Proof. vm_compute. reflexivity. Qed.

Theorem filtered_name_valid : forall av q,
  incl keywords av -> filter_identifier av (nth_raw q) = true ->
  valid_ident (nth_raw q) = true /\ ~ In (nth_raw q) keywords.
Proof.
  intros av q H1 H2. split; [now apply (filter_valid av) | apply valid_not_keyword; now apply (filter_valid av)].
Qed.

Theorem generated_stream : forall n,
  Forall (fun x => valid_ident x = true) (gen_stream n) /\ NoDup (gen_stream n).
Proof. intros n. split; [apply gen_stream_valid | apply gen_stream_nodup]. Qed.
