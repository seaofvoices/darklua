(** C06: remove_floor_division ([a // b] => [math.floor(a / b)]) and
    remove_compound_assignment on an identifier ([x op= e] => [x = x op e]). *)
From Coq Require Import ZArith NArith List Bool String Lia.
From DL Require Import Lib.Bytes Lib.F64 Lua.Syntax Lua.Sem Model.Evaluator Lua.EvalSpec Lua.EvalSpec2
  Proof.SemFacts Proof.EvaluatorStore Proof.DefaultRulesSem Proof.LoweringFuel Proof.RefactorSem
  Proof.DefaultRulesSoundBlock Proof.DefaultRulesSoundExpr Proof.LoweringSoundBasic
  Model.Visit Model.Lowering.
Import ListNotations.
Open Scope N_scope.
Local Notation llen := List.length.

Lemma call_builtin_floor d n q : call_builtin d (S n) B_floor [VNum q] = ret [VNum (ffloor q)].
Proof. exact (call_builtin_S d n B_floor [VNum q]). Qed.

Lemma reads_global rho x s g v :
  lookup rho x = None -> nth_N (tables s) (N.to_nat A_globals) = Some g ->
  raw_get (t_entries g) (VStr x) = v -> v <> VNil -> reads rho x s v.
Proof.
  intros Hl Hg Hv Hn. unfold reads. rewrite Hl. exists g. rewrite Hv.
  split; [exact Hg|]. split; [left; exact Hn|]. destruct v; try reflexivity. contradiction.
Qed.

Definition math_floor_bound (s : store) : Prop :=
  exists g m tm,
    nth_N (tables s) (N.to_nat A_globals) = Some g /\
    raw_get (t_entries g) (VStr (lnm "math")) = VTable m /\
    nth_N (tables s) (N.to_nat m) = Some tm /\
    raw_get (t_entries tm) (VStr (lnm "floor")) = VBuiltin B_floor.

Lemma initial_store_math_floor orc : math_floor_bound (initial_store orc).
Proof. exists (nth 0 initial_tables (mkTable [] None)), A_math, (nth 1 initial_tables (mkTable [] None)). repeat split. Qed.

Lemma eval1_math_floor d k rho va s :
  lookup rho (lnm "math") = None -> math_floor_bound s ->
  eval1 d (5 + k) rho va (EField (EIdent (lnm "math")) (lnm "floor")) s = Ok (VBuiltin B_floor) s.
Proof.
  intros Hl (g & m & tm & Hg & Hm & Htm & Hf).
  change (5 + k)%nat with (S (S (S (S (S k))))).
  rewrite eval1_S, eval_S_field. unfold bind.
  rewrite (reads_eval1 d rho va _ s (VTable m) (S (S (S k)))) by (try lia; eapply reads_global; eauto; discriminate).
  rewrite (index_raw_hit d _ m (VStr (lnm "floor")) s tm Htm) by (cbn [norm_key]; rewrite Hf; discriminate).
  cbn [norm_key]. rewrite Hf. reflexivity.
Qed.

Definition numeric (d : dialect) (rho : env) (va : list value) (e : expr) : Prop :=
  forall n s v s1, eval1 d n rho va e s = Ok v s1 -> tonum v <> None.

Theorem floordiv_sound : forall d n rho va a b s vs s',
  lookup rho (lnm "math") = None -> math_floor_bound s ->
  numeric d rho va a -> numeric d rho va b ->
  eval d n rho va (EBinary BIDiv a b) s = Ok vs s' ->
  exists n', eval d n' rho va (rw_floor_division (EBinary BIDiv a b)) s = Ok vs s'.
Proof.
  intros d n rho va a b s vs s' Hl Hm Na Nb H.
  fuel_S n H. rewrite eval_S_binop in H by reflexivity.
  apply bind_ok in H as (av & s1 & Ha & H). apply bind_ok in H as (bv & s2 & Hb & H).
  rewrite binop_sem_arith in H by discriminate. apply bind_ok in H as (q & s3 & Hq & H). apply ret_ok in H as [-> ->].
  fuel_S n Hq. rewrite arith_S in Hq.
  pose proof (Na _ _ _ _ Ha) as Ta. pose proof (Nb _ _ _ _ Hb) as Tb.
  destruct (tonum av) as [x|] eqn:Ex; [|contradiction]. destruct (tonum bv) as [y|] eqn:Ey; [|contradiction].
  cbn [arith_num] in Hq. apply ret_ok in Hq as [-> ->].
  cbn [rw_floor_division].
  exists (S (5 + n)). rewrite eval_S_call_plain. unfold bind at 1.
  rewrite (eval1_math_floor d n rho va s Hl Hm).
  change (5 + n)%nat with (S (S (S (S (S n))))).
  rewrite eval_args_S_tuple, eval_list_S_one. unfold bind at 1.
  rewrite eval_S_binop by reflexivity. unfold bind at 1.
  rewrite (eval1_up _ _ (S (S n)) _ _ _ _ _ _ Ha) by lia. unfold bind at 1.
  rewrite (eval1_up _ _ (S (S n)) _ _ _ _ _ _ Hb) by lia.
  rewrite binop_sem_arith by discriminate. unfold bind at 1. rewrite arith_S, Ex, Ey. cbn [arith_num ret].
  rewrite call_S_builtin, call_builtin_floor. reflexivity.
Qed.

Example floordiv_example :
  let a := ENumber (NDec 4619567317775286272 None) in   (* 7 *)
  let b := EString [50] in                              (* "2" *)
  lookup [] (lnm "math") = None /\ math_floor_bound (initial_store []) /\
  (exists s', eval Luau 5 [] [] (EBinary BIDiv a b) (initial_store []) = Ok [VNum (of_Z 3)] s' /\
              eval Luau 9 [] [] (rw_floor_division (EBinary BIDiv a b)) (initial_store []) = Ok [VNum (of_Z 3)] s').
Proof. split; [reflexivity|]. split; [apply initial_store_math_floor|]. vm_compute. eexists. split; reflexivity. Qed.

Lemma numeric_number d rho va x : numeric d rho va (ENumber x).
Proof.
  intros n s v s1 H. fuel_S n H. rewrite eval1_S in H.
  apply bind_ok in H as (vs & s2 & Hv & H). apply ret_ok in H as [-> ->].
  fuel_S n Hv. rewrite eval_S_number in Hv. apply ret_ok in Hv as [-> ->]. discriminate.
Qed.

Definition compound_op (op : binop) : bool :=
  match op with
  | BAdd | BSub | BMul | BDiv | BIDiv | BMod | BPow | BConcat => true
  | _ => false
  end.

Lemma binop_sem_compound d n op cur rhs s r s' : compound_op op = true ->
  (match op with BConcat => concat d n cur rhs | _ => arith d n op cur rhs end) s = Ok r s' ->
  forall m, (n <= m)%nat -> binop_sem d m op cur rhs s = Ok [r] s'.
Proof.
  intros C H m Hm. unfold binop_sem. destruct op; try discriminate C; unfold bind;
    try (rewrite (arith_mono _ _ m _ _ _ _ _ _ Hm H); reflexivity).
  rewrite (concat_mono _ _ m _ _ _ _ _ Hm H). reflexivity.
Qed.

(** the current value of [x], as the compound assignment reads it through its target *)
Definition read_target (d : dialect) (n : nat) (rho : env) (x : name) : M value :=
  match lookup rho x with
  | Some a => get_cell a
  | None => index d n (VTable A_globals) (VStr x)
  end.

(** what a successful [x op= e] did: [e] first, then the current value of [x], the operation,
    the assignment *)
Lemma compound_ident_inv d n rho va op x e s r s' :
  exec_stmt d n rho va (SCompound op (EIdent x) e) s = Ok r s' ->
  exists k rhs s1 cur s2 q s3,
    n = S (S k) /\ r = (rho, SigNone) /\
    eval1 d (S k) rho va e s = Ok rhs s1 /\ read_target d (S k) rho x s1 = Ok cur s2 /\
    (match op with BConcat => concat d (S k) cur rhs | _ => arith d (S k) op cur rhs end) s2 = Ok q s3 /\
    assign_target d (S k) rho (ident_target rho x) q s3 = Ok tt s'.
Proof.
  intros H. fuel_S n H. rewrite exec_stmt_S_compound in H.
  apply bind_ok in H as (t & s0 & Ht & H).
  destruct n as [|k]; [rewrite eval_target_0 in Ht; discriminate Ht|].
  rewrite eval_target_ident in Ht. inversion Ht; subst t s0; clear Ht.
  apply bind_ok in H as (rhs & s1 & Hrhs & H). apply bind_ok in H as (cur & s2 & Hcur & H).
  apply bind_ok in H as (q & s3 & Hq & H). apply bind_ok in H as ([] & s4 & Hset & H). apply ret_ok in H as [-> ->].
  exists k, rhs, s1, cur, s2, q, s3. unfold ident_target in Hcur. unfold read_target. destruct (lookup rho x); auto 10.
Qed.

(** ... and [x = x op e] does the same, provided [x] reads (without running code) as the same
    value before [e] is evaluated *)
Lemma plain_assign_ident_run d k rho va op x e s cur rhs s1 q s3 s' :
  compound_op op = true -> reads rho x s cur ->
  eval1 d (S k) rho va e s = Ok rhs s1 ->
  (match op with BConcat => concat d (S k) cur rhs | _ => arith d (S k) op cur rhs end) s1 = Ok q s3 ->
  assign_target d (S k) rho (ident_target rho x) q s3 = Ok tt s' ->
  exec_stmt d (6 + k) rho va (plain_assign op (EIdent x) e) s = Ok (rho, SigNone) s'.
Proof.
  intros Hop Hx Hrhs Hq Hset. unfold plain_assign. change (6 + k)%nat with (S (S (S (S (S (S k)))))).
  assert (is_andor op = false) as Hno by (destruct op; try discriminate Hop; reflexivity).
  rewrite exec_stmt_S_assign. cbn [targets_go targets_loop].
  eapply bind_ok_intro; [eapply bind_ok_intro; [apply eval_target_ident|reflexivity]|].
  eapply bind_ok_intro.
  { rewrite eval_list_S_one, eval_S_binop by exact Hno.
    eapply bind_ok_intro; [apply (reads_eval1 d rho va x s cur); [exact Hx|lia]|].
    eapply bind_ok_intro; [apply (eval1_up _ _ (S (S (S k))) _ _ _ _ _ _ Hrhs); lia|].
    apply (binop_sem_compound d (S k) op cur rhs s1 q s3 Hop Hq). lia. }
  cbn [assign_go assign_loop arg nth].
  eapply bind_ok_intro; [eapply bind_ok_intro; [eapply assign_target_mono; [|exact Hset]; lia|reflexivity]|].
  reflexivity.
Qed.

(** [x op= e] becomes [x = x op e]: the output reads [x] before [e], the original after; they
    agree when what the original finds after [e] is what [x] reads as before [e] *)
Theorem compound_ident_sound d n rho va op x e s r s' :
  compound_op op = true ->
  (forall k rhs s1 cur s2, eval1 d k rho va e s = Ok rhs s1 -> read_target d k rho x s1 = Ok cur s2 ->
     s2 = s1 /\ reads rho x s cur) ->
  exec_stmt d n rho va (SCompound op (EIdent x) e) s = Ok r s' ->
  exists n', exec_stmt d n' rho va (rw_compound_assign (SCompound op (EIdent x) e)) s = Ok r s'.
Proof.
  intros Hop Hx H.
  apply compound_ident_inv in H as (k & rhs & s1 & cur & s2 & q & s3 & -> & -> & Hrhs & Hcur & Hq & Hset).
  destruct (Hx _ _ _ _ _ Hrhs Hcur) as [-> Hr].
  exists (6 + k)%nat. eapply plain_assign_ident_run; eauto.
Qed.

(** evaluating [e] does not change the cell [a] (the rewritten statement reads [x] before
    it evaluates [e], the compound assignment after) *)
Definition leaves_cell (d : dialect) (rho : env) (va : list value) (e : expr) (s : store) (a : N) : Prop :=
  forall n v s1, eval1 d n rho va e s = Ok v s1 ->
  nth_N (cells s1) (N.to_nat a) = nth_N (cells s) (N.to_nat a).

Lemma get_cell_inv a s v s' : get_cell a s = Ok v s' -> s' = s /\ nth_N (cells s) (N.to_nat a) = Some v.
Proof. unfold get_cell. destruct (nth_N (cells s) (N.to_nat a)); intros H; inversion H; auto. Qed.

Theorem compound_local_sound : forall d n rho va op x a e s r s',
  lookup rho x = Some a -> compound_op op = true -> leaves_cell d rho va e s a ->
  exec_stmt d n rho va (SCompound op (EIdent x) e) s = Ok r s' ->
  exists n', exec_stmt d n' rho va (rw_compound_assign (SCompound op (EIdent x) e)) s = Ok r s'.
Proof.
  intros d n rho va op x a e s r s' Hl Hop Hst. apply compound_ident_sound; [exact Hop|].
  unfold read_target, reads. rewrite Hl. intros k rhs s1 cur s2 Hrhs Hcur.
  apply get_cell_inv in Hcur as [-> Hcell]. rewrite (Hst _ _ _ Hrhs) in Hcell. auto.
Qed.

Example compound_local_example :
  let st := SCompound BAdd (EIdent [120]) (ENumber (NDec 4607182418800017408 None)) in
  let s := mkStore [VNum (of_Z 41)] initial_tables [] [] [] 0 in
  lookup [([120], 0)] [120] = Some 0 /\
  rw_compound_assign st = SAssign [EIdent [120]] [EBinary BAdd (EIdent [120]) (ENumber (NDec 4607182418800017408 None))] /\
  exists s', exec_stmt Luau 6 [([120], 0)] [] st s = Ok ([([120], 0)], SigNone) s' /\ cells s' = [VNum (of_Z 42)] /\
             exec_stmt Luau 6 [([120], 0)] [] (rw_compound_assign st) s = Ok ([([120], 0)], SigNone) s'.
Proof. split; [reflexivity|]. split; [reflexivity|]. vm_compute. eexists. repeat split. Qed.

Definition global_read (s : store) (x : name) : option value :=
  match nth_N (tables s) (N.to_nat A_globals) with
  | Some g => match t_meta g with None => Some (raw_get (t_entries g) (VStr x)) | Some _ => None end
  | None => None
  end.

Lemma index_global d n s x v : global_read s x = Some v ->
  index d (S n) (VTable A_globals) (VStr x) s = Ok v s.
Proof.
  unfold global_read. destruct (nth_N (tables s) (N.to_nat A_globals)) as [g|] eqn:Eg; [|discriminate].
  destruct (t_meta g) eqn:Em; [discriminate|]. intros E. inversion E; subst. clear E.
  exact (index_plain_table d n A_globals (VStr x) s g Eg Em).
Qed.

Lemma global_read_reads rho x s v :
  lookup rho x = None -> is_ext_name x = false -> global_read s x = Some v -> reads rho x s v.
Proof.
  unfold global_read, reads. intros -> Hx.
  destruct (nth_N (tables s) (N.to_nat A_globals)) as [g|]; [|discriminate].
  destruct (t_meta g) eqn:Em; [discriminate|]. intros E. inversion E; subst. clear E.
  exists g. split; [reflexivity|]. split; [right; exact Em|].
  unfold global_default. rewrite Hx. destruct (raw_get (t_entries g) (VStr x)); reflexivity.
Qed.

(** evaluating [e] changes neither the value of the global [x] nor the plainness of the
    globals table *)
Definition leaves_global (d : dialect) (rho : env) (va : list value) (e : expr) (s : store) (x : name) : Prop :=
  exists v, global_read s x = Some v /\
            forall n r s1, eval1 d n rho va e s = Ok r s1 -> global_read s1 x = Some v.

Theorem compound_global_sound : forall d n rho va op x e s r s',
  lookup rho x = None -> is_ext_name x = false -> compound_op op = true -> leaves_global d rho va e s x ->
  exec_stmt d n rho va (SCompound op (EIdent x) e) s = Ok r s' ->
  exists n', exec_stmt d n' rho va (rw_compound_assign (SCompound op (EIdent x) e)) s = Ok r s'.
Proof.
  intros d n rho va op x e s r s' Hl Hx Hop (v & Hv & Hst). apply compound_ident_sound; [exact Hop|].
  unfold read_target. rewrite Hl. intros k rhs s1 cur s2 Hrhs Hcur. fuel_S k Hrhs.
  rewrite (index_global d k s1 x v (Hst _ _ _ Hrhs)) in Hcur. inversion Hcur; subst cur s2.
  split; [reflexivity|]. now apply global_read_reads.
Qed.

Definition store_of {A} (r : res A) (dflt : store) : store := match r with Ok _ s => s | _ => dflt end.

Example compound_global_example :
  let st := SCompound BConcat (EIdent [103]) (EString [33]) in
  let s0 := initial_store [] in
  let s1 := store_of (exec_stmt Luau 9 [] [] (SAssign [EIdent [103]] [EString [104]]) s0) s0 in
  let s' := store_of (exec_stmt Luau 9 [] [] st s1) s1 in
  lookup [] [103] = None /\ is_ext_name [103] = false /\ global_read s1 [103] = Some (VStr [104]) /\
  exec_stmt Luau 9 [] [] st s1 = Ok ([], SigNone) s' /\
  exec_stmt Luau 9 [] [] (rw_compound_assign st) s1 = Ok ([], SigNone) s' /\
  global_read s' [103] = Some (VStr [104; 33]).
Proof. vm_compute. repeat split. Qed.

(** The order of evaluation matters: without [leaves_cell] the rewritten statement is NOT
    equivalent in the reference semantics ([x += f()] where [f] assigns [x]) *)
Theorem compound_order_refuted :
  exists rho st s r s' r2 s2,
    exec_stmt Luau 20 rho [] st s = Ok r s' /\
    exec_stmt Luau 20 rho [] (rw_compound_assign st) s = Ok r2 s2 /\ cells s' <> cells s2.
Proof.
  (* x at cell 0 = 1; f at cell 1 = closure 0: function() x = 10 return 1 end *)
  set (body := Block [SAssign [EIdent [120]] [ENumber (NDec 4621819117588971520 None)]]
                     (Some (LReturn [ENumber (NDec 4607182418800017408 None)]))).
  set (rho := [([120], 0); ([102], 1)] : env).
  set (s := mkStore [VNum (of_Z 1); VClosure 0] initial_tables
                    [mkClosure (FBody [] false None None None 0 body) rho false] [] [] 0).
  set (st := SCompound BAdd (EIdent [120]) (ECall (EIdent [102]) None (ATuple []))).
  exists rho, st, s, (rho, SigNone), (store_of (exec_stmt Luau 20 rho [] st s) s),
         (rho, SigNone), (store_of (exec_stmt Luau 20 rho [] (rw_compound_assign st) s) s).
  split; [vm_compute; reflexivity|]. split; [vm_compute; reflexivity|]. vm_compute. discriminate.
Qed.

(** Regression witness of a darklua defect repaired by /repo commit f4defa0 (known_findings.txt,
    fixed: C06): before it an interpolated-string key was treated as a literal and duplicated
    together with the calls inside it.  Source: [local n = 0 local function f() n += 1 return n end
    local t = { k1 = 10 } t[`k{f()}`] += 1 return t.k1, n]: original and output return (11, 1). *)
Definition interp_key_witness : block :=
  Block [SLocal false [Param (of_string "n") None] [ENumber (NDec 0 None)];
         SLocalFunction (of_string "f")
           (FBody [] false None None None 0
              (Block [SCompound BAdd (EIdent (of_string "n")) (ENumber (NDec 4607182418800017408 None))]
                     (Some (LReturn [EIdent (of_string "n")]))));
         SLocal false [Param (of_string "t") None]
           [ETable [TField (of_string "k1") (ENumber (NDec 4621819117588971520 None))]];
         SCompound BAdd (EIndex (EIdent (of_string "t"))
                                (EInterp [ISStr [107]; ISExpr (ECall (EIdent (of_string "f")) None (ATuple []))]))
                   (ENumber (NDec 4607182418800017408 None))]
        (Some (LReturn [EField (EIdent (of_string "t")) (of_string "k1"); EIdent (of_string "n")])).

Theorem compound_interp_key_once :
  run_chunk Luau 100 [] interp_key_witness = OutOk [] [RNum 4622382067542392832; RNum 4607182418800017408] /\
  run_chunk Luau 100 [] (rule_compound_assign interp_key_witness) = OutOk [] [RNum 4622382067542392832; RNum 4607182418800017408] /\
  run_chunk L51 100 [] (rule_compound_assign interp_key_witness) = OutOk [] [RNum 4622382067542392832; RNum 4607182418800017408].
Proof. vm_compute. repeat split. Qed.
