(** C14 — facts about binary64 ([Lib/F64], [spec_float]) used by the serializer proof:
    IEEE equality is an equivalence off NaN, integers below 2^53 are represented exactly
    (explicit form of [of_Z]), hence distinct integers give distinct table keys, and their
    bit pattern decodes to the same float.  Everything here is closed under the global
    context except [int_roundtrip_valid], which rests on Flocq's [binary_round_correct]
    (through [EvaluatorF64.valid_of_Z]). *)
From Coq Require Import ZArith NArith List Bool Lia Zpower.
From Coq Require Import Floats.SpecFloat.
From DL Require Import Lib.Bytes Lib.F64 Proof.EvaluatorF64.
Open Scope Z_scope.

Lemma SFeqb_true x y :
  SFeqb x y = true -> (is_zero x = true /\ is_zero y = true) \/ (x = y /\ is_nan x = false).
Proof.
  unfold SFeqb. destruct x as [sx|sx| |sx mx ex], y as [sy|sy| |sy my ey]; cbn; try discriminate;
    try (destruct sx; discriminate); try (destruct sy; discriminate); auto.
  - destruct sx, sy; try discriminate; auto.
  - (* equal signs: exponents, then mantissas, compare equal; the order is reversed for negatives *)
    destruct sx, sy; try discriminate.
    all: destruct (Z.compare ex ey) eqn:E; try discriminate; apply Z.compare_eq in E; subst ey.
    all: destruct (Pos.compare_cont Eq mx my) eqn:P; try discriminate.
    all: apply Pos.compare_eq in P; subst; auto.
Qed.

Lemma SFeqb_refl x : is_nan x = false -> SFeqb x x = true.
Proof.
  unfold SFeqb. destruct x as [s|s| |s m e]; cbn; try discriminate; auto.
  - destruct s; reflexivity.
  - rewrite Z.compare_refl. fold (Pos.compare m m). rewrite Pos.compare_refl. destruct s; reflexivity.
Qed.

Lemma SFeqb_zeros x y : is_zero x = true -> is_zero y = true -> SFeqb x y = true.
Proof. destruct x, y; try discriminate; reflexivity. Qed.

Lemma SFeqb_sym x y : SFeqb x y = true -> SFeqb y x = true.
Proof.
  intros H. apply SFeqb_true in H as [[A B]|[-> A]].
  - now apply SFeqb_zeros.
  - now apply SFeqb_refl.
Qed.

Lemma SFeqb_trans x y z : SFeqb x y = true -> SFeqb y z = true -> SFeqb x z = true.
Proof.
  intros H1 H2. apply SFeqb_true in H1 as [[A B]|[-> A]]; [|exact H2].
  apply SFeqb_true in H2 as [[C D]|[<- C]].
  - now apply SFeqb_zeros.
  - now apply SFeqb_zeros.
Qed.

Lemma digits2_shift k p : digits2_pos (shift_pos k p) = (digits2_pos p + k)%positive.
Proof.
  unfold shift_pos. induction k using Pos.peano_ind.
  - cbn. lia.
  - rewrite Pos.iter_succ. cbn [digits2_pos]. rewrite IHk. lia.
Qed.

Lemma digits_le_53 p : Z.pos p < 9007199254740992 -> Z.pos (digits2_pos p) <= 53.
Proof.
  intros Hp. pose proof (digits_bounds p) as [Hlo Hhi].
  assert (Z.pos (digits2_pos p) - 1 < 53) as H; [|lia].
  apply pow2_lt_inv; [lia|]. change (2 ^ 53) with 9007199254740992. lia.
Qed.

(** mantissa and exponent of the canonical representation of a positive integer of at most
    53 bits *)
Definition small_repr (p : positive) : positive * Z :=
  match 53 - Z.pos (digits2_pos p) with
  | Z.pos k => (shift_pos k p, - Z.pos k)
  | _ => (p, 0)
  end.

Lemma small_repr_bounded p : Z.pos p < 9007199254740992 ->
  bounded prec emax (fst (small_repr p)) (snd (small_repr p)) = true.
Proof.
  intros Hp. pose proof (digits_le_53 p Hp) as Hd.
  unfold small_repr. apply bounded_spec.
  destruct (53 - Z.pos (digits2_pos p)) as [|k|k] eqn:E; cbn [fst snd].
  - lia.
  - rewrite digits2_shift. lia.
  - lia.
Qed.

Lemma binary_round_small s p : Z.pos p < 9007199254740992 ->
  SpecFloat.binary_round prec emax s p 0 = S754_finite s (fst (small_repr p)) (snd (small_repr p)).
Proof.
  intros Hp. pose proof (small_repr_bounded p Hp) as Hb.
  pose proof (digits_le_53 p Hp) as Hd.
  assert (SpecFloat.binary_round prec emax s p 0 =
          SpecFloat.binary_round_aux prec emax s (Z.pos (fst (small_repr p))) (snd (small_repr p)) loc_Exact) as ->.
  { unfold SpecFloat.binary_round, shl_align, SpecFloat.fexp, SpecFloat.emin, small_repr, prec, emax.
    rewrite Z.add_0_r, Z.sub_0_r.
    replace (Z.max (Z.pos (digits2_pos p) - 53) (3 - 1024 - 53)) with (Z.pos (digits2_pos p) - 53) by lia.
    destruct (53 - Z.pos (digits2_pos p)) as [|k|k] eqn:E.
    - replace (Z.pos (digits2_pos p) - 53) with 0 by lia. reflexivity.
    - replace (Z.pos (digits2_pos p) - 53) with (Z.neg k) by lia. reflexivity.
    - lia. }
  destruct (small_repr p) as [m e]. cbn [fst snd] in *.
  (* the canonical pair is a fixed point of rounding: the positive case is [fnorm_idem] *)
  pose proof (fnorm_idem m e Hb) as Hf.
  unfold fnorm, SpecFloat.binary_normalize, SpecFloat.binary_round in Hf.
  pose proof Hb as Hb'. unfold bounded in Hb'. apply andb_true_iff in Hb' as [Hc _].
  unfold canonical_mantissa in Hc. apply Zeq_bool_eq in Hc.
  rewrite Hc in Hf. unfold shl_align in Hf. rewrite Z.sub_diag in Hf.
  destruct s; [|exact Hf].
  rewrite <- bra_opp. rewrite Hf. reflexivity.
Qed.

Lemma of_Z_pos_small p : Z.pos p < 9007199254740992 ->
  of_Z (Z.pos p) = S754_finite false (fst (small_repr p)) (snd (small_repr p)).
Proof. intros H. unfold of_Z, fnorm. cbn [SpecFloat.binary_normalize]. now apply binary_round_small. Qed.

Lemma of_Z_neg_small p : Z.pos p < 9007199254740992 ->
  of_Z (Z.neg p) = S754_finite true (fst (small_repr p)) (snd (small_repr p)).
Proof. intros H. unfold of_Z, fnorm. cbn [SpecFloat.binary_normalize]. now apply binary_round_small. Qed.

Lemma small_repr_value p :
  to_Z (S754_finite false (fst (small_repr p)) (snd (small_repr p))) = Z.pos p.
Proof.
  unfold small_repr, to_Z.
  destruct (53 - Z.pos (digits2_pos p)) as [|k|k] eqn:E; cbn [fst snd].
  - cbn. lia.
  - replace (0 <=? - Z.pos k) with false by lia.
    rewrite shift_pos_correct. change (Zpower_pos 2 k) with (2 ^ Z.pos k).
    rewrite Z.opp_involutive, Z.mul_comm. apply Z.div_mul. apply Z.pow_nonzero; lia.
  - cbn. lia.
Qed.

Lemma of_Z_small_inj i j :
  0 < i < 9007199254740992 -> 0 < j < 9007199254740992 -> feqb (of_Z i) (of_Z j) = true -> i = j.
Proof.
  intros Hi Hj H. destruct i as [|p|p], j as [|q|q]; try lia.
  rewrite (of_Z_pos_small p), (of_Z_pos_small q) in H by lia.
  apply SFeqb_true in H as [[A _]|[A _]]; [discriminate|].
  rewrite <- (small_repr_value p), <- (small_repr_value q) by lia. now rewrite A.
Qed.

Lemma of_Z_small_finite i : 0 < i < 9007199254740992 ->
  is_nan (of_Z i) = false /\ is_zero (of_Z i) = false.
Proof.
  intros Hi. destruct i as [|p|p]; try lia. rewrite of_Z_pos_small by lia. split; reflexivity.
Qed.

Definition int_roundtrip (z : Z) : Prop := of_bits (to_bits (of_Z z)) = of_Z z.

Lemma int_roundtrip_small z : Z.abs z < 9007199254740992 -> int_roundtrip z.
Proof.
  intros H. unfold int_roundtrip. apply of_to_bits. unfold valid.
  destruct z as [|p|p].
  - reflexivity.
  - rewrite of_Z_pos_small by lia. cbn [valid_binary]. apply small_repr_bounded. lia.
  - rewrite of_Z_neg_small by lia. cbn [valid_binary]. apply small_repr_bounded. lia.
Qed.

(** every integer: the rounded float is canonical (Flocq's [binary_round_correct], proved over
    the classical reals: its axioms appear in [Print Assumptions]) *)
Lemma int_roundtrip_valid z : int_roundtrip z.
Proof. unfold int_roundtrip. apply of_to_bits. apply valid_of_Z. Qed.
