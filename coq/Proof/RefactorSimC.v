(** C16, closure-representation independence: the simulation, by induction on fuel. *)
From Coq Require Import ZArith NArith List Bool String Lia.
From DL Require Import Lib.Bytes Lib.F64 Lua.Syntax Lua.Sem Model.Refactor.
From DL Require Import Proof.SemFacts Proof.DefaultRulesSem Proof.RefactorSem Proof.RefactorSimDefs.
From DL Require Import Proof.ValueSim Proof.RefactorSimB.
Import ListNotations.
Open Scope N_scope.

Section Sim.
Variable d : dialect.

Record sim_all (n : nat) : Prop := {
  sa_call : forall f args, oblivious (call d n f args);
  sa_index : forall o k, oblivious (index d n o k);
  sa_setindex : forall o k v, oblivious (setindex d n o k v);
  sa_tostr : forall v, oblivious (tostr d n v);
  sa_arith : forall o a b, oblivious (arith d n o a b);
  sa_concat : forall a b, oblivious (concat d n a b);
  sa_equal : forall a b, oblivious (equal d n a b);
  sa_less : forall st a b, oblivious (less d n st a b);
  sa_length : forall v, oblivious (length d n v);
  sa_builtin : forall b args, oblivious (call_builtin d n b args);
  sa_eval : forall P rho1 rho2 va e, covers_expr P e -> env_agree P rho1 rho2 ->
            rel2 eq (eval d n rho1 va e) (eval d n rho2 va e);
  sa_eval1 : forall P rho1 rho2 va e, covers_expr P e -> env_agree P rho1 rho2 ->
             rel2 eq (eval1 d n rho1 va e) (eval1 d n rho2 va e);
  sa_eval_list : forall P rho1 rho2 va es, Forall (covers_expr P) es -> env_agree P rho1 rho2 ->
                 rel2 eq (eval_list d n rho1 va es) (eval_list d n rho2 va es);
  sa_eval_args : forall P rho1 rho2 va a, covers_args P a -> env_agree P rho1 rho2 ->
                 rel2 eq (eval_args d n rho1 va a) (eval_args d n rho2 va a);
  sa_fill : forall P rho1 rho2 va a es pos, Forall (covers_tentry P) es -> env_agree P rho1 rho2 ->
            rel2 eq (fill_table d n rho1 va a es pos) (fill_table d n rho2 va a es pos);
  sa_block : forall P rho1 rho2 va b, covers_block P b -> env_agree P rho1 rho2 ->
             rel2 eq (exec_block d n rho1 va b) (exec_block d n rho2 va b);
  sa_stmts : forall P rho1 rho2 va ss last, covers_block P (Block ss last) -> env_agree P rho1 rho2 ->
             rel2 eq (exec_stmts d n rho1 va ss last) (exec_stmts d n rho2 va ss last);
  sa_assign_target : forall rho1 rho2 t v, rel2 eq (assign_target d n rho1 t v) (assign_target d n rho2 t v);
  sa_eval_target : forall P rho1 rho2 va e, covers_expr P e -> env_agree P rho1 rho2 ->
                   rel2 eq (eval_target d n rho1 va e) (eval_target d n rho2 va e);
  sa_stmt : forall P rho1 rho2 va st, covers_stmt P st -> env_agree P rho1 rho2 ->
            rel2 (stmt_res_rel P) (exec_stmt d n rho1 va st) (exec_stmt d n rho2 va st);
  sa_while : forall P rho1 rho2 va c b, covers_expr P c -> covers_block P b -> env_agree P rho1 rho2 ->
             rel2 eq (exec_while d n rho1 va c b) (exec_while d n rho2 va c b);
  sa_repeat : forall P rho1 rho2 va b c, covers_block P b -> covers_expr P c -> env_agree P rho1 rho2 ->
              rel2 eq (exec_repeat d n rho1 va b c) (exec_repeat d n rho2 va b c);
  sa_numfor : forall P rho1 rho2 va x i stop step b, covers_block P b -> env_agree P rho1 rho2 ->
              rel2 eq (exec_numfor d n rho1 va x i stop step b) (exec_numfor d n rho2 va x i stop step b);
  sa_genfor : forall P rho1 rho2 va vars f s ctl b, covers_block P b -> env_agree P rho1 rho2 ->
              rel2 eq (exec_genfor d n rho1 va vars f s ctl b) (exec_genfor d n rho2 va vars f s ctl b)
}.

Lemma sim_all_0 : sim_all 0.
Proof. constructor; intros; intros s1 s2 Hs; exact I. Qed.

Section Step.
Variable n : nat.
Hypothesis IH : sim_all n.

Local Lemma IHv : vsim (@rel2) d n.
Proof. destruct IH. now constructor. Qed.

Local Lemma clos_call c1 c2 : clos_rel c1 c2 ->
  map param_name (effective_params c1) = map param_name (effective_params c2) /\
  closure_variadic c1 = closure_variadic c2 /\
  forall r va, map fst r = map param_name (effective_params c1) ->
    rel2 eq (exec_block d n (rev r ++ c_env c1) va (closure_block c1))
            (exec_block d n (rev r ++ c_env c2) va (closure_block c2)).
Proof.
  intros Hc. pose proof Hc as (H1 & H2 & H3 & _). repeat split; auto. intros r va Hr. rewrite <- H3.
  apply (sa_block _ IH) with (P := fun x => ment_block [x] (closure_block c1)).
  - intros x Hx. exact Hx.
  - now apply env_agree_call.
Qed.

(** [ihe]: the clause of the induction hypothesis for the interpreter function at the head of the
    goal, [side] for its coverage premise and [envside] for the agreement of the environments;
    any other goal is a value operation ([vs_leaf]) *)
Local Ltac side := first [eassumption | cov].
Local Ltac envside := first [eassumption | apply env_agree_cons; eassumption].
Local Ltac ihe :=
  idtac;
  lazymatch goal with
  | |- rel2 _ (eval _ _ _ _ _) _ => eapply (sa_eval _ IH); [|envside]; side
  | |- rel2 _ (eval1 _ _ _ _ _) _ => eapply (sa_eval1 _ IH); [|envside]; side
  | |- rel2 _ (eval_list _ _ _ _ _) _ => eapply (sa_eval_list _ IH); [|envside]; side
  | |- rel2 _ (eval_args _ _ _ _ _) _ => eapply (sa_eval_args _ IH); [|envside]; side
  | |- rel2 _ (fill_table _ _ _ _ _ _ _) _ => eapply (sa_fill _ IH); [|envside]; side
  | |- rel2 _ (exec_block _ _ _ _ _) _ => eapply (sa_block _ IH); [|envside]; side
  | |- rel2 _ (exec_stmts _ _ _ _ _ _) _ => eapply (sa_stmts _ IH); [|envside]; side
  | |- rel2 _ (eval_target _ _ _ _ _) _ => eapply (sa_eval_target _ IH); [|envside]; side
  | |- rel2 _ (exec_while _ _ _ _ _ _) _ => eapply (sa_while _ IH); [| |envside]; side
  | |- rel2 _ (exec_repeat _ _ _ _ _ _) _ => eapply (sa_repeat _ IH); [| |envside]; side
  | |- rel2 _ (exec_numfor _ _ _ _ _ _ _ _ _) _ => eapply (sa_numfor _ IH); [|envside]; side
  | |- rel2 _ (exec_genfor _ _ _ _ _ _ _ _ _) _ => eapply (sa_genfor _ IH); [|envside]; side
  | |- rel2 (stmt_res_rel _) (ret _) (ret _) => apply (sl_ret rel2_logic); split; cbn [fst snd]; [eassumption|reflexivity]
  | |- rel2 _ (assign_target _ _ _ _ _) _ => apply (sa_assign_target _ IH)
  | |- _ => vs_leaf rel2_logic IHv
  end.

Local Lemma rel2_if_go P rho1 rho2 va els bs :
  Forall (covers_ebranch P) bs -> covers_expr P els -> env_agree P rho1 rho2 ->
  rel2 eq (if_go d n rho1 va els bs) (if_go d n rho2 va els bs).
Proof.
  intros Hb Hc He. induction bs as [|[c r] bs IHb].
  - rewrite !if_go_nil. sl_with rel2_logic ihe.
  - finv. rewrite !if_go_cons. sl_with rel2_logic ltac:(first [ihe | now apply IHb]).
Qed.

Local Lemma rel2_interp_go P rho1 rho2 va segs : forall acc,
  Forall (covers_iseg P) segs -> env_agree P rho1 rho2 ->
  rel2 eq (interp_go d n rho1 va segs acc) (interp_go d n rho2 va segs acc).
Proof.
  induction segs as [|[s|e] segs IHs]; intros acc Hc He.
  - rewrite !interp_go_nil. sl rel2_logic.
  - finv. rewrite !interp_go_str. now apply IHs.
  - finv. rewrite !interp_go_expr. sl_with rel2_logic ltac:(first [ihe | now apply IHs]).
Qed.

Local Lemma step_eval P rho1 rho2 va e : covers_expr P e -> env_agree P rho1 rho2 ->
  rel2 eq (eval d (S n) rho1 va e) (eval d (S n) rho2 va e).
Proof.
  intros Hc He. destruct e.
  - rewrite !eval_S_nil. sl rel2_logic.
  - rewrite !eval_S_true. sl rel2_logic.
  - rewrite !eval_S_false. sl rel2_logic.
  - rewrite !eval_S_number. sl rel2_logic.
  - rewrite !eval_S_string. sl rel2_logic.
  - rewrite !eval_S_interp. apply rel2_interp_go with (P := P); [cov|assumption].
  - rewrite !eval_S_varargs. sl rel2_logic.
  - rewrite !eval_S_ident. rewrite (He x) by (apply Hc; rewrite ment_ident; apply is_target_self).
    sl_with rel2_logic ihe.
  - rewrite !eval_S_field. sl_with rel2_logic ihe.
  - rewrite !eval_S_index. sl_with rel2_logic ihe.
  - rewrite !eval_S_call. sl_with rel2_logic ihe.
  - rewrite !eval_S_function. apply (sl_bind_eq rel2_logic); [|intros; sl rel2_logic].
    apply rel2_new_closure, clos_rel_same. intros x Hx. apply He, Hc. now rewrite ment_function.
  - rewrite !eval_S_if. apply rel2_if_go with (P := P); [cov|cov|assumption].
  - rewrite !eval_S_paren. sl_with rel2_logic ihe.
  - rewrite !eval_S_table. sl_with rel2_logic ihe.
  - rewrite !eval_S_unary. sl_with rel2_logic ihe.
  - destruct (is_andor op) eqn:Eop.
    + destruct op; try discriminate Eop; [rewrite !eval_S_and|rewrite !eval_S_or]; sl_with rel2_logic ihe.
    + rewrite !eval_S_binop by exact Eop. sl_with rel2_logic ltac:(first [ihe | apply (vs_binop_sem rel2_logic IHv)]).
  - rewrite !eval_S_typecast. sl_with rel2_logic ihe.
  - rewrite !eval_S_typeinst. sl_with rel2_logic ihe.
Qed.

Local Lemma step_eval1 P rho1 rho2 va e : covers_expr P e -> env_agree P rho1 rho2 ->
  rel2 eq (eval1 d (S n) rho1 va e) (eval1 d (S n) rho2 va e).
Proof. intros Hc He. rewrite !eval1_S. sl_with rel2_logic ihe. Qed.

Local Lemma step_eval_list P rho1 rho2 va es : Forall (covers_expr P) es -> env_agree P rho1 rho2 ->
  rel2 eq (eval_list d (S n) rho1 va es) (eval_list d (S n) rho2 va es).
Proof.
  intros Hc He. destruct es as [|e [|e2 es]].
  - rewrite !eval_list_S_nil. sl rel2_logic.
  - finv. rewrite !eval_list_S_one. ihe.
  - inversion Hc; subst. rewrite !eval_list_S_cons. sl_with rel2_logic ihe.
Qed.

Local Lemma step_eval_args P rho1 rho2 va a : covers_args P a -> env_agree P rho1 rho2 ->
  rel2 eq (eval_args d (S n) rho1 va a) (eval_args d (S n) rho2 va a).
Proof.
  intros Hc He. destruct a.
  - rewrite !eval_args_S_tuple. ihe.
  - rewrite !eval_args_S_string. sl rel2_logic.
  - rewrite !eval_args_S_table. sl_with rel2_logic ihe.
Qed.

Local Lemma step_fill P rho1 rho2 va a es pos : Forall (covers_tentry P) es -> env_agree P rho1 rho2 ->
  rel2 eq (fill_table d (S n) rho1 va a es pos) (fill_table d (S n) rho2 va a es pos).
Proof.
  intros Hc He. destruct es as [|[f e|k e|e] rest].
  - rewrite !fill_table_S_nil. sl rel2_logic.
  - inversion Hc; subst. rewrite !fill_table_S_field.
    sl_with rel2_logic ltac:(first [apply (vs_put rel2_logic) | ihe]).
  - inversion Hc; subst. rewrite !fill_table_S_index.
    sl_with rel2_logic ltac:(first [apply (vs_put rel2_logic) | ihe]).
  - destruct rest as [|x rest].
    + finv. rewrite !fill_table_S_last. sl_with rel2_logic ltac:(first [apply (vs_fill_go rel2_logic) | ihe]).
    + inversion Hc; subst. rewrite !fill_table_S_value.
      sl_with rel2_logic ltac:(first [apply (vs_put_pos rel2_logic) | ihe]).
Qed.

Local Lemma step_block P rho1 rho2 va b : covers_block P b -> env_agree P rho1 rho2 ->
  rel2 eq (exec_block d (S n) rho1 va b) (exec_block d (S n) rho2 va b).
Proof. intros Hc He. destruct b as [ss last]. rewrite !exec_block_S. ihe. Qed.

Local Lemma step_stmts P rho1 rho2 va ss last : covers_block P (Block ss last) -> env_agree P rho1 rho2 ->
  rel2 eq (exec_stmts d (S n) rho1 va ss last) (exec_stmts d (S n) rho2 va ss last).
Proof.
  intros Hc He. destruct ss as [|st rest].
  - rewrite !exec_stmts_S_nil. destruct last as [[| |es]|]; sl_with rel2_logic ihe.
  - rewrite !exec_stmts_S_cons. eapply (sl_bind rel2_logic).
    + eapply (sa_stmt _ IH); [|eassumption]. cov.
    + intros [r1 g1] [r2 g2] [Hr Hg]. cbn [fst snd] in Hr, Hg. subst g2.
      unfold stmts_cont. destruct g1; sl_with rel2_logic ihe.
Qed.

Local Lemma step_eval_target P rho1 rho2 va e : covers_expr P e -> env_agree P rho1 rho2 ->
  rel2 eq (eval_target d (S n) rho1 va e) (eval_target d (S n) rho2 va e).
Proof.
  intros Hc He. destruct e; try (rewrite !eval_target_S_other by reflexivity; sl rel2_logic).
  - rewrite !eval_target_S_ident. rewrite (He x) by (apply Hc; rewrite ment_ident; apply is_target_self).
    sl rel2_logic.
  - rewrite !eval_target_S_field. sl_with rel2_logic ihe.
  - rewrite !eval_target_S_index. sl_with rel2_logic ihe.
Qed.

Local Lemma rel2_targets_go P rho1 rho2 va vars : Forall (covers_expr P) vars -> env_agree P rho1 rho2 ->
  rel2 eq (targets_go d n rho1 va vars) (targets_go d n rho2 va vars).
Proof.
  intros Hc He. induction vars as [|v vars IHv].
  - rewrite !targets_go_nil. sl rel2_logic.
  - inversion Hc; subst. rewrite !targets_go_cons. sl_with rel2_logic ltac:(first [ihe | now apply IHv]).
Qed.

Local Lemma rel2_sif_go P rho1 rho2 va els bs :
  Forall (covers_sbranch P) bs -> (forall x, optb (ment_block [x]) els = true -> P x = true) ->
  env_agree P rho1 rho2 ->
  rel2 eq (sif_go d n rho1 va els bs) (sif_go d n rho2 va els bs).
Proof.
  intros Hb Hc He. induction bs as [|[c b] bs IHb].
  - rewrite !sif_go_nil. destruct els; sl_with rel2_logic ihe.
  - inversion Hb; subst. rewrite !sif_go_cons. sl_with rel2_logic ltac:(first [ihe | now apply IHb]).
Qed.

Local Lemma rel2_sfunction_store P rho1 rho2 va base path c :
  covers_expr P (EIdent base) -> env_agree P rho1 rho2 ->
  rel2 (stmt_res_rel P) (sfunction_store d n rho1 va base path c) (sfunction_store d n rho2 va base path c).
Proof.
  intros Hc He. unfold sfunction_store. destruct path; sl_with rel2_logic ltac:(first [apply (vs_path_go rel2_logic IHv) | ihe]).
Qed.

Local Lemma rel2_repeat_go P va last ss : forall rho1 rho2,
  covers_block P (Block ss last) -> env_agree P rho1 rho2 ->
  rel2 (stmt_res_rel P) (repeat_go d n va last ss rho1) (repeat_go d n va last ss rho2).
Proof.
  induction ss as [|st ss IHs]; intros rho1 rho2 Hc He.
  - rewrite !repeat_go_nil. destruct last as [[| |es]|]; sl_with rel2_logic ihe.
  - rewrite !repeat_go_cons. eapply (sl_bind rel2_logic).
    + eapply (sa_stmt _ IH); [|eassumption]. cov.
    + intros [r1 g1] [r2 g2] [Hr Hg]. cbn [fst snd] in Hr, Hg. subst g2.
      destruct g1; try (apply (sl_ret rel2_logic); split; [assumption|reflexivity]).
      apply IHs; [cov|assumption].
Qed.

Local Lemma step_stmt P rho1 rho2 va st : covers_stmt P st -> env_agree P rho1 rho2 ->
  rel2 (stmt_res_rel P) (exec_stmt d (S n) rho1 va st) (exec_stmt d (S n) rho2 va st).
Proof.
  intros Hc He. destruct st.
  - rewrite !exec_stmt_S_assign.
    sl_with rel2_logic ltac:(first [apply rel2_targets_go with (P := P); [cov|assumption] | apply (vs_assign_go rel2_logic), (sa_assign_target _ IH) | ihe]).
  - rewrite !exec_stmt_S_do. sl_with rel2_logic ihe.
  - rewrite !exec_stmt_S_call. sl_with rel2_logic ihe.
  - rewrite !exec_stmt_S_compound. sl_with rel2_logic ihe.
  - rewrite !exec_stmt_S_function. apply (sl_bind_eq rel2_logic).
    + apply rel2_new_closure, clos_rel_same. intros y Hy. apply He, Hc.
      rewrite ment_sfunction, Hy. apply orb_true_r.
    + intros c. apply rel2_sfunction_store; [|assumption].
      intros y Hy. apply Hc. rewrite ment_sfunction. rewrite ment_ident in Hy. now rewrite Hy.
  - rewrite !exec_stmt_S_genfor. sl_with rel2_logic ihe.
  - rewrite !exec_stmt_S_if.
    sl_with rel2_logic ltac:(first [apply rel2_sif_go with (P := P); [cov|cov|assumption] | ihe]).
  - rewrite !exec_stmt_S_local. apply (sl_bind_eq rel2_logic); [ihe|]. intros vs.
    eapply (sl_bind rel2_logic); [apply rel2_local_go; eassumption|].
    intros r1 r2 Hr. apply (sl_ret rel2_logic). split; [assumption|reflexivity].
  - rewrite !exec_stmt_S_localfunction. apply (sl_bind_eq rel2_logic); [sl_leaf rel2_logic|]. intros a.
    apply (sl_bind_eq rel2_logic).
    + apply rel2_new_closure, clos_rel_same. intros y Hy. apply (env_agree_cons P _ _ x a He).
      apply Hc. now rewrite ment_localfunction.
    + intros c. apply (sl_bind_eq rel2_logic); [sl_leaf rel2_logic|]. intros _. apply (sl_ret rel2_logic).
      split; cbn [fst snd]; [now apply env_agree_cons|reflexivity].
  - rewrite !exec_stmt_S_numfor. sl_with rel2_logic ihe.
  - rewrite !exec_stmt_S_repeat. sl_with rel2_logic ihe.
  - rewrite !exec_stmt_S_while. sl_with rel2_logic ihe.
  - rewrite !exec_stmt_S_typedecl. ihe.
  - rewrite !exec_stmt_S_typefunction. ihe.
Qed.

Local Lemma step_while P rho1 rho2 va c b : covers_expr P c -> covers_block P b -> env_agree P rho1 rho2 ->
  rel2 eq (exec_while d (S n) rho1 va c b) (exec_while d (S n) rho2 va c b).
Proof. intros Hc Hb He. rewrite !exec_while_S. sl_with rel2_logic ihe. Qed.

Local Lemma step_repeat P rho1 rho2 va b c : covers_block P b -> covers_expr P c -> env_agree P rho1 rho2 ->
  rel2 eq (exec_repeat d (S n) rho1 va b c) (exec_repeat d (S n) rho2 va b c).
Proof.
  intros Hb Hc He. destruct b as [ss last]. rewrite !exec_repeat_S. eapply (sl_bind rel2_logic).
  - apply rel2_repeat_go; eassumption.
  - intros [r1 g1] [r2 g2] [Hr Hg]. cbn [fst snd] in Hr, Hg. subst g2.
    destruct g1; sl_with rel2_logic ihe.
Qed.

Local Lemma step_numfor P rho1 rho2 va x i stop step b : covers_block P b -> env_agree P rho1 rho2 ->
  rel2 eq (exec_numfor d (S n) rho1 va x i stop step b) (exec_numfor d (S n) rho2 va x i stop step b).
Proof. intros Hb He. rewrite !exec_numfor_S. sl_with rel2_logic ihe. Qed.

Local Lemma step_genfor P rho1 rho2 va vars f s ctl b : covers_block P b -> env_agree P rho1 rho2 ->
  rel2 eq (exec_genfor d (S n) rho1 va vars f s ctl b) (exec_genfor d (S n) rho2 va vars f s ctl b).
Proof.
  intros Hb He. rewrite !exec_genfor_S. apply (sl_bind_eq rel2_logic); [ihe|]. intros vs.
  destruct (first vs); [sl rel2_logic|..];
    (eapply (sl_bind rel2_logic); [apply rel2_local_go; eassumption|]; intros r1 r2 Hr; sl_with rel2_logic ihe).
Qed.

Lemma sim_all_S : sim_all (S n).
Proof.
  destruct (vsim_S rel2_logic IHv clos_call)
    as [Hcall Hindex Hsetindex Htostr Harith Hconcat Hequal Hless Hlength Hbuiltin].
  exact (Build_sim_all (S n) Hcall Hindex Hsetindex Htostr Harith Hconcat Hequal Hless Hlength Hbuiltin
           step_eval step_eval1 step_eval_list step_eval_args step_fill
           step_block step_stmts (step_assign_target rel2_logic IHv) step_eval_target step_stmt step_while step_repeat
           step_numfor step_genfor).
Qed.

End Step.

Theorem sim_all_holds n : sim_all n.
Proof. induction n as [|n IHn]; [exact sim_all_0 | exact (sim_all_S n IHn)]. Qed.

End Sim.
