(** The bundler theorems about Model/Bundle.v, each implication with an [Example] that its
    hypotheses hold on a non-trivial input. *)
From Coq Require Import NArith Arith PeanoNat List Bool Lia.
From DL Require Import Lib.Bytes Model.Rename Model.Bundle Proof.BundleSpec Proof.RenameStream
  Proof.BundleBasics Proof.BundleRel Proof.BundleInv Proof.BundleSound.
From DL Require Import Proof.ListFacts.
Import ListNotations.
Open Scope N_scope.

Lemma bundle_run g roots :
  exists s sites, run_entry g (enough_fuel g) roots = Some (s, sites) /\
    bundle g roots = match errors s with [] => Bundled (defs s) sites | es => Failed es end.
Proof.
  unfold bundle, bundle_with.
  destruct (run_entry g (enough_fuel g) roots) as [[s xs]|] eqn:E;
    [|now apply run_entry_total in E].
  now exists s, xs.
Qed.

Lemma bundled_inv g roots ms sites :
  bundle g roots = Bundled ms sites ->
  exists s, run_entry g (enough_fuel g) roots = Some (s, sites) /\ errors s = [] /\ defs s = ms.
Proof.
  destruct (bundle_run g roots) as [s [xs [Hr ->]]].
  destruct (errors s) eqn:E; [|discriminate]. intros [= <- <-]. now exists s.
Qed.

Lemma failed_inv g roots es :
  bundle g roots = Failed es ->
  exists s sites e rest, run_entry g (enough_fuel g) roots = Some (s, sites) /\
    errors s = es /\ es = e :: rest.
Proof.
  destruct (bundle_run g roots) as [s [xs [Hr ->]]].
  destruct (errors s) as [|e rest] eqn:E; [discriminate|]. intros [= <-]. now exists s, xs, e, rest.
Qed.

Lemma final_facts g fuel roots s sites :
  run_entry g fuel roots = Some (s, sites) ->
  NoDup (map fst (defs s)) /\
  (errors s = [] ->
   Forall2 (site_ok (defs s)) roots sites /\ defs_ok g (defs s) /\ ranked (defs s)).
Proof.
  intros H. apply run_entry_sound in H.
  destruct (Vis_good g _ _ _ _ _ H (Good_init g)) as [G W]. split; [apply (G_nodup g s G)|].
  intros E. split; [|now apply Good_defs_ok]. now apply (wsite_strong s _ _ _ W).
Qed.

Lemma sites_file ms rs xs f :
  Forall2 (site_ok ms) rs xs -> In (RFile f) rs ->
  exists j, In (Some j) xs /\ nth_error (map fst ms) j = Some f.
Proof.
  intros F I. destruct (Forall2_in_l _ _ _ _ F I) as [[j|] [Ix Sx]]; [|contradiction]. now exists j.
Qed.

Lemma sites_resolved ms rs xs lit : Forall2 (site_ok ms) rs xs -> ~ In (RNotFound lit) rs.
Proof. intros F I. destruct (Forall2_in_l _ _ _ _ F I) as [[j|] [_ Sx]]; exact Sx. Qed.

Section Final.
Variable g : graph.
Variable roots : list req.
Variable ms : list (file * list site).
Variable sites : list site.
Hypothesis Hroots : Forall2 (site_ok ms) roots sites.
Hypothesis Hdefs : defs_ok g ms.

Lemma edge_defined a b sa :
  In (a, sa) ms -> edge g a b ->
  exists j, In (Some j) sa /\ nth_error (map fst ms) j = Some b.
Proof.
  intros Ia [reqs [ret [Hl Hb]]]. pose proof (Hdefs a sa Ia) as D. rewrite Hl in D.
  destruct ret as [[|[|n]]|]; try contradiction. exact (sites_file _ _ _ _ D Hb).
Qed.

Lemma reach_defined f : reach g roots f -> In f (map fst ms).
Proof.
  induction 1 as [f Hf|a b Ra IH E].
  - destruct (sites_file _ _ _ _ Hroots Hf) as [j [_ Nj]]. eapply nth_error_In; exact Nj.
  - apply in_map_iff in IH as [[a' sa] [Ea Ia]]. cbn in Ea. subst a'.
    destruct (edge_defined a b sa Ia E) as [j [_ Nj]]. eapply nth_error_In; exact Nj.
Qed.

Lemma defined_proper f sf : In (f, sf) ms -> proper g f.
Proof.
  intros Hin. pose proof (Hdefs f sf Hin) as D. unfold proper.
  destruct (lookup g f) as [[reqs [[|[|n]]|]| |]|]; try exact D; [|exact I].
  intros lit. exact (sites_resolved _ _ _ lit D).
Qed.

Lemma final_well_formed : well_formed g roots.
Proof.
  split.
  - intros lit. exact (sites_resolved _ _ _ lit Hroots).
  - intros f R. apply reach_defined in R. apply in_map_iff in R as [[f' sf] [Ef If]].
    cbn in Ef. subst f'. eapply defined_proper; exact If.
Qed.

Hypothesis Hnodup : NoDup (map fst ms).
Hypothesis Hrank : ranked ms.

Lemma path_rank a b : path g a b -> forall ka, nth_error (map fst ms) ka = Some a ->
  exists kb, (kb < ka)%nat /\ nth_error (map fst ms) kb = Some b.
Proof.
  assert (Step : forall a b ka, edge g a b -> nth_error (map fst ms) ka = Some a ->
            exists kb, (kb < ka)%nat /\ nth_error (map fst ms) kb = Some b).
  { intros a0 b0 ka E Na. apply nth_error_map_fst_inv in Na as [sa Na].
    destruct (edge_defined a0 b0 sa (nth_error_In _ _ Na) E) as [j [Ij Nj]].
    exists j. split; [|exact Nj]. eapply Hrank; eassumption. }
  induction 1 as [a b E|a b c E P IH]; intros ka Na.
  - eapply Step; eassumption.
  - destruct (Step _ _ _ E Na) as [kb [L Nb]]. destruct (IH kb Nb) as [kc [L' Nc]].
    exists kc. split; [lia|exact Nc].
Qed.

Lemma final_acyclic : ~ cyclic g roots.
Proof.
  intros [f [R P]]. apply reach_defined in R. apply In_nth_error in R as [k Nk].
  destruct (path_rank f f P k Nk) as [k' [L Nk']].
  assert (k' = k) by exact (nth_error_NoDup_inj _ _ _ _ Hnodup Nk' Nk). lia.
Qed.

End Final.

Lemma wf_justified_cyclic g roots e :
  well_formed g roots -> justified g roots e ->
  cyclic g roots /\ exists chain, e = ECyclic chain /\ names_cycle g chain.
Proof.
  intros [WR WP] Je. destruct e as [lit|chain|f|f]; cbn [justified] in Je.
  - exfalso. destruct Je as [C|[f [reqs [r [R [Hl C]]]]]]; [now apply (WR lit)|].
    pose proof (WP f R) as Pf. unfold proper in Pf. rewrite Hl in Pf.
    destruct r as [[|[|n]]|]; try contradiction. now apply (Pf lit).
  - destruct Je as [NC [f [Hd R]]]. split; [|now exists chain].
    exists f. split; [exact R|]. eapply names_cycle_path; eassumption.
  - exfalso. destruct Je as [R Hl]. pose proof (WP f R) as Pf. unfold proper in Pf.
    destruct Hl as [Hl|Hl]; rewrite Hl in Pf; exact Pf.
  - exfalso. destruct Je as [R [reqs [r [Hl Hr]]]]. pose proof (WP f R) as Pf.
    unfold proper in Pf. rewrite Hl in Pf.
    destruct r as [[|[|n]]|]; try contradiction; now apply Hr.
Qed.

Definition diamond : graph :=
  [(1, KLua [RFile 3] (Some 1%nat)); (2, KLua [RFile 3; RFile 1] (Some 1%nat)); (3, KData)].
Definition diamond_roots : list req := [RFile 1; RFile 2; RFile 1].
Definition diamond_ms : list (file * list site) :=
  [(3, []); (1, [Some 0%nat]); (2, [Some 0%nat; Some 1%nat])].

Definition cycle2 : graph := [(1, KLua [RFile 2] (Some 1%nat)); (2, KLua [RFile 1] (Some 1%nat))].
(** the entry file 0 (entry -> 1) is itself required by 1 *)
Definition entry_cycle : graph := [(0, KLua [RFile 1] (Some 1%nat)); (1, KLua [RFile 0] (Some 1%nat))].
Definition self_loop : graph := [(1, KLua [RFile 1] (Some 1%nat))].
(** broken file, unresolved literals, no return, two returned values, a cycle, a missing file *)
Definition messy : graph :=
  [(1, KLua [RFile 2; RNotFound 7; RFile 3; RFile 4; RFile 5; RFile 2] (Some 1%nat)); (2, KBroken);
   (3, KLua [] None); (4, KLua [RFile 1] (Some 2%nat)); (6, KData)].
Definition messy_roots : list req := [RFile 1; RNotFound 9; RFile 6; RFile 2].

Example diamond_bundles :
  bundle diamond diamond_roots = Bundled diamond_ms [Some 1%nat; Some 2%nat; Some 1%nat].
Proof. vm_compute. reflexivity. Qed.

Example cycle2_fails : bundle cycle2 [RFile 1] = Failed [ECyclic [1; 2; 1]].
Proof. vm_compute. reflexivity. Qed.

Example entry_cycle_fails : bundle entry_cycle [RFile 1] = Failed [ECyclic [1; 0; 1]].
Proof. vm_compute. reflexivity. Qed.

Example self_loop_fails : bundle self_loop [RFile 1] = Failed [ECyclic [1; 1]].
Proof. vm_compute. reflexivity. Qed.

Example messy_fails :
  bundle messy messy_roots =
  Failed [EResource 2; ENotFound 7; EModule 3; ECyclic [1; 4; 1]; EModule 4; EResource 5; ENotFound 9].
Proof. vm_compute. reflexivity. Qed.

(** the hypotheses of the theorems below, established by hand (not through the theorems) *)

Lemma edge_entry g a b : edge g a b -> exists reqs ret, In (a, KLua reqs ret) g /\ In (RFile b) reqs.
Proof. intros [reqs [ret [L H]]]. exists reqs, ret. split; [now apply lookup_In|exact H]. Qed.

Lemma diamond_edges a b :
  edge diamond a b -> (a = 1 /\ b = 3) \/ (a = 2 /\ b = 3) \/ (a = 2 /\ b = 1).
Proof.
  intros E. apply edge_entry in E as [reqs [ret [Hg Hb]]].
  destruct Hg as [[= <- <- <-]|[[= <- <- <-]|[[=]|[]]]]; cbn in Hb; intuition congruence.
Qed.

Lemma diamond_reach f : reach diamond diamond_roots f -> f = 1 \/ f = 2 \/ f = 3.
Proof.
  induction 1 as [f Hf|a b Ra IH E].
  - destruct Hf as [[= <-]|[[= <-]|[[= <-]|[]]]]; auto.
  - apply diamond_edges in E as [[_ ->]|[[_ ->]|[_ ->]]]; auto.
Qed.

Example diamond_well_formed : well_formed diamond diamond_roots.
Proof.
  split.
  - intros lit [C|[C|[C|[]]]]; discriminate.
  - intros f R. apply diamond_reach in R as [-> | [-> | ->]]; unfold proper; cbn.
    + intros lit [C|[]]; discriminate.
    + intros lit [C|[C|[]]]; discriminate.
    + exact I.
Qed.

Definition diamond_rank (f : file) : nat := if f =? 3 then 0 else if f =? 1 then 1 else 2.

Lemma diamond_path_rank a b : path diamond a b -> (diamond_rank b < diamond_rank a)%nat.
Proof.
  induction 1 as [a b E|a b c E P IH].
  - apply diamond_edges in E as [[-> ->]|[[-> ->]|[-> ->]]]; cbn; lia.
  - apply diamond_edges in E as [[-> ->]|[[-> ->]|[-> ->]]]; cbn in *; lia.
Qed.

Example diamond_acyclic : ~ cyclic diamond diamond_roots.
Proof. intros [f [_ P]]. apply diamond_path_rank in P. lia. Qed.

Lemma edge_intro g a b reqs ret : lookup g a = Some (KLua reqs ret) -> In (RFile b) reqs -> edge g a b.
Proof. intros L I. now exists reqs, ret. Qed.

Example cycle2_cyclic : cyclic cycle2 [RFile 1].
Proof.
  exists 1. split; [apply reach_root; now left|].
  apply path_step with (b := 2); [|apply path_edge].
  - eapply edge_intro; [reflexivity|now left].
  - eapply edge_intro; [reflexivity|now left].
Qed.

Example cycle2_well_formed : well_formed cycle2 [RFile 1].
Proof.
  assert (E : forall a b, edge cycle2 a b -> (a = 1 /\ b = 2) \/ (a = 2 /\ b = 1)).
  { intros a b E. apply edge_entry in E as [reqs [ret [Hg Hb]]].
    destruct Hg as [[= <- <- <-]|[[= <- <- <-]|[]]]; cbn in Hb; intuition congruence. }
  assert (R : forall f, reach cycle2 [RFile 1] f -> f = 1 \/ f = 2).
  { induction 1 as [f Hf|a b Ra IH Eab].
    - destruct Hf as [[= <-]|[]]. auto.
    - apply E in Eab as [[_ ->]|[_ ->]]; auto. }
  split.
  - intros lit [C|[]]. discriminate.
  - intros f Hf. apply R in Hf as [-> | ->]; unfold proper; cbn; intros lit [C|[]]; discriminate.
Qed.

Example entry_cycle_cyclic : cyclic entry_cycle [RFile 1].
Proof.
  exists 1. split; [apply reach_root; now left|].
  apply path_step with (b := 0); [|apply path_edge].
  - eapply edge_intro; [reflexivity|now left].
  - eapply edge_intro; [reflexivity|now left].
Qed.

Example self_loop_cyclic : cyclic self_loop [RFile 1].
Proof.
  exists 1. split; [apply reach_root; now left|]. apply path_edge.
  eapply edge_intro; [reflexivity|now left].
Qed.

Theorem bundle_terminates : forall g roots, bundle g roots <> OutOfFuel.
Proof.
  intros g roots. destruct (bundle_run g roots) as [s [sites [_ ->]]].
  destruct (errors s); discriminate.
Qed.

Lemma bundle_with_mono g roots n m :
  (n <= m)%nat -> bundle_with n g roots <> OutOfFuel -> bundle_with m g roots = bundle_with n g roots.
Proof.
  intros L. unfold bundle_with.
  destruct (run_entry g n roots) as [x|] eqn:E; [|congruence].
  now rewrite (run_entry_mono _ _ _ _ _ L E).
Qed.

Theorem bundle_fuel_stable : forall g roots fuel,
  (enough_fuel g <= fuel)%nat -> bundle_with fuel g roots = bundle g roots.
Proof. intros g roots fuel L. apply bundle_with_mono; [exact L|apply bundle_terminates]. Qed.

Example bundle_fuel_stable_ex :
  (enough_fuel diamond <= 100)%nat /\ bundle_with 100 diamond diamond_roots = bundle diamond diamond_roots
  /\ bundle_with 1 diamond diamond_roots = OutOfFuel.
Proof. split; [vm_compute; lia|]. split; vm_compute; reflexivity. Qed.

(** every error is about a file the entry reaches *)
Theorem error_justified : forall g roots es e, bundle g roots = Failed es -> In e es ->
  match e with
  | ENotFound lit => In (RNotFound lit) roots \/ exists f reqs r, reach g roots f /\ lookup g f = Some (KLua reqs r) /\ In (RNotFound lit) reqs
  | ECyclic chain => names_cycle g chain /\ exists f, hd_error chain = Some f /\ reach g roots f
  | EResource f => reach g roots f /\ (lookup g f = None \/ lookup g f = Some KBroken)
  | EModule f => reach g roots f /\ exists reqs r, lookup g f = Some (KLua reqs r) /\ r <> Some 1%nat
  end.
Proof.
  intros g roots es e H I. apply failed_inv in H as [s [sites [e0 [rest [Hr [<- _]]]]]].
  apply run_entry_J in Hr. exact (proj1 Hr e I).
Qed.

Example error_justified_ex :
  exists es, bundle messy messy_roots = Failed es /\
    In (ENotFound 7) es /\ In (ENotFound 9) es /\ In (ECyclic [1; 4; 1]) es /\
    In (EResource 2) es /\ In (EResource 5) es /\ In (EModule 3) es /\ In (EModule 4) es.
Proof. eexists. split; [apply messy_fails|]. cbn. intuition. Qed.

Theorem cyclic_error_names_cycle : forall g roots es chain,
  bundle g roots = Failed es -> In (ECyclic chain) es -> names_cycle g chain.
Proof. intros g roots es chain H I. exact (proj1 (error_justified g roots es _ H I)). Qed.

Example cyclic_error_names_cycle_ex :
  bundle messy messy_roots = Failed [EResource 2; ENotFound 7; EModule 3; ECyclic [1; 4; 1]; EModule 4; EResource 5; ENotFound 9]
  /\ In (ECyclic [1; 4; 1]) [EResource 2; ENotFound 7; EModule 3; ECyclic [1; 4; 1]; EModule 4; EResource 5; ENotFound 9].
Proof. split; [apply messy_fails|cbn; tauto]. Qed.

Lemma wf_failed_cyclic g roots es :
  well_formed g roots -> bundle g roots = Failed es ->
  cyclic g roots /\ exists chain, In (ECyclic chain) es /\ names_cycle g chain.
Proof.
  intros WF H. apply failed_inv in H as [s [sites [e [rest [Hr [He ->]]]]]].
  apply run_entry_J in Hr. destruct Hr as [Je _].
  destruct (wf_justified_cyclic g roots e WF) as [C [chain [-> N]]].
  { apply Je. rewrite He. now left. }
  split; [exact C|]. exists chain. split; [now left|exact N].
Qed.

Theorem bundled_iff : forall g roots,
  (exists ms sites, bundle g roots = Bundled ms sites) <-> (well_formed g roots /\ ~ cyclic g roots).
Proof.
  intros g roots. split.
  - intros [ms [sites H]]. apply bundled_inv in H as [s [Hr [He <-]]].
    destruct (final_facts _ _ _ _ _ Hr) as [ND F]. destruct (F He) as [A [B C]]. split.
    + eapply final_well_formed; eassumption.
    + eapply final_acyclic; eassumption.
  - intros [WF NC]. destruct (bundle g roots) as [ms sites|es|] eqn:B.
    + eauto.
    + exfalso. apply NC. now apply (wf_failed_cyclic g roots es WF).
    + now apply bundle_terminates in B.
Qed.

Example bundled_iff_ex :
  (exists ms sites, bundle diamond diamond_roots = Bundled ms sites) /\
  well_formed diamond diamond_roots /\ ~ cyclic diamond diamond_roots.
Proof.
  split; [do 2 eexists; apply diamond_bundles|]. split; [apply diamond_well_formed|apply diamond_acyclic].
Qed.

Theorem cycle_iff_error : forall g roots, well_formed g roots ->
  ((exists es, bundle g roots = Failed es) <-> cyclic g roots).
Proof.
  intros g roots WF. split.
  - intros [es H]. now apply (wf_failed_cyclic g roots es WF).
  - intros C. destruct (bundle g roots) as [ms sites|es|] eqn:E.
    + exfalso. assert (B : exists ms sites, bundle g roots = Bundled ms sites) by eauto.
      apply bundled_iff in B as [_ NC]. now apply NC.
    + now exists es.
    + now apply bundle_terminates in E.
Qed.

Theorem cycle_reported : forall g roots, well_formed g roots -> cyclic g roots ->
  exists es chain, bundle g roots = Failed es /\ In (ECyclic chain) es /\ names_cycle g chain.
Proof.
  intros g roots WF C. apply (cycle_iff_error g roots WF) in C as [es H].
  destruct (wf_failed_cyclic g roots es WF H) as [_ [chain [I N]]]. now exists es, chain.
Qed.

Example cycle_reported_ex :
  well_formed cycle2 [RFile 1] /\ cyclic cycle2 [RFile 1] /\
  bundle cycle2 [RFile 1] = Failed [ECyclic [1; 2; 1]].
Proof. split; [apply cycle2_well_formed|]. split; [apply cycle2_cyclic|apply cycle2_fails]. Qed.

Theorem once_only : forall g roots ms sites, bundle g roots = Bundled ms sites -> NoDup (map fst ms).
Proof.
  intros g roots ms sites H. apply bundled_inv in H as [s [Hr [He <-]]].
  now destruct (final_facts _ _ _ _ _ Hr).
Qed.

Theorem shared_instance : forall g roots ms sites, bundle g roots = Bundled ms sites ->
  Forall2 (site_ok ms) roots sites /\ defs_ok g ms.
Proof.
  intros g roots ms sites H. apply bundled_inv in H as [s [Hr [He <-]]].
  destruct (final_facts _ _ _ _ _ Hr) as [_ F]. destruct (F He) as [A [B _]]. now split.
Qed.

Theorem same_path_same_module : forall ms f k1 k2, NoDup (map fst ms) ->
  site_ok ms (RFile f) (Some k1) -> site_ok ms (RFile f) (Some k2) -> k1 = k2.
Proof.
  intros ms f k1 k2 ND H1 H2. exact (nth_error_NoDup_inj _ _ _ _ ND H1 H2).
Qed.

Example same_path_same_module_ex :
  NoDup (map fst diamond_ms) /\ site_ok diamond_ms (RFile 1) (Some 1%nat) /\
  site_ok diamond_ms (RFile 3) (Some 0%nat).
Proof.
  split; [|split; reflexivity]. cbn. repeat constructor; cbn; intuition discriminate.
Qed.

Theorem reachable_defined : forall g roots ms sites, bundle g roots = Bundled ms sites ->
  forall f, reach g roots f <-> In f (map fst ms).
Proof.
  intros g roots ms sites H f. apply bundled_inv in H as [s [Hr [He <-]]].
  destruct (final_facts _ _ _ _ _ Hr) as [_ F]. destruct (F He) as [A [B _]]. split.
  - eapply reach_defined; eassumption.
  - apply run_entry_J in Hr. apply (proj2 Hr).
Qed.

Theorem module_names_nodup : forall n, NoDup (module_names n).
Proof.
  intros n. unfold module_names. apply firstn_NoDup. apply NoDup_filter. apply gen_stream_nodup.
Qed.

Theorem module_names_not_cache : forall n, ~ In (of_string "cache") (module_names n).
Proof.
  intros n H. unfold module_names in H. apply firstn_In in H. apply filter_In in H as [_ H].
  unfold not_cache in H. rewrite bytes_eqb_refl in H. discriminate.
Qed.

Example module_names_ex : map to_string (module_names 4) = ["a"; "b"; "c"; "d"]%string.
Proof. vm_compute. reflexivity. Qed.
