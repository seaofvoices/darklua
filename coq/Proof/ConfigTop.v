(** C19 — the configuration object: strictness and round trip (on top of Proof/ConfigFacts.v). *)
From Coq Require Import List Bool String Ascii ZArith NArith Lia Permutation.
From DL Require Import Model.Config Proof.ListFacts Proof.ConfigBasics Proof.ConfigFacts.
Import ListNotations.
Open Scope string_scope.

Definition top_keys : list string := ["rules"; "process"; "generator"; "bundle"; "apply_to_files"; "skip_files"].

(** the default rules are rules of the table that need no property *)
Definition defaults_ok (specs : list rule_spec) (default_rules : list string) : bool :=
  forallb (fun n => match find_spec specs n with
                    | Some s => checks s []
                    | None => false
                    end) default_rules.

Section ConfigTop.

Variable valid_glob : string -> bool.
Variable valid_regex : string -> bool.
Variable valid_ident : string -> bool.
Variable norm_globals : list string -> list string.
Variable norm_reqmode : json -> option json.
Variable env_json_ok : string -> bool.
Variable norm_bundle : json -> option json.
Variable specs : list rule_spec.
Variable default_rules : list string.

Hypothesis H_req_idem : forall j j', norm_reqmode j = Some j' -> norm_reqmode j' = Some j'.
Hypothesis H_req_obj : forall j j', norm_reqmode j = Some j' -> exists l, j' = JObj l.
Hypothesis H_glob_idem : forall l, norm_globals (norm_globals l) = norm_globals l.
Hypothesis H_glob_ok : forall l, forallb (globals_item_ok valid_ident) l = true ->
                                 forallb (globals_item_ok valid_ident) (norm_globals l) = true.
Hypothesis H_bundle_idem : forall j j', norm_bundle j = Some j' -> norm_bundle j' = Some j' /\ j' <> JNull.
Hypothesis H_specs : specs_ok specs = true.
Hypothesis H_defaults : defaults_ok specs default_rules = true.

Notation one_or_many := (one_or_many valid_glob).
Notation deserialize_rule :=
  (deserialize_rule valid_glob valid_regex valid_ident norm_globals norm_reqmode env_json_ok specs).
Notation serialize_rule := (serialize_rule specs).
Notation deserialize_config :=
  (deserialize_config valid_glob valid_regex valid_ident norm_globals norm_reqmode env_json_ok norm_bundle specs default_rules).
Notation serialize_config := (serialize_config specs).
Notation rule_inv := (rule_inv valid_glob valid_regex valid_ident norm_globals norm_reqmode env_json_ok specs).
Notation ser_complete := (ser_complete specs).

Lemma field_of_top k f : field_of k = Some f -> In k top_keys.
Proof.
  unfold field_of. intros H.
  change top_keys with (["rules"; "process"] ++ ["generator"; "bundle"; "apply_to_files"; "skip_files"])%list.
  apply in_or_app. destruct (mem k ["rules"; "process"]) eqn:E1; [left; apply mem_true_iff; exact E1|right].
  destruct (mem k ["generator"; "bundle"; "apply_to_files"; "skip_files"]) eqn:E2; [|discriminate].
  apply mem_true_iff. exact E2.
Qed.

(** the third part is what makes the induction go through: no key names a field already seen, so a later
    occurrence of the first key would be refused *)
Lemma fields_ok_keys : forall kvs seen, fields_ok kvs seen = true ->
  (forall k, In k (map fst kvs) -> In k top_keys) /\ NoDup (map fst kvs) /\
  (forall k f, In k (map fst kvs) -> field_of k = Some f -> ~ In f seen).
Proof.
  induction kvs as [|[k j] kvs IH]; cbn [fields_ok map fst]; intros seen H.
  - repeat split; [intros k []|constructor|intros k f []].
  - destruct (field_of k) as [f|] eqn:Ef; [|discriminate].
    apply andb_true_iff in H. destruct H as [Hseen H]. apply negb_true_iff in Hseen.
    destruct (IH _ H) as [Keys [ND New]]. repeat split.
    + intros k' [<-|Hin]; [eapply field_of_top; exact Ef|apply Keys; exact Hin].
    + constructor; [|exact ND]. intros Hin. apply (New k f Hin Ef). left. reflexivity.
    + intros k' f' [<-|Hin] Ef' Hf'.
      * rewrite Ef in Ef'. inversion Ef'; subst f'. apply mem_true_iff in Hf'. congruence.
      * apply (New k' f' Hin Ef'). right. exact Hf'.
Qed.

Theorem config_strict kvs c :
  deserialize_config (JObj kvs) = Some c ->
  (forall k, In k (map fst kvs) -> In k top_keys) /\ NoDup (map fst kvs).
Proof.
  cbn [Config.deserialize_config]. destruct (fields_ok kvs []) eqn:E; [|discriminate]. intros _.
  destruct (fields_ok_keys kvs [] E) as [Keys [ND _]]. split; assumption.
Qed.

Definition gen_ok (g : generator) : Prop :=
  match g with GRetainLines => True | GDense n | GReadable n => (Z.of_N n <= usize_max)%Z end.

Definition config_inv (c : config) : Prop :=
  Forall rule_inv (c_rules c) /\ gen_ok (c_generator c) /\
  match c_bundle c with Some b => norm_bundle b = Some b /\ b <> JNull | None => True end /\
  forallb valid_glob (c_apply c) = true /\ forallb valid_glob (c_skip c) = true.

Lemma as_usize_bound j n : as_usize j = Some n -> (Z.of_N n <= usize_max)%Z.
Proof.
  destruct j as [| |[z|]| | |]; cbn [as_usize]; try discriminate.
  fold (in_usize z). destruct (in_usize z) eqn:E; [|discriminate]. intros [= <-]. apply in_usize_to_N. exact E.
Qed.

Lemma as_usize_of_N n : (Z.of_N n <= usize_max)%Z -> as_usize (JNum (NInt (Z.of_N n))) = Some n.
Proof. intros H. cbn [as_usize]. fold (in_usize (Z.of_N n)). rewrite (in_usize_of_N n H), N2Z.id. reflexivity. Qed.

Lemma default_span_ok : (Z.of_N default_span <= usize_max)%Z.
Proof. vm_compute. discriminate. Qed.

Lemma deserialize_generator_ok j g : deserialize_generator j = Some g -> gen_ok g.
Proof.
  destruct j as [| | |s| |kvs]; cbn [deserialize_generator]; try discriminate.
  - unfold generator_of_name. destruct (mem s ["retain_lines"; "retain-lines"]); [intros [= <-]; exact I|].
    destruct (String.eqb s "dense"); [intros [= <-]; apply default_span_ok|].
    destruct (String.eqb s "readable"); [intros [= <-]; apply default_span_ok|discriminate].
  - unfold generator_of_object. destruct (count_key "name" kvs) as [|[|?]]; try discriminate.
    destruct (lookup "name" kvs) as [[| | |tag| |]|]; try discriminate.
    destruct (mem tag ["retain_lines"; "retain-lines"]); [intros [= <-]; exact I|].
    destruct (mem tag ["dense"; "readable"]); [|discriminate].
    destruct (forallb _ _ && _); [|discriminate].
    destruct (filter _ kvs) as [|[k j] rest].
    + destruct (String.eqb tag "dense"); intros [= <-]; apply default_span_ok.
    + destruct (as_usize j) as [n|] eqn:En; [|discriminate]. apply as_usize_bound in En.
      destruct (String.eqb tag "dense"); intros [= <-]; exact En.
Qed.

Lemma generator_read_back g : gen_ok g -> deserialize_generator (serialize_generator g) = Some g.
Proof.
  destruct g as [|n|n]; cbn [gen_ok]; intros H; [reflexivity| |].
  - cbn -[as_usize]. rewrite (as_usize_of_N n H). reflexivity.
  - cbn -[as_usize]. rewrite (as_usize_of_N n H). reflexivity.
Qed.

Lemma map_opt_inv : forall l rs, map_opt deserialize_rule l = Some rs -> Forall rule_inv rs.
Proof.
  induction l as [|j l IH]; cbn [map_opt]; intros rs H.
  - inversion H; subst. constructor.
  - destruct (deserialize_rule j) as [r|] eqn:Hr; [|discriminate].
    destruct (map_opt deserialize_rule l) as [rs'|] eqn:Hl; [|discriminate]. inversion H; subst.
    constructor; [|apply IH; reflexivity].
    eapply deserialize_rule_inv; eassumption.
Qed.

Lemma default_rules_inv : Forall rule_inv (default_rule_cfgs default_rules).
Proof.
  unfold default_rule_cfgs. unfold defaults_ok in H_defaults. rewrite forallb_forall in H_defaults.
  apply Forall_forall. intros r Hin. apply in_map_iff in Hin. destruct Hin as [n [<- Hn]].
  specialize (H_defaults n Hn). destruct (find_spec specs n) as [s|] eqn:Hs; [|discriminate].
  exists s. cbn [r_name r_props r_apply r_skip]. split; [exact Hs|]. split; [|split; reflexivity].
  repeat split; [constructor|constructor|exact H_defaults].
Qed.

Lemma opt_filter_valid (o : option json) l :
  match o with None => Some [] | Some x => one_or_many x end = Some l -> forallb valid_glob l = true.
Proof.
  destruct o as [x|]; [apply one_or_many_valid|]. intros [= <-]. reflexivity.
Qed.

Lemma deserialize_config_inv j c : deserialize_config j = Some c -> config_inv c.
Proof.
  destruct j as [| | | | |kvs]; cbn [Config.deserialize_config]; try discriminate.
  destruct (fields_ok kvs []); [|discriminate].
  (* the five readers, each on its field: absent ([None]) or present *)
  destruct (match field "rules" kvs with None => _ | Some _ => _ end) as [rs|] eqn:Er; [|discriminate].
  destruct (match field "generator" kvs with None => _ | Some _ => _ end) as [g|] eqn:Eg; [|discriminate].
  destruct (match field "bundle" kvs with None => _ | Some _ => _ end) as [b|] eqn:Eb; [|discriminate].
  destruct (match field "apply_to_files" kvs with None => _ | Some _ => _ end) as [a|] eqn:Ea; [|discriminate].
  destruct (match field "skip_files" kvs with None => _ | Some _ => _ end) as [s|] eqn:Es; [|discriminate].
  intros [= <-]. unfold config_inv. cbn [c_rules c_generator c_bundle c_apply c_skip].
  split; [|split; [|split; [|split]]].
  - destruct (field "rules" kvs) as [[| | | |l|]|]; try discriminate.
    + eapply map_opt_inv; exact Er.
    + inversion Er; subst. apply default_rules_inv.
  - destruct (field "generator" kvs) as [gj|]; [eapply deserialize_generator_ok; exact Eg|]. inversion Eg; subst. exact I.
  - destruct b as [b|]; [|exact I].
    destruct (field "bundle" kvs) as [bj|]; [|discriminate].
    assert (Hb : norm_bundle bj = Some b).
    { destruct bj; try discriminate; destruct (norm_bundle _) eqn:En; inversion Eb; subst; reflexivity. }
    apply H_bundle_idem in Hb. exact Hb.
  - eapply opt_filter_valid; exact Ea.
  - eapply opt_filter_valid; exact Es.
Qed.

Lemma rules_read_back : forall rs, Forall rule_inv rs -> Forall ser_complete rs ->
  map_opt deserialize_rule (map serialize_rule rs) = Some (map sorted_rule rs).
Proof.
  induction rs as [|r rs IH]; intros HI HC; cbn [map map_opt]; [reflexivity|].
  inversion HI; subst. inversion HC; subst.
  rewrite IH by assumption. erewrite rule_read_back by eassumption. reflexivity.
Qed.

Lemma top_filter_read_back l : forallb valid_glob l = true ->
  match l with [] => Some [] | _ => one_or_many (JArr (map JStr l)) end = Some l.
Proof.
  intros H. destruct l; [reflexivity|]. apply one_or_many_list. exact H.
Qed.

Lemma config_read_back c :
  config_inv c -> Forall ser_complete (c_rules c) ->
  deserialize_config (serialize_config c) =
  Some (Cfg (map sorted_rule (c_rules c)) (c_generator c) (c_bundle c) (c_apply c) (c_skip c)).
Proof.
  intros [HR [HG [HB [HA HS]]]] HC.
  pose proof (rules_read_back _ HR HC) as ER.
  pose proof (generator_read_back _ HG) as EG.
  pose proof (top_filter_read_back _ HA) as EA.
  pose proof (top_filter_read_back _ HS) as ES.
  destruct c as [rs g b a s]. cbn [c_rules c_generator c_bundle c_apply c_skip] in *.
  unfold Config.serialize_config. cbn [c_rules c_generator c_bundle c_apply c_skip].
  destruct b as [b|]; destruct a as [|a0 a]; destruct s as [|s0 s];
    lazy [list_entry app Config.deserialize_config fields_ok field field_of mem existsb find fst snd negb andb orb
          String.eqb Ascii.eqb Bool.eqb];
    rewrite ?ER, ?EG, ?EA, ?ES; try reflexivity.
  all: destruct HB as [HB1 HB2]; rewrite HB1; destruct b; try reflexivity; exfalso; apply HB2; reflexivity.
Qed.

Definition config_equiv (c c' : config) : Prop :=
  Forall2 (rule_equiv) (c_rules c) (c_rules c') /\ c_generator c = c_generator c' /\
  c_bundle c = c_bundle c' /\ c_apply c = c_apply c' /\ c_skip c = c_skip c'.

Theorem config_roundtrip j c :
  deserialize_config j = Some c -> Forall ser_complete (c_rules c) ->
  exists c', deserialize_config (serialize_config c) = Some c' /\ config_equiv c c'.
Proof.
  intros Hd Hc. eexists. split; [apply config_read_back; [eapply deserialize_config_inv; exact Hd|exact Hc]|].
  repeat split; cbn [c_rules c_generator c_bundle c_apply c_skip]; try reflexivity.
  apply Forall2_map_r. apply sorted_rule_equiv.
Qed.

Theorem config_injective j1 j2 c1 c2 :
  deserialize_config j1 = Some c1 -> deserialize_config j2 = Some c2 ->
  Forall ser_complete (c_rules c1) -> Forall ser_complete (c_rules c2) ->
  serialize_config c1 = serialize_config c2 -> config_equiv c1 c2.
Proof.
  intros H1 H2 C1 C2 E.
  pose proof (config_read_back c1 (deserialize_config_inv _ _ H1) C1) as B1.
  pose proof (config_read_back c2 (deserialize_config_inv _ _ H2) C2) as B2.
  rewrite E, B2 in B1. inversion B1 as [[Er Eg Eb Ea Es]].
  repeat split; try congruence. apply (Forall2_map_inj sorted_rule); [apply sorted_rule_inj|congruence].
Qed.

End ConfigTop.
