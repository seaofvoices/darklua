(** C01, statement-level rewrites driven by a statically known condition:
    remove_unused_if_branch (statement form) and remove_unused_while. *)
From Coq Require Import ZArith NArith List Bool String Lia.
From DL Require Import Lib.Bytes Lib.F64 Lua.Syntax Lua.Sem Model.Evaluator Model.DefaultRules
  Lua.EvalSpec Lua.EvalSpec2 Proof.SemFacts Proof.EvaluatorStore Proof.EvaluatorInv Proof.EvaluatorSound
  Proof.DefaultRulesSem Proof.DefaultRulesSoundBlock Proof.DefaultRulesSoundExpr.
Import ListNotations.
Open Scope N_scope.

Section Cond.
Variable d : dialect.

Lemma if_retain_closed bs repl : if_retain bs false repl = ([], false, repl).
Proof. induction bs as [|[c b] bs IH]; [reflexivity|]. cbn [if_retain negb]. exact IH. Qed.

Lemma simplify_if_true c B rest els :
  has_side_effects false c = false -> is_truthy (evaluate c) = Some true ->
  simplify_if_statement (SBranch c B :: rest) els =
  if block_is_empty B then FRemove else FReplace (SDo B).
Proof.
  intros Hs Hb. unfold simplify_if_statement. cbn [if_retain negb]. unfold hse. rewrite Hb, Hs.
  rewrite if_retain_closed. reflexivity.
Qed.

Lemma simplify_if_false_step c B rest els :
  has_side_effects false c = false -> is_truthy (evaluate c) = Some false ->
  simplify_if_statement (SBranch c B :: rest) els = simplify_if_statement rest els \/ rest = [].
Proof.
  intros Hs Hb. destruct rest as [|b2 rest]; [now right|left].
  unfold simplify_if_statement. cbn [if_retain negb]. unfold hse. rewrite Hb, Hs. reflexivity.
Qed.

Lemma sif_known c b B rest els n rho va s r s' :
  has_side_effects false c = false -> deep_safe d c = true -> env_plain s ->
  is_truthy (evaluate c) = Some b ->
  exec_stmt d (S n) rho va (SIf (SBranch c B :: rest) els) s = Ok r s' ->
  exists s1 sg, store_extends s s1 /\ r = (rho, sg) /\
    (if b then exec_block d n rho va B else sif_go d n rho va els rest) s1 = Ok sg s'.
Proof.
  intros Hs Hd He Hb H. rewrite exec_stmt_S_if in H.
  apply bind_ok in H as (sg & s2 & Hg & H). apply ret_ok in H as [-> ->].
  rewrite sif_go_cons in Hg. apply bind_ok in Hg as (cv & s1 & Hc & Hg).
  destruct (pure_cond_run _ _ _ _ _ _ _ _ _ Hs Hd He Hb Hc) as [Hext Ht]. rewrite Ht in Hg. eauto.
Qed.

Lemma do_of_block n rho va B s sg s' :
  exec_block d n rho va B s = Ok sg s' -> exec_stmt d (S n) rho va (SDo B) s = Ok (rho, sg) s'.
Proof. intros H. rewrite exec_stmt_S_do. unfold bind. rewrite H. reflexivity. Qed.

(** [if c then B ... end], [c] free of side effects and statically truthy, behaves as
    [do B end] started in a store that differs from [s] by the fresh allocations of [c] only
    (same fuel, same resulting environment, signal and store) *)
Theorem if_branch_true_sound : forall c B rest els n rho va s r s',
  has_side_effects false c = false -> deep_safe d c = true -> env_plain s ->
  is_truthy (evaluate c) = Some true ->
  exec_stmt d n rho va (SIf (SBranch c B :: rest) els) s = Ok r s' ->
  exists s1, store_extends s s1 /\ exec_stmt d n rho va (SDo B) s1 = Ok r s'.
Proof.
  intros c B rest els n rho va s r s' Hs Hd He Hb H. fuel_S n H.
  destruct (sif_known _ _ _ _ _ _ _ _ _ _ _ Hs Hd He Hb H) as (s1 & sg & Hext & -> & Hg).
  exists s1. split; [exact Hext|]. exact (do_of_block _ _ _ _ _ _ _ Hg).
Qed.

(** statically falsy: the statement behaves as the rest of the chain ([elseif] branches and
    [else] block; nothing at all when there is none) *)
Theorem if_branch_false_sound : forall c B rest els n rho va s r s',
  has_side_effects false c = false -> deep_safe d c = true -> env_plain s ->
  is_truthy (evaluate c) = Some false ->
  exec_stmt d n rho va (SIf (SBranch c B :: rest) els) s = Ok r s' ->
  exists s1, store_extends s s1 /\
    match rest, els with
    | [], None => r = (rho, SigNone) /\ s' = s1
    | [], Some eb => exec_stmt d n rho va (SDo eb) s1 = Ok r s'
    | _, _ => exec_stmt d n rho va (SIf rest els) s1 = Ok r s'
    end.
Proof.
  intros c B rest els n rho va s r s' Hs Hd He Hb H. fuel_S n H.
  destruct (sif_known _ _ _ _ _ _ _ _ _ _ _ Hs Hd He Hb H) as (s1 & sg & Hext & -> & Hg).
  exists s1. split; [exact Hext|].
  destruct rest as [|b2 rest].
  - rewrite sif_go_nil in Hg. destruct els as [eb|].
    + exact (do_of_block _ _ _ _ _ _ _ Hg).
    + apply ret_ok in Hg as [-> ->]. auto.
  - rewrite exec_stmt_S_if. unfold bind. rewrite Hg. reflexivity.
Qed.

(** a KEPT condition (side effects allowed) whose truthiness is fixed: the code the rule deletes
    behind it is dead; identical runs for every outcome *)
Definition always (rho : env) (va : list value) (s : store) (c : expr) (b : bool) : Prop :=
  forall n cv s1, eval1 d n rho va c s = Ok cv s1 -> truthy cv = b.

Theorem if_true_rest_dead_sem : forall c B rest els n rho va s,
  always rho va s c true ->
  exec_stmt d n rho va (SIf (SBranch c B :: rest) els) s =
  exec_stmt d n rho va (SIf [SBranch c B] None) s.
Proof.
  intros c B rest els n rho va s Ha.
  destruct n as [|n]; [autorewrite with fuel0; reflexivity|]. rewrite !exec_stmt_S_if.
  apply bind_cong_l. rewrite !sif_go_cons. apply bind_eq. intros cv s1 H1.
  rewrite (Ha _ _ _ H1). reflexivity.
Qed.

Theorem if_false_block_dead_sem : forall c B rest els n rho va s,
  always rho va s c false ->
  exec_stmt d n rho va (SIf (SBranch c B :: rest) els) s =
  exec_stmt d n rho va (SIf (SBranch c empty_block :: rest) els) s.
Proof.
  intros c B rest els n rho va s Ha.
  destruct n as [|n]; [autorewrite with fuel0; reflexivity|]. rewrite !exec_stmt_S_if.
  apply bind_cong_l. rewrite !sif_go_cons. apply bind_eq. intros cv s1 H1.
  rewrite (Ha _ _ _ H1). reflexivity.
Qed.

(** instance 1: the static value is known and the C08 preconditions hold.  Such a condition is free of
    side effects ([known_pure]), so the rule drops it: the kept conditions are those of instance 2 *)
Lemma always_known c b rho va s :
  deep_safe d c = true -> ctor_pure d c = true -> env_plain s ->
  is_truthy (evaluate c) = Some b -> always rho va s c b.
Proof.
  intros Hd Hc He Hb n cv s1. exact (known_cond_run d c b n rho va s cv s1 Hd Hc He Hb).
Qed.

(** instance 2: a table constructor, whatever its entries do, is truthy, and its negation
    falsy (the conditions with side effects AND a static value that occur in practice:
    [if {f()} then], [if not {f()} then]; [ctor_pure] excludes them from instance 1) *)
Lemma always_table ens rho va s : always rho va s (ETable ens) true.
Proof.
  intros n cv s1 H. apply eval1_inv in H as (m & vs & -> & Hv & ->).
  fuel_S m Hv. rewrite eval_S_table in Hv. inv_ok Hv. subst. reflexivity.
Qed.

Lemma always_not c b rho va s : always rho va s c b -> always rho va s (EUnary UNot c) (negb b).
Proof.
  intros Ha n cv s1 H. apply eval1_inv in H as (m & vs & -> & Hv & ->).
  fuel_S m Hv. rewrite eval_S_unary in Hv.
  apply bind_ok in Hv as (v & s3 & Hc & Hv). inv_ok Hv. subst. cbn [first truthy].
  rewrite (Ha _ _ _ Hc). destruct b; reflexivity.
Qed.

Theorem if_true_rest_dead : forall c B rest els n rho va s,
  deep_safe d c = true -> ctor_pure d c = true -> env_plain s ->
  is_truthy (evaluate c) = Some true ->
  exec_stmt d n rho va (SIf (SBranch c B :: rest) els) s =
  exec_stmt d n rho va (SIf [SBranch c B] None) s.
Proof. intros. apply if_true_rest_dead_sem. now apply always_known. Qed.

Theorem if_false_block_dead : forall c B rest els n rho va s,
  deep_safe d c = true -> ctor_pure d c = true -> env_plain s ->
  is_truthy (evaluate c) = Some false ->
  exec_stmt d n rho va (SIf (SBranch c B :: rest) els) s =
  exec_stmt d n rho va (SIf (SBranch c empty_block :: rest) els) s.
Proof. intros. apply if_false_block_dead_sem. now apply always_known. Qed.

Lemma sif_go_empty_else n rho va : forall bs s r,
  sif_go d n rho va (Some empty_block) bs s = r -> r <> Fuel -> sif_go d n rho va None bs s = r.
Proof.
  induction bs as [|[c b] bs IH]; intros s r H Hf.
  - rewrite sif_go_nil in *. subst r.
    destruct n as [|n]; [exfalso; apply Hf; apply exec_block_0|]. unfold empty_block in *. rewrite exec_block_S in *.
    destruct n as [|n]; [exfalso; apply Hf; apply exec_stmts_0|]. rewrite exec_stmts_S_nil. reflexivity.
  - rewrite sif_go_cons in *. subst r. unfold bind in *.
    destruct (eval1 d n rho va c s) as [cv s1| | |]; try reflexivity.
    destruct (truthy cv); [reflexivity|]. apply IH; [reflexivity|exact Hf].
Qed.

Theorem if_empty_else_sound : forall bs n rho va s r,
  exec_stmt d n rho va (SIf bs (Some empty_block)) s = r -> r <> Fuel ->
  exec_stmt d n rho va (SIf bs None) s = r.
Proof.
  intros bs n rho va s r H Hf. subst r.
  destruct n as [|n]; [exfalso; apply Hf; apply exec_stmt_0|].
  rewrite exec_stmt_S_if in Hf. rewrite !exec_stmt_S_if.
  apply bind_cong_l. apply sif_go_empty_else; [reflexivity|].
  intros E. apply Hf. apply bind_fuel_l. exact E.
Qed.

Lemma while_kept_false c b :
  while_kept (SWhile c b) = false <->
  has_side_effects false c = false /\ is_truthy (evaluate c) = Some false.
Proof.
  cbn [while_kept]. unfold hse. destruct (has_side_effects false c); cbn [orb].
  - split; [discriminate|]. intros [E _]. discriminate E.
  - destruct (is_truthy (evaluate c)) as [[|]|]; split; auto; try discriminate; intros [_ E]; discriminate E.
Qed.

(** [while c do ... end] with [c] free of side effects and statically falsy completes
    normally, leaves the environment alone and only adds fresh allocations to the store *)
Theorem while_false_sound : forall c b n rho va s r s',
  has_side_effects false c = false -> deep_safe d c = true -> env_plain s ->
  is_truthy (evaluate c) = Some false ->
  exec_stmt d n rho va (SWhile c b) s = Ok r s' ->
  r = (rho, SigNone) /\ store_extends s s'.
Proof.
  intros c b n rho va s r s' Hs Hd He Hb H.
  fuel_S n H. rewrite exec_stmt_S_while in H.
  apply bind_ok in H as (sg & s2 & Hw & H). inv_ok H. subst.
  fuel_S n Hw. rewrite exec_while_S in Hw.
  apply bind_ok in Hw as (cv & s1 & Hc & Hw).
  destruct (pure_cond_run _ _ _ _ _ _ _ _ _ Hs Hd He Hb Hc) as [Hext Ht].
  rewrite Ht in Hw. inv_ok Hw. subst. auto.
Qed.

End Cond.

(** The hypotheses are satisfiable. *)

Definition ident (x : string) : expr := EIdent (of_string x).
Definition call0 (f : string) : stmt := SCall (ECall (ident f) None (ATuple [])).
Definition num1 : expr := ENumber (NDec (to_bits fone) None).

(** [if 1 == 1 then ext_a() else ext_b() end] *)
Example if_branch_example :
  let c := EBinary BEq num1 num1 in
  let st := SIf [SBranch c (Block [call0 "ext_a"] None)] (Some (Block [call0 "ext_b"] None)) in
  let s := initial_store [] in
  has_side_effects false c = false /\ deep_safe L51 c = true /\ env_plain s /\
  is_truthy (evaluate c) = Some true /\
  rw_if_block (Block [st] None) = Block [SDo (Block [call0 "ext_a"] None)] None /\
  exists s', exec_stmt L51 20 [] [] st s = Ok ([], SigNone) s' /\
             trace s' = [EvCall (of_string "ext_a") []].
Proof.
  cbv zeta. repeat split; try (vm_compute; reflexivity); try apply env_plain_initial.
  eexists. split; vm_compute; reflexivity.
Qed.

(** [while not {} do ext_a() end]: the condition allocates a table (fresh garbage) *)
Example while_false_example :
  let c := EUnary UNot (ETable []) in
  let st := SWhile c (Block [call0 "ext_a"] None) in
  let s := initial_store [] in
  has_side_effects false c = false /\ deep_safe L51 c = true /\ env_plain s /\
  is_truthy (evaluate c) = Some false /\
  rw_while (Block [st] None) = Block [] None /\
  exists s', exec_stmt L51 20 [] [] st s = Ok ([], SigNone) s' /\ s' <> s.
Proof.
  cbv zeta. repeat split; try (vm_compute; reflexivity); try apply env_plain_initial.
  eexists. split; [vm_compute; reflexivity|]. intros E. apply (f_equal (fun x => List.length (tables x))) in E.
  vm_compute in E. discriminate E.
Qed.

(** [if 1 > 2 then ext_a() elseif x then ext_b() else ext_c() end] *)
Example if_branch_false_example :
  let c := EBinary BGt num1 (ENumber (NDec (to_bits (of_Z 2)) None)) in
  let st := SIf [SBranch c (Block [call0 "ext_a"] None); SBranch (ident "x") (Block [call0 "ext_b"] None)]
                (Some (Block [call0 "ext_c"] None)) in
  let s := initial_store [] in
  has_side_effects false c = false /\ deep_safe Luau c = true /\ env_plain s /\
  is_truthy (evaluate c) = Some false /\
  rw_if_block (Block [st] None) =
    Block [SIf [SBranch (ident "x") (Block [call0 "ext_b"] None)] (Some (Block [call0 "ext_c"] None))] None /\
  exists s', exec_stmt Luau 20 [] [] st s = Ok ([], SigNone) s' /\
             trace s' = [EvCall (of_string "ext_c") []].
Proof.
  cbv zeta. repeat split; try (vm_compute; reflexivity); try apply env_plain_initial.
  eexists. split; vm_compute; reflexivity.
Qed.

(** [if {ext_f()} then ext_a() elseif y then ext_b() else ext_c() end]: the condition has side
    effects and is statically truthy; the rule keeps it and drops what follows *)
Example if_kept_condition_example :
  let c := ETable [TValue (ECall (ident "ext_f") None (ATuple []))] in
  let st := SIf [SBranch c (Block [call0 "ext_a"] None); SBranch (ident "y") (Block [call0 "ext_b"] None)]
                (Some (Block [call0 "ext_c"] None)) in
  let s := initial_store [] in
  has_side_effects false c = true /\ is_truthy (evaluate c) = Some true /\ ctor_pure L51 c = false /\
  (forall rho va s0, always L51 rho va s0 c true) /\
  rw_if_block (Block [st] None) = Block [SIf [SBranch c (Block [call0 "ext_a"] None)] None] None /\
  exists s', exec_stmt L51 20 [] [] st s = Ok ([], SigNone) s' /\
             trace s' = [EvCall (of_string "ext_a") []; EvCall (of_string "ext_f") []].
Proof.
  cbv zeta. split; [vm_compute; reflexivity|]. split; [vm_compute; reflexivity|].
  split; [vm_compute; reflexivity|]. split; [intros; apply always_table|].
  split; [vm_compute; reflexivity|]. eexists. split; vm_compute; reflexivity.
Qed.
