(** The configured avoid set of rename_variables (Model/Rename.v: set_globals) is the UNION of
    DEFAULT and of what every entry of the `globals` list stands for, whatever the order of the
    list and however often a group is repeated. *)
From Coq Require Import NArith List Bool Permutation.
From DL Require Import Lib.Bytes Model.Rename.
Import ListNotations.

Lemma set_globals_in dflt roblox l : forall cur x,
  In x (set_globals dflt roblox cur l) <-> In x cur \/ exists e, In e l /\ In x (expand_entry dflt roblox e).
Proof.
  unfold set_globals. induction l as [|e l IH]; intros cur x; cbn [fold_left].
  - split; [now left | intros [H | [e [[] _]]]; exact H].
  - rewrite IH. rewrite in_app_iff. split.
    + intros [[H | H] | [e' [H1 H2]]].
      * now left.
      * right. exists e. split; [now left | exact H].
      * right. exists e'. split; [now right | exact H2].
    + intros [H | [e' [[<- | H1] H2]]].
      * left. now left.
      * left. now right.
      * right. exists e'. now split.
Qed.

Theorem configured_globals_union : forall dflt roblox l x,
  In x (configured_globals dflt roblox l) <->
  In x dflt \/ exists e, In e l /\ In x (expand_entry dflt roblox e).
Proof. intros. apply set_globals_in. Qed.

Theorem configured_globals_order_independent : forall dflt roblox l l',
  (forall e, In e l <-> In e l') ->
  forall x, In x (configured_globals dflt roblox l) <-> In x (configured_globals dflt roblox l').
Proof.
  intros dflt roblox l l' H x. rewrite !configured_globals_union.
  split; (intros [K | [e [K1 K2]]]; [now left | right; exists e; split; [now apply H | exact K2]]).
Qed.

Corollary configured_globals_permutation : forall dflt roblox l l',
  Permutation l l' ->
  forall x, In x (configured_globals dflt roblox l) <-> In x (configured_globals dflt roblox l').
Proof.
  intros dflt roblox l l' P. apply configured_globals_order_independent.
  intros e. split; [apply (Permutation_in e P) | apply (Permutation_in e (Permutation_sym P))].
Qed.

Theorem listed_name_avoided : forall dflt roblox l extra x,
  In (GName x) l -> In x (avoid (init (configured_globals dflt roblox l ++ extra))).
Proof.
  intros dflt roblox l extra x H. cbn [init avoid]. apply in_or_app. left. apply in_or_app. left.
  apply configured_globals_union. right. exists (GName x). split; [exact H | now left].
Qed.
