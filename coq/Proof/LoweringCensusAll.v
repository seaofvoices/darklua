(** C07: composition.  Every modelled lowering rule removes its construct and introduces none
    of the nine, so any sequence of them that contains a rule for a construct yields a tree
    free of it; a sequence covering all constructs (but [continue], whose rule is the
    subject of Proof/RemoveContinueAll.v) applied to a tree without [continue] yields a tree a
    strict Lua 5.1 grammar can express. *)
From Coq Require Import ZArith NArith List Bool Lia.
From DL Require Import Lib.Bytes Lua.Syntax Lua.Census Model.Visit Model.Lowering
  Proof.LoweringCensusBase Proof.LoweringCensusVisit Proof.LoweringCensusRules.
Import ListNotations.
Local Open Scope nat_scope.

Definition lowers (i : nat) (r : block -> block) : Prop :=
  (forall b, feature i (r b) = 0%N) /\
  (forall j b, j < 9 -> feature j b = 0%N -> feature j (r b) = 0%N).

Definition rule := (nat * (block -> block))%type.

(** the modelled rules with the index (in [Lua/Census.v]) of the construct each targets *)
Definition lowering_rules : list rule :=
  [ (0, rule_compound_assign); (2, rule_if_expression); (3, rule_interpolated_string false);
    (3, rule_interpolated_string true); (4, rule_floor_division); (5, rule_luau_number);
    (6, rule_const); (7, rule_types); (8, rule_attribute) ].

Lemma rule_ok_lowers i H : rule_ok i H -> lowers i (run_rule H).
Proof. intros [_ R P]. exact (conj R P). Qed.

Theorem lowering_rules_lower : forall p, In p lowering_rules -> lowers (fst p) (snd p).
Proof.
  intros p Hp. cbn in Hp.
  repeat destruct Hp as [<-|Hp]; try contradiction; cbn [fst snd].
  - exact (rule_ok_lowers _ _ compound_ok).
  - exact (rule_ok_lowers _ _ if_ok).
  - exact (rule_ok_lowers _ _ (interp_ok false)).
  - exact (rule_ok_lowers _ _ (interp_ok true)).
  - exact (rule_ok_lowers _ _ floor_ok).
  - exact (rule_ok_lowers _ _ luau_number_ok).
  - exact (rule_ok_lowers _ _ const_ok).
  - exact (rule_ok_lowers _ _ types_ok).
  - exact (rule_ok_lowers _ _ attribute_ok).
Qed.

Definition apply_rules (rs : list rule) (b : block) : block := fold_left (fun b p => snd p b) rs b.

Theorem lowered_feature : forall rs, (forall p, In p rs -> lowers (fst p) (snd p)) ->
  forall j b, j < 9 -> feature j b = 0%N \/ In j (map fst rs) -> feature j (apply_rules rs b) = 0%N.
Proof.
  induction rs as [|[i r] rs IH]; intros G j b Hj Hc.
  - destruct Hc as [Z|[]]. exact Z.
  - unfold apply_rules. cbn [fold_left snd]. fold (apply_rules rs (r b)).
    destruct (G (i, r) (or_introl eq_refl)) as [Rm Kp]. cbn [fst snd] in Rm, Kp.
    apply IH; [intros p Hp; apply G; right; exact Hp|exact Hj|].
    destruct Hc as [Z|[E|Hin]].
    + left. apply Kp; assumption.
    + left. cbn [fst] in E. subst j. apply Rm.
    + right. exact Hin.
Qed.

Theorem all_lowered : forall rs,
  (forall p, In p rs -> In p lowering_rules) ->
  (forall j, j < 9 -> j <> 1 -> In j (map fst rs)) ->
  forall b, feature 1 b = 0%N -> lua51_tree (apply_rules rs b) = true.
Proof.
  intros rs Sub Cov b Z1. apply lua51_tree_iff. intros j Hj.
  apply lowered_feature; [intros p Hp; apply lowering_rules_lower, Sub, Hp|exact Hj|].
  destruct (Nat.eq_dec j 1) as [->|Ne]; [left; exact Z1|right; apply Cov; assumption].
Qed.

Corollary all_lowered_listed : forall b, feature 1 b = 0%N -> lua51_tree (apply_rules lowering_rules b) = true.
Proof.
  apply all_lowered; [auto|]. intros j Hj Ne. cbn.
  do 9 (destruct j as [|j]; [tauto|]). lia.
Qed.

Corollary all_lowered_reversed : forall b, feature 1 b = 0%N -> lua51_tree (apply_rules (rev lowering_rules) b) = true.
Proof.
  apply all_lowered; [intros p Hp; apply in_rev, Hp|]. intros j Hj Ne. rewrite map_rev. apply in_rev. rewrite rev_involutive.
  cbn. do 9 (destruct j as [|j]; [tauto|]). lia.
Qed.

(** the hypotheses are satisfiable by a tree that contains every construct *)
Example all_lowered_example :
  let b := Block [SLocal true [Param [120%N] (Some (TyNode 0%N [] []))]
                     [EIf [EBranch (EIdent [99%N]) (EBinary BIDiv (ENumber (NBin 5%N false)) (EInterp [ISExpr (EIdent [121%N])]))]
                          (EFunction (FBody [] false None None None 1%N (Block [SCompound BAdd (EIdent [122%N]) ENil] None)))]] None in
  feature 1 b = 0%N /\ lua51_tree b = false /\ lua51_tree (apply_rules lowering_rules b) = true.
Proof. vm_compute. repeat split. Qed.

(** the fuel [w_block b] that [run_rule] gives the traversal is sufficient: more fuel gives the same tree *)
Definition lowering_hooks : list hooks :=
  [ hooks_compound_assign; hooks_if_expression; hooks_interpolated_string false; hooks_interpolated_string true;
    hooks_floor_division; hooks_luau_number; hooks_const; hooks_types; hooks_attribute ].

Theorem fuel_sufficient : forall H, In H lowering_hooks ->
  forall b n, w_block b <= n -> visit_block H n 0 b = run_rule H b.
Proof.
  intros H Hin b n Hn. apply LoweringCensusVisit.run_rule_stable; [|exact Hn].
  cbn in Hin. repeat destruct Hin as [<-|Hin]; try contradiction.
  - exact (ok_w _ _ compound_ok).
  - exact (ok_w _ _ if_ok).
  - exact (ok_w _ _ (interp_ok false)).
  - exact (ok_w _ _ (interp_ok true)).
  - exact (ok_w _ _ floor_ok).
  - exact (ok_w _ _ luau_number_ok).
  - exact (ok_w _ _ const_ok).
  - exact (ok_w _ _ types_ok).
  - exact (ok_w _ _ attribute_ok).
Qed.
