(** [WorkerTree::process] preserves the invariant, finishes every item in one pass of the
    work loop and leaves no queued removal. *)
From Coq Require Import Arith PeanoNat Lia.
From DL Require Import Lib.Bytes Model.WorkerFs Model.Worker Proof.WorkerBasics Proof.WorkerInv
     Proof.WorkerStep Proof.WorkerLoop Proof.WorkerFailure.
Open Scope N_scope.

Lemma clean_dirty d : is_clean d = true -> dC d = [] /\ dN d = [] /\ dR d = [].
Proof.
  unfold is_clean. destruct (dC d); [|discriminate]. destruct (dN d); [|discriminate].
  destruct (dR d); [auto|discriminate].
Qed.

Lemma clean_item_nil d it : dC d = [] -> dR d = [] -> clean_item d it.
Proof. intros HC HR. unfold clean_item. rewrite HC, HR. cbn. auto. Qed.

Section Process.
  Variable cfg : Type.
  Variable hash : cfg -> N.
  Variable xform : cfg -> path -> content -> fs -> option content * list path.
  Variable inp outp : path.

  Hypothesis io_disjoint1 : starts_with inp outp = false.
  Hypothesis io_disjoint2 : starts_with outp inp = false.
  Hypothesis hash_faithful : forall c1 c2, hash c1 = hash c2 ->
                                           forall q t f, xform c1 q t f = xform c2 q t f.
  Hypothesis xform_frame : forall c q t f f',
      fst (xform c q t f) <> None ->
      (forall d, In d (snd (xform c q t f)) -> fs_get f' d = fs_get f d) ->
      xform c q t f' = xform c q t f.
  Hypothesis deps_outside : forall c q t f d,
      fst (xform c q t f) <> None -> In d (snd (xform c q t f)) -> starts_with outp d = false.

  Notation out_of := (out_of inp outp).
  Notation is_source := (is_source inp).

  Variable f0 : fs.
  Variable E : list path.
  Hypothesis E_nonest : forall a b, In a E -> In b E -> starts_with a b = true -> a = b.
  (** nothing foreign sits at or under the output path of a source *)
  Hypothesis E_foreign : forall q p, In q E -> is_source q = true -> fs_get f0 p <> None ->
                                     starts_with (out_of q) p = false.

  Notation wf := (wf inp outp E).
  Notation inv := (inv cfg hash xform inp outp f0 E).
  Notation good := (good cfg xform).
  Notation good_frame := (good_frame cfg xform xform_frame).
  Notation head_item := (head_item cfg xform).
  Notation head_fs := (head_fs cfg xform).
  Notation sweep := (sweep cfg xform).

  Lemma good_same_xform c c' f it :
    (forall q t g, xform c q t g = xform c' q t g) -> good c f it -> good c' f it.
  Proof. intros H [txt [o [H1 [H2 [H3 H4]]]]]. exists txt, o. rewrite <- H. auto. Qed.

  (** the stored hash matters only through the finished items: [c] must transform like the
      configuration they were made with *)
  Lemma inv_rehash c0 c d u f cf t :
    inv c0 d u (mkWorld f cf t) ->
    (forall i it, get_slot (slots t) i = Some it -> is_done (i_st it) = true ->
                  forall q tx g, xform c0 q tx g = xform c q tx g) ->
    inv c d u (mkWorld f cf (set_hash t (Some (hash c)))).
  Proof.
    intros [I1 I2 I3 I4 I5 I6 I7 I8 I9] Hx.
    constructor; cbn [w_tree w_fs set_hash slots rmf last_hash] in *; try assumption.
    - eapply wf_same_fields; [..|exact I1]; reflexivity.
    - reflexivity.
    - intros i it Hi Hd Hc. eapply good_same_xform; [eapply Hx; eassumption|]. eapply I3; eassumption.
  Qed.

  (** a changed hash restarts every item; an unchanged one is that of the finished items *)
  Lemma inv_after_hash c0 d u w :
    inv c0 d u w ->
    let c := w_cfg w in
    let t := w_tree w in
    inv c d u (mkWorld (w_fs w) c
                       (set_hash (if cfg_changed t (hash c) then reset t else t) (Some (hash c)))).
  Proof.
    intros I c t. destruct (cfg_changed t (hash c)) eqn:Ec; apply (inv_rehash c0).
    - apply inv_restart; [exact I|apply wf_reset, (inv_wf I)|reflexivity|reflexivity|apply restarted_reset].
    - intros i it Hi Hd. apply reset_slot in Hi as [x [_ ->]]. discriminate.
    - destruct w. exact I.
    - intros i it Hi Hd. apply hash_faithful. pose proof (inv_hash I _ _ Hi Hd) as Hh. fold t in Hh.
      unfold cfg_changed in Ec. rewrite Hh in Ec. apply negb_false_iff, N.eqb_eq in Ec. exact Ec.
  Qed.

  Definition leaf (f : fs) (p : path) : Prop :=
    forall r, fs_get f r <> None -> starts_with p r = true -> r = p.

  Lemma fold_remove_spec l : forall f,
    (forall p, In p l -> leaf f p) ->
    forall q, fs_get (fold_left fs_remove l f) q = if mem_path q l then None else fs_get f q.
  Proof.
    induction l as [|p l IH]; intros f Hl q; cbn [fold_left mem_path]; [reflexivity|].
    assert (Hp : leaf f p) by (apply Hl; left; reflexivity).
    rewrite IH.
    - rewrite (fs_get_remove_leaf f p q Hp). rewrite (path_eqb_sym q p).
      destruct (path_eqb p q); cbn [orb]; [destruct (mem_path q l); reflexivity|reflexivity].
    - intros p' Hp' r Hr Hsw. apply (Hl p'); [right; exact Hp'| |exact Hsw].
      rewrite (fs_get_remove_leaf f p r Hp) in Hr. destruct (path_eqb p r); [congruence|exact Hr].
  Qed.

  Lemma out_not_initial q : In q E -> is_source q = true -> fs_get f0 (out_of q) = None.
  Proof.
    intros HE Hs. destruct (fs_get f0 (out_of q)) eqn:Ef; [|reflexivity].
    assert (Hc : starts_with (out_of q) (out_of q) = false) by (apply E_foreign; congruence).
    rewrite starts_with_refl in Hc. discriminate.
  Qed.

  (** a queued output has nothing below it: what is under the output folder is an output of
      a source, and sources are not nested *)
  Lemma rmf_leaf c0 d u w p :
    inv c0 d u w -> In p (rmf (w_tree w)) -> leaf (w_fs w) p.
  Proof.
    intros I Hp r Hr Hsw. pose proof (inv_wf I) as W.
    destruct (wf_rmf W p Hp) as [q [HqE [Hqs ->]]].
    assert (Hro : starts_with outp r = true).
    { eapply starts_with_trans; [|exact Hsw]. apply rebase_starts. }
    assert (Hsrc : forall q', In q' E -> is_source q' = true -> r = out_of q' -> r = out_of q).
    { intros q' HE' Hs' ->. f_equal. symmetry. apply E_nonest; [exact HqE|exact HE'|].
      unfold Worker.is_source in Hqs, Hs'. apply andb_true_iff in Hqs as [Hqs _]. apply andb_true_iff in Hs' as [Hs' _].
      eapply rebase_prefix; eassumption. }
    destruct (inv_out I r Hro) as [[i [it [Hi Ho]]]|[Hrm|Hf]].
    - destruct (wf_item W _ _ Hi) as [Hout [Hs HE']]. eapply Hsrc; [exact HE'|exact Hs|congruence].
    - destruct (wf_rmf W r Hrm) as [q' [HE' [Hs' ->]]]. eapply Hsrc; [exact HE'|exact Hs'|reflexivity].
    - exfalso. rewrite Hf in Hr. pose proof (E_foreign q r HqE Hqs Hr) as Hc. congruence.
  Qed.

  Lemma inv_after_clean c d u w :
    inv c d u w ->
    let t2 := fst (clean_files (w_tree w) (w_fs w)) in
    let f2 := snd (clean_files (w_tree w) (w_fs w)) in
    inv c d u (mkWorld f2 (w_cfg w) t2) /\ rmf t2 = [] /\ slots t2 = slots (w_tree w) /\
    last_hash t2 = last_hash (w_tree w).
  Proof.
    intros I. pose proof (inv_wf I) as W. set (t := w_tree w) in *. set (f := w_fs w) in *.
    cbn [clean_files fst snd]. cbv zeta.
    assert (Hget : forall q, fs_get (fold_left fs_remove (rmf t) f) q =
                             if mem_path q (rmf t) then None else fs_get f q).
    { apply fold_remove_spec. intros p Hp. eapply rmf_leaf; eassumption. }
    assert (Hkeep : forall q, starts_with outp q = false -> fs_get (fold_left fs_remove (rmf t) f) q = fs_get f q).
    { intros q Hq. rewrite Hget. destruct (mem_path q (rmf t)) eqn:Em; [|reflexivity].
      apply mem_path_In, (wf_rmf W) in Em as [q' [_ [_ ->]]]. rewrite rebase_starts in Hq. discriminate. }
    split; [|repeat split].
    constructor; cbn [w_tree w_fs set_rmf slots ext free rmf last_hash].
    - destruct W as [W1 W2 W3 W4 W5 W6 W7 W8 W9].
      constructor; cbn [set_rmf slots ext free rmf]; try assumption.
      + intros p [].
      + intros i it _ _ [].
    - apply (inv_hash I).
    - intros i it Hi Hd Hc. pose proof (inv_good I _ _ Hi Hd Hc) as G.
      apply (good_frame c f); [exact G| | |].
      + apply Hkeep. eapply item_src_not_out; eassumption.
      + intros x Hx. apply Hkeep. eapply good_deps_outside; eassumption.
      + rewrite Hget. destruct (mem_path (i_out it) (rmf t)) eqn:Em; [|reflexivity].
        apply mem_path_In in Em. destruct (wf_done_rmf W _ _ Hi Hd Em).
    - intros i it Hi Hc. rewrite Hkeep; [eapply (inv_exists I); eassumption|].
      eapply item_src_not_out; eassumption.
    - intros q Hq Hex Hn. apply (inv_hasitem I q Hq); [|exact Hn].
      rewrite <- Hkeep; [exact Hex|]. eapply source_not_out; eassumption.
    - (* a removed output was not there initially *)
      intros p Hp. rewrite Hget. destruct (mem_path p (rmf t)) eqn:Em.
      + right. right. apply mem_path_In, (wf_rmf W) in Em as [q [HqE [Hqs ->]]].
        symmetry. apply out_not_initial; assumption.
      + destruct (inv_out I p Hp) as [H|[Hr|Hf]]; [left; exact H| |right; right; exact Hf].
        apply mem_path_In in Hr. fold t in Hr. congruence.
    - intros p Hp. rewrite Hkeep by exact Hp. apply (inv_user I p Hp).
    - apply (inv_ufs_E I).
    - apply (inv_ufs_out I).
  Qed.

  Lemma advance_spec c it f txt :
    i_deps it = [] -> fs_get f (i_src it) = Some txt ->
    fst (xform c (i_src it) txt f) <> None ->
    starts_with outp (i_src it) = false -> starts_with outp (i_out it) = true ->
    good c (snd (advance cfg xform c it f)) (fst (advance cfg xform c it f)) /\
    i_src (fst (advance cfg xform c it f)) = i_src it /\
    i_out (fst (advance cfg xform c it f)) = i_out it /\
    (forall p, p <> i_out it -> fs_get (snd (advance cfg xform c it f)) p = fs_get f p).
  Proof.
    intros Hd Hs Hok Hso Hoo. unfold advance. rewrite Hs.
    assert (Hne : i_src it <> i_out it) by (intros Heq; rewrite Heq in Hso; congruence).
    destruct (xform c (i_src it) txt f) as [r ds] eqn:Ex. destruct r as [o|]; cbn [fst snd] in *; [|congruence].
    (* the transformation does not read the output it writes *)
    assert (Hx : xform c (i_src it) txt (fs_write f (i_out it) o) = xform c (i_src it) txt f).
    { apply xform_frame; [rewrite Ex; discriminate|]. intros x Hx. rewrite fs_get_write.
      destruct (path_eqb (i_out it) x) eqn:Ep; [|reflexivity]. apply path_eqb_eq in Ep. subst x.
      apply deps_outside in Hx; [congruence|rewrite Ex; discriminate]. }
    split; [|repeat split].
    - exists txt, o. cbn [i_src i_out i_st i_deps]. rewrite fs_get_write.
      assert (Hp : path_eqb (i_out it) (i_src it) = false) by (apply path_eqb_neq; congruence).
      rewrite Hp, Hx, Ex. cbn [fst snd]. split; [exact Hs|]. split; [reflexivity|]. split.
      + intros x. rewrite Hd, app_nil_r. tauto.
      + split; [reflexivity|]. rewrite fs_get_write, path_eqb_refl. reflexivity.
    - intros p Hp. rewrite fs_get_write. destruct (path_eqb (i_out it) p) eqn:Ep; [|reflexivity].
      apply path_eqb_eq in Ep. congruence.
  Qed.

  (** what the pass needs of an item; the last clause speaks of every [g] because, by the time
      the pass reaches the item, it has written under the output folder *)
  Definition ready (c : cfg) (f : fs) (it : item) : Prop :=
    i_out it = out_of (i_src it) /\ is_source (i_src it) = true /\
    (i_st it = NotStarted -> i_deps it = []) /\
    fs_get f (i_src it) <> None /\
    (is_done (i_st it) = true -> good c f it) /\
    (forall txt g, fs_get f (i_src it) = Some txt ->
                   (forall p, starts_with outp p = false -> fs_get g p = fs_get f p) ->
                   fst (xform c (i_src it) txt g) <> None).

  Lemma ready_frame c f f' it :
    ready c f it ->
    (forall p, starts_with outp p = false -> fs_get f' p = fs_get f p) ->
    fs_get f' (i_out it) = fs_get f (i_out it) ->
    ready c f' it.
  Proof.
    intros [Ho [Hs [Hn [Hex [Hg Hx]]]]] Hout Hsame.
    assert (Hso : starts_with outp (i_src it) = false) by (eapply source_not_out; eassumption).
    split; [exact Ho|]. split; [exact Hs|]. split; [exact Hn|]. split; [rewrite Hout; assumption|]. split.
    - intros Hd. apply (good_frame c f); [auto| | |exact Hsame].
      + apply Hout, Hso.
      + intros x Hin. apply Hout. eapply good_deps_outside; eauto.
    - intros txt g Htxt Hgf. apply Hx; [rewrite <- Hout; assumption|].
      intros p Hp. rewrite Hgf, Hout; auto.
  Qed.

  Lemma head_spec c it f :
    ready c f it ->
    good c (head_fs c it f) (head_item c it f) /\
    i_src (head_item c it f) = i_src it /\ i_out (head_item c it f) = i_out it /\
    (forall p, p <> i_out it -> fs_get (head_fs c it f) p = fs_get f p) /\
    (is_done (i_st it) = true -> head_item c it f = it).
  Proof.
    intros [Hout [Hsrc [Hns [Hex [Hgood Hok]]]]]. unfold WorkerLoop.head_item, WorkerLoop.head_fs.
    destruct (is_done (i_st it)) eqn:Ed.
    - repeat split; auto.
    - assert (Hst : i_st it = NotStarted) by (destruct (i_st it); [reflexivity|discriminate|discriminate]).
      destruct (fs_get f (i_src it)) as [txt|] eqn:Es; [|congruence].
      assert (Hso : starts_with outp (i_src it) = false) by (eapply source_not_out; eassumption).
      assert (Hoo : starts_with outp (i_out it) = true) by (rewrite Hout; apply rebase_starts).
      destruct (advance_spec c it f txt (Hns Hst) Es (Hok txt f eq_refl (fun p _ => eq_refl)) Hso Hoo)
        as [G [H1 [H2 H3]]].
      repeat split; auto. discriminate.
  Qed.

  Definition swept (c : cfg) (f' : fs) (o o2 : option item) : Prop :=
    match o with
    | None => o2 = None
    | Some it => exists it2, o2 = Some it2 /\ i_src it2 = i_src it /\ i_out it2 = i_out it /\
                             is_done (i_st it2) = true /\ good c f' it2 /\
                             (is_done (i_st it) = true -> it2 = it)
    end.

  Lemma swept_back c f' o o2 it2 :
    swept c f' o o2 -> o2 = Some it2 ->
    exists it, o = Some it /\ i_src it2 = i_src it /\ i_out it2 = i_out it /\
               is_done (i_st it2) = true /\ good c f' it2 /\ (is_done (i_st it) = true -> it2 = it).
  Proof.
    destruct o as [it|]; cbn [swept]; [|congruence].
    intros [x [-> H]] [= ->]. eauto.
  Qed.

  Lemma sweep_spec c : forall s i e f done s2 e2 f' d2,
    sweep c s i e f done = (s2, e2, f', d2) ->
    (forall k it, nth k s None = Some it -> ready c f it) ->
    (forall k k' a b, nth k s None = Some a -> nth k' s None = Some b -> i_src a = i_src b -> k = k') ->
    (forall k, swept c f' (nth k s None) (nth k s2 None)) /\
    (forall p, starts_with outp p = false -> fs_get f' p = fs_get f p) /\
    (forall p, (forall k it, nth k s None = Some it -> i_out it <> p) -> fs_get f' p = fs_get f p).
  Proof.
    induction s as [|o s IH]; intros i e f done s2 e2 f' d2 Hsw P1 P2.
    - cbn [Worker.sweep] in Hsw. injection Hsw as <- _ <- _.
      split; [intros [|k]; reflexivity|]. auto.
    - apply sweep_cons_inv in Hsw as [s' [-> Et]].
      set (f1 := match o with Some it => head_fs c it f | None => f end) in *.
      (* the head only writes its own output, which is not the output of a later item *)
      assert (Hf1 : forall p, (forall it, o = Some it -> i_out it <> p) -> fs_get f1 p = fs_get f p).
      { destruct o as [it|]; [|reflexivity]. intros p Hp.
        apply (head_spec c it f (P1 0%nat it eq_refl)), not_eq_sym, Hp. reflexivity. }
      assert (Hother : forall it k itk, o = Some it -> nth k s None = Some itk -> i_out itk <> i_out it).
      { intros it k itk -> Hk Heq.
        destruct (P1 0%nat it eq_refl) as [Hout [Hsrc _]], (P1 (S k) itk Hk) as [Houtk [Hsrck _]].
        rewrite Hout, Houtk in Heq. apply out_of_inj in Heq; try assumption.
        discriminate (P2 (S k) 0%nat itk it Hk eq_refl Heq). }
      assert (Hf1out : forall p, starts_with outp p = false -> fs_get f1 p = fs_get f p).
      { intros p Hp. apply Hf1. intros it -> <-. destruct (P1 0%nat it eq_refl) as [Hout _].
        rewrite Hout, rebase_starts in Hp. discriminate. }
      destruct (IH _ _ _ _ _ _ _ _ Et) as [C2 [C3 C4]].
      { intros k itk Hk. apply (ready_frame c f); [apply (P1 (S k) itk Hk)|exact Hf1out|].
        apply Hf1. intros it Ho. apply not_eq_sym. eapply Hother; eassumption. }
      { intros k k' a b Ha Hb Hab. specialize (P2 (S k) (S k') a b Ha Hb Hab). lia. }
      split; [|split].
      + intros [|k]; [|apply C2]. cbn [nth]. destruct o as [it|]; [|reflexivity].
        destruct (head_spec c it f (P1 0%nat it eq_refl)) as [G1 [Hs1 [Ho1 [_ Hsame1]]]].
        exists (head_item c it f). repeat split; try assumption; [apply head_item_done|].
        (* the rest of the pass leaves the head item good *)
        apply (good_frame c f1); [exact G1| | |].
        * apply C3. rewrite Hs1. eapply source_not_out; try eassumption. apply (P1 0%nat it eq_refl).
        * intros x Hx. apply C3. eapply good_deps_outside; eassumption.
        * apply C4. intros k itk Hk Heq. rewrite Ho1 in Heq. eapply Hother; eauto.
      + intros p Hp. rewrite C3, Hf1out; auto.
      + intros p Hp. rewrite C4.
        * apply Hf1. intros it ->. apply (Hp 0%nat it eq_refl).
        * intros k itk Hk. apply (Hp (S k) itk Hk).
  Qed.

  Lemma sweep_wf c t f s2 e2 f' d2 :
    wf t -> rmf t = [] ->
    sweep c (slots t) 0 (ext t) f 0 = (s2, e2, f', d2) ->
    (forall k, swept c f' (get_slot (slots t) k) (get_slot s2 k)) ->
    wf (set_ext (set_slots t s2) e2).
  Proof.
    intros W Hrm Hsw C2. destruct (sweep_shape cfg xform c _ _ _ _ _ _ _ _ _ Hsw) as [Hlen Hreg].
    pose proof (fun k it2 => swept_back c f' _ _ it2 (C2 k)) as Hback.
    constructor; cbn [set_ext set_slots slots ext free rmf].
    - intros i j a b Ha Hb Hab. destruct (Hback _ _ Ha) as [a0 [Ha0 [Hsa _]]], (Hback _ _ Hb) as [b0 [Hb0 [Hsb _]]].
      apply (wf_nodup W i j a0 b0 Ha0 Hb0). congruence.
    - intros p i Hi. apply Hreg in Hi as [Hi|[k [it2 [Hk [-> Hp]]]]]; [|eauto].
      (* an item registered before the pass was finished and is unchanged *)
      destruct (wf_ext W p i Hi) as [it [Hs Hp]]. specialize (C2 i). rewrite Hs in C2.
      destruct C2 as [it2 [H2 [_ [_ [_ [_ Hsame]]]]]]. exists it2. split; [exact H2|].
      destruct (is_done (i_st it)) eqn:Ed; [rewrite (Hsame eq_refl); exact Hp|].
      assert (Hst : i_st it = NotStarted) by (destruct (i_st it); [reflexivity|discriminate|discriminate]).
      rewrite (wf_notstarted W i it Hs Hst) in Hp. contradiction.
    - intros i Hi. destruct (wf_free W i Hi) as [H1 H2]. specialize (C2 i). rewrite H1 in C2.
      split; [exact C2|]. rewrite Hlen. exact H2.
    - apply (wf_free_nodup W).
    - intros i it2 Hi. destruct (Hback _ _ Hi) as [it [Hs [Hsrc [Hout _]]]].
      rewrite Hsrc, Hout. apply (wf_item W i it Hs).
    - intros i it2 Hi Hst. destruct (Hback _ _ Hi) as [it [_ [_ [_ [Hd _]]]]]. rewrite Hst in Hd. discriminate.
    - intros i it2 dep Hi Hdep.
      apply (proj2 (sweep_links_dependencies cfg xform c _ _ _ _ _ _ _ _ _ Hsw) i it2 dep Hi Hdep).
    - rewrite Hrm. intros p [].
    - rewrite Hrm. intros i it2 _ _ [].
  Qed.

  Lemma inv_ready c d u w :
    inv c d u w -> dC d = [] -> dR d = [] -> healthy cfg xform inp c u = true ->
    forall k it, get_slot (slots (w_tree w)) k = Some it -> ready c (w_fs w) it.
  Proof.
    intros I HdC HdR Hhealthy k it Hk. pose proof (inv_wf I) as W.
    destruct (wf_item W k it Hk) as [H1 [H2 _]].
    assert (Hso : starts_with outp (i_src it) = false) by (eapply source_not_out; eassumption).
    split; [exact H1|]. split; [exact H2|]. split; [apply (wf_notstarted W k it Hk)|]. split; [|split].
    - apply (inv_exists I k it Hk). rewrite HdR. reflexivity.
    - intros Hd. apply (inv_good I k it Hk Hd). apply clean_item_nil; assumption.
    - (* every pending transformation succeeds: the project is healthy *)
      intros txt g Htxt Hg.
      assert (Hu : fs_get u (i_src it) = Some txt) by (rewrite <- (inv_user I); assumption).
      assert (Hin : In (i_src it) (fs_collect u inp)) by (apply fs_collect_source; split; [congruence|exact H2]).
      unfold healthy in Hhealthy. rewrite forallb_forall in Hhealthy. specialize (Hhealthy _ Hin).
      rewrite Hu in Hhealthy.
      destruct (fst (xform c (i_src it) txt u)) as [o|] eqn:Ex; [|discriminate].
      assert (Hx : xform c (i_src it) txt g = xform c (i_src it) txt u).
      { apply xform_frame; [congruence|]. intros x Hx.
        assert (Hxo : starts_with outp x = false) by (eapply deps_outside; [|exact Hx]; congruence).
        rewrite Hg by exact Hxo. apply (inv_user I x Hxo). }
      rewrite Hx, Ex. discriminate.
  Qed.

  Lemma inv_after_pass c d u w s3 e3 f3 d3 :
    inv c d u w -> dC d = [] -> dR d = [] -> healthy cfg xform inp c u = true ->
    rmf (w_tree w) = [] -> last_hash (w_tree w) = Some (hash c) ->
    sweep c (slots (w_tree w)) 0 (ext (w_tree w)) (w_fs w) 0 = (s3, e3, f3, d3) ->
    inv c d u (mkWorld f3 (w_cfg w) (set_ext (set_slots (w_tree w) s3) e3)) /\
    forall j it, get_slot s3 j = Some it -> is_done (i_st it) = true.
  Proof.
    intros I HdC HdR Hhealthy Hrm Hh Esw. pose proof (inv_wf I) as W. set (t := w_tree w) in *.
    destruct (sweep_spec c (slots t) 0%nat (ext t) (w_fs w) 0%nat s3 e3 f3 d3 Esw) as [C2 [C3 C4]].
    { apply (inv_ready c d u w); assumption. }
    { intros k k' a b Ha Hb Hab. apply (wf_nodup W k k' a b); assumption. }
    pose proof (fun k it3 => swept_back c f3 _ _ it3 (C2 k)) as Hback.
    assert (Hfwd : forall k it, get_slot (slots t) k = Some it ->
               exists it3, get_slot s3 k = Some it3 /\ i_src it3 = i_src it /\ i_out it3 = i_out it).
    { intros k it Hk. specialize (C2 k). unfold get_slot in *. rewrite Hk in C2.
      destruct C2 as [it3 [H1 [H2 [H3 _]]]]. eauto. }
    split; [|intros j it3 Hj; destruct (Hback _ _ Hj) as [it [_ [_ [_ [Hd _]]]]]; exact Hd].
    constructor; cbn [w_tree w_fs set_ext set_slots slots ext free rmf last_hash].
    - apply (sweep_wf c t (w_fs w) s3 e3 f3 d3); assumption.
    - intros i it3 Hi Hd. exact Hh.
    - intros i it3 Hi Hd _. destruct (Hback _ _ Hi) as [it [_ [_ [_ [_ [G _]]]]]]. exact G.
    - intros i it3 Hi Hc. destruct (Hback _ _ Hi) as [it [Hs [Hsrc _]]]. rewrite Hsrc.
      rewrite C3; [apply (inv_exists I i it Hs); rewrite HdR; reflexivity|].
      eapply item_src_not_out; eassumption.
    - intros q Hq Hex Hn.
      assert (Hex2 : fs_get (w_fs w) q <> None).
      { rewrite <- C3; [exact Hex|]. eapply source_not_out; eassumption. }
      destruct (node_of_ne_none _ _ (inv_hasitem I q Hq Hex2 Hn)) as [i [it [Hi Hs]]].
      destruct (Hfwd _ _ Hi) as [it3 [H1 [H2 _]]].
      eapply node_of_exists with (i := i); [exact H1|congruence].
    - (* an output path that no item owns is not written by the pass *)
      intros p Hp. destruct (item_out_dec t p) as [[i [it [Hi Ho]]]|Hno].
      + destruct (Hfwd _ _ Hi) as [it3 [H1 [_ H3]]]. left. exists i, it3. split; [exact H1|congruence].
      + right. right. rewrite C4 by exact Hno.
        destruct (inv_out I p Hp) as [[i [it [Hi Ho]]]|[Hr|Hf]]; [|fold t in Hr; rewrite Hrm in Hr; destruct Hr|exact Hf].
        destruct (Hno i it Hi Ho).
    - intros p Hp. rewrite C3 by exact Hp. apply (inv_user I p Hp).
    - apply (inv_ufs_E I).
    - apply (inv_ufs_out I).
  Qed.

  (** [process]: compare the configuration, clean, one pass, clean (nothing is queued then) *)
  Lemma step_Process c0 d u w :
    inv c0 d u w -> is_clean d = true ->
    healthy cfg xform inp (w_cfg w) u = true ->
    exists t' f',
      process cfg hash xform (w_cfg w) (w_tree w) (w_fs w) = Some (t', f') /\
      inv (w_cfg w) d u (mkWorld f' (w_cfg w) t') /\ rmf t' = [] /\
      (forall j it, get_slot (slots t') j = Some it -> is_done (i_st it) = true).
  Proof.
    intros I Hclean Hhealthy. destruct (clean_dirty d Hclean) as [HdC [HdN HdR]].
    set (c := w_cfg w) in *. set (t := w_tree w). set (f := w_fs w).
    pose proof (inv_after_hash c0 d u w I) as I1. cbv zeta in I1. fold c t f in I1.
    set (t1 := set_hash (if cfg_changed t (hash c) then reset t else t) (Some (hash c))) in *.
    pose proof (inv_after_clean c d u (mkWorld f c t1) I1) as I2. cbv zeta in I2. cbn [w_tree w_fs w_cfg] in I2.
    destruct I2 as [I2 [Hrm2 [Hsl2 Hh2]]].
    unfold process. fold c t f. cbv zeta. fold t1.
    destruct (clean_files t1 f) as [t2 f2] eqn:Ecl. cbn [fst snd] in *.
    destruct (Nat.eqb (count_pending (slots t1)) 0) eqn:Etot.
    - exists t2, f2. split; [reflexivity|]. split; [exact I2|]. split; [exact Hrm2|].
      apply Nat.eqb_eq in Etot. rewrite Hsl2. apply count_pending_zero. exact Etot.
    - (* one pass of the loop finishes everything *)
      cbn [work_loop].
      destruct (sweep c (slots t2) 0 (ext t2) f2 0) as [[[s3 e3] f3] d3] eqn:Esw.
      destruct (sweep_measure cfg xform c _ _ _ _ _ _ _ _ _ Esw) as [Hd3 _].
      rewrite Hd3, Hsl2, Nat.eqb_refl.
      destruct (inv_after_pass c d u (mkWorld f2 c t2) s3 e3 f3 d3 I2 HdC HdR Hhealthy Hrm2 Hh2 Esw) as [I3 Hdone].
      cbn [w_tree w_cfg] in I3. set (t3 := set_ext (set_slots t2 s3) e3) in *.
      unfold clean_files. change (rmf t3) with (rmf t2). rewrite Hrm2. cbn [fold_left].
      exists (set_rmf t3 []), f3. split; [reflexivity|]. split; [|split; [reflexivity|exact Hdone]].
      apply inv_same_fields with (cf := c) (t := t3); try reflexivity; [symmetry; exact Hrm2|exact I3].
  Qed.
End Process.
