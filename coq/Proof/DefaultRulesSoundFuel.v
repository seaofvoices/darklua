(** C01, rewrites whose local equivalence needs FUEL MONOTONICITY of the reference interpreter
    (a run that succeeds with fuel [n] succeeds with the same result with any fuel [m >= n],
    Proof/LoweringFuel.v): remove_empty_do at any position of a statement list and the whole
    pass [rw_empty_do]; remove_nil_declaration with trailing [nil]s. *)
From Coq Require Import ZArith NArith List Bool String Lia.
From DL Require Import Lib.Bytes Lib.F64 Lua.Syntax Lua.Sem Model.Evaluator Model.DefaultRules
  Proof.SemFacts Proof.DefaultRulesSem Proof.LoweringFuel Proof.DefaultRulesSoundBlock Proof.DefaultRulesSoundExpr.
Import ListNotations.
Open Scope N_scope.

Lemma empty_do_is st : empty_do st = true -> st = SDo (Block [] None).
Proof.
  destruct st; try discriminate. destruct b as [[|x ss] [l|]]; try discriminate. reflexivity.
Qed.

(** dropping from a statement list the statements that complete normally and change nothing:
    a successful run stays the same run (same signal, same store), with the same fuel; what the
    dropped statements consumed is made up for by monotonicity *)
Theorem filter_noop_sound d (keep : stmt -> bool) :
  (forall st n rho va s r s', keep st = false ->
     exec_stmt d n rho va st s = Ok r s' -> r = (rho, SigNone) /\ s' = s) ->
  forall ss n rho va last s r s',
  exec_stmts d n rho va ss last s = Ok r s' -> exec_stmts d n rho va (filter keep ss) last s = Ok r s'.
Proof.
  intros Hnoop. induction ss as [|st rest IH]; intros n rho va last s r s' H; [exact H|].
  fuel_S n H. cbn [filter].
  rewrite exec_stmts_S_cons in H. apply bind_ok in H as ([rho1 sg1] & s1 & H1 & H2).
  destruct (keep st) eqn:Ek.
  - rewrite exec_stmts_S_cons. unfold bind. rewrite H1. cbn [stmts_cont] in *.
    destruct sg1; try exact H2. now apply IH.
  - apply (Hnoop _ _ _ _ _ _ _ Ek) in H1 as [E ->]. inversion E; subst; clear E.
    cbn [stmts_cont] in H2. apply IH in H2.
    eapply exec_stmts_mono; [|exact H2]. lia.
Qed.

Theorem empty_do_filter_sound_all : forall d ss n rho va last s r s',
  exec_stmts d n rho va ss last s = Ok r s' ->
  exec_stmts d n rho va (filter (fun st => negb (empty_do st)) ss) last s = Ok r s'.
Proof.
  intros d. apply filter_noop_sound. intros st n rho va s r s' Ee H.
  apply negb_false_iff, empty_do_is in Ee. subst st. exact (empty_do_stmt_sound d _ _ _ _ _ _ H).
Qed.

(** one pass of the rule over a block ([EmptyDoFilter::process_block]) *)
Theorem empty_do_block_sound_all : forall d b n rho va s r s',
  exec_block d n rho va b s = Ok r s' -> exec_block d n rho va (rw_empty_do b) s = Ok r s'.
Proof.
  intros d [ss last] n rho va s r s' H. fuel_S n H.
  cbn [rw_empty_do]. rewrite exec_block_S in H. rewrite exec_block_S. now apply empty_do_filter_sound_all.
Qed.

(** remove_nil_declaration, trailing [nil]s: [local a, b, c = e, nil, nil] and
    [local a, b, c = e] (as many values as variables, every [nil] behind the other values, so
    the variables keep their order and the same cells are bound to the same names) *)

Lemma map_last_cons {A} (f : A -> A) x y l : map_last f (x :: y :: l) = x :: map_last f (y :: l).
Proof. reflexivity. Qed.
Lemma map_last_nonempty {A} (f : A -> A) y l : exists z l', map_last f (y :: l) = z :: l'.
Proof. destruct l; cbn [map_last]; eauto. Qed.

Section FuelNil.
Variable d : dialect.

Lemma eval_list_repeat_nil k n rho va s vs s' :
  eval_list d n rho va (repeat ENil k) s = Ok vs s' -> vs = repeat VNil k /\ s' = s.
Proof. apply eval_list_nils. Qed.

Lemma eval_list_trailing : forall es k n rho va s vs s', (1 <= k)%nat ->
  eval_list d n rho va (es ++ repeat ENil k) s = Ok vs s' ->
  exists n' ws, eval_list d n' rho va (map_last paren_if_multi es) s = Ok ws s' /\ vs = ws ++ repeat VNil k.
Proof.
  induction es as [|e es IH]; intros k n rho va s vs s' Hk H.
  - cbn [app] in H. apply eval_list_nils in H as [-> ->]. exists 1%nat, []. split; reflexivity.
  - fuel_S n H. destruct es as [|e2 rest].
    + destruct k as [|k]; [lia|]. cbn [app repeat] in H. rewrite eval_list_S_cons in H.
      apply bind_ok in H as (v & s1 & Hv & H). apply bind_ok in H as (ws & s2 & Hw & H). inv_ok H. subst.
      change (ENil :: repeat ENil k) with (repeat ENil (S k)) in Hw. apply eval_list_nils in Hw as [-> ->].
      destruct (ret1_paren_if_multi d e n rho va s [v] s1 (bind_ok_intro _ _ _ _ _ _ Hv eq_refl)) as [n' Hn'].
      exists (S n'), [v]. split; [cbn [map_last]; rewrite eval_list_S_one; exact Hn'|reflexivity].
    + change ((e :: e2 :: rest) ++ repeat ENil k) with (e :: e2 :: (rest ++ repeat ENil k)) in H.
      rewrite eval_list_S_cons in H.
      apply bind_ok in H as (v & s1 & Hv & H). apply bind_ok in H as (ws & s2 & Hw & H). inv_ok H. subst.
      change (e2 :: rest ++ repeat ENil k) with ((e2 :: rest) ++ repeat ENil k) in Hw.
      destruct (IH _ _ _ _ _ _ _ Hk Hw) as (n1 & ws' & Hn1 & ->).
      rewrite map_last_cons. destruct (map_last_nonempty paren_if_multi e2 rest) as (z & l' & Ez).
      rewrite Ez in *. exists (S (Nat.max n n1)), (v :: ws'). split; [|reflexivity].
      rewrite eval_list_S_cons. unfold bind.
      rewrite (eval1_mono _ _ (Nat.max n n1) _ _ _ _ _ _ (Nat.le_max_l _ _) Hv).
      rewrite (eval_list_mono _ _ (Nat.max n n1) _ _ _ _ _ _ (Nat.le_max_r _ _) Hn1). reflexivity.
Qed.

End FuelNil.

Theorem nil_decl_trailing_sound_all : forall d xs es k n rho va s r s',
  (1 <= k)%nat -> List.length xs = (List.length es + k)%nat ->
  forallb (fun e => negb (is_nil e)) es = true -> names_distinct (map param_name xs) = true ->
  exec_stmt d n rho va (SLocal false xs (es ++ repeat ENil k)) s = Ok r s' ->
  exists n', exec_stmt d n' rho va (rw_nil_declaration (SLocal false xs (es ++ repeat ENil k))) s = Ok r s'.
Proof.
  intros d xs es k n rho va s r s' Hk Hl Hn Hd H.
  rewrite (rw_nil_declaration_trailing _ _ _ Hk Hl Hn Hd).
  fuel_S n H. rewrite exec_stmt_S_local in H.
  apply bind_ok in H as (vs & s1 & Hv & H).
  destruct (eval_list_trailing _ _ _ _ _ _ _ _ _ Hk Hv) as (n' & ws & Hn' & ->).
  exists (S n'). rewrite exec_stmt_S_local. unfold bind at 1. rewrite Hn'.
  unfold bind in *. rewrite local_go_padding in H. exact H.
Qed.
