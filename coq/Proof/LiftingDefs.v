(** C01, LIFTING of node-level rewrites to whole programs - definitions.

    A rule of Model/DefaultRules.v rewrites nodes everywhere in a program; closures created at
    run time then hold REWRITTEN bodies, so the original and the rewritten program run in
    different stores.  This file defines
    - the "rewrite at the root, then in the children" closure [crel_*] of base relations
      [Re] (expressions in value position), [Rv] (expressions in assignment-target position,
      i.e. where [eval_target] runs), [Rt] (the entry list of a
      table constructor), [Rs] (statements), [Rb] (blocks): [crel_expr e e'] iff [e'] is obtained
      from [e] by AT MOST ONE base step at the root ([Re e e1]) followed by [cong_expr e1 e'] -
      same head constructor, children related by [crel_*] again.  This is the shape of darklua's
      pre-order traversal ([DefaultRules.visit]: the hook sees the node, then the children of
      what it left are visited).  Type annotations, generics and attributes are unconstrained
      (the interpreter never reads them); function bodies are compared through the EFFECTIVE
      parameter names (so [function a:m(x)] and [function a.m(self, x)] are congruent);
    - the store relation [lstore_rel B]: everything equal except the closure records, which
      are pairwise related by [lclos_rel B] (same effective parameter names, same variadic flag,
      same captured environment, bodies related by [B]);
    - the FORWARD result relation [fwd]: whatever the left run yields other than [Fuel], the
      right run yields too (equal values / error / [Unsup] tag) in a related store;
    - [fsimR] as an instance of the relational logic of Proof/ValueSim.v.
    The simulation itself is Proof/LiftingSim.v. *)
From Coq Require Import ZArith NArith List Bool String Lia.
From DL Require Import Lib.Bytes Lib.F64 Lua.Syntax Lua.Sem.
From DL Require Import Proof.LoweringFuel.
From DL Require Import Proof.SemFacts Proof.DefaultRulesSem Proof.RefactorSem Proof.ValueSim.
Import ListNotations.
Open Scope N_scope.

Inductive opt_rel {A} (R : A -> A -> Prop) : option A -> option A -> Prop :=
| opt_rel_none : opt_rel R None None
| opt_rel_some a b : R a b -> opt_rel R (Some a) (Some b).

Definition self_param : param := Param (of_string "self") None.
Definition eff_names (self : bool) (ps : list param) : list name :=
  map param_name (if self then self_param :: ps else ps).
Definition opt_list {A} (o : option A) : list A := match o with Some x => [x] | None => [] end.
Definition is_some {A} (o : option A) : bool := match o with Some _ => true | None => false end.

Section Rel.
Variable Re : expr -> expr -> Prop.
Variable Rv : expr -> expr -> Prop.
Variable Rt : list tentry -> list tentry -> Prop.
Variable Rs : stmt -> stmt -> Prop.
Variable Rb : block -> block -> Prop.

Unset Elimination Schemes.
Inductive crel_expr : expr -> expr -> Prop :=
| cr_e_same e e' : cong_expr e e' -> crel_expr e e'
| cr_e_rw e e1 e' : Re e e1 -> cong_expr e1 e' -> crel_expr e e'

with cong_expr : expr -> expr -> Prop :=
| cg_nil : cong_expr ENil ENil
| cg_true : cong_expr ETrue ETrue
| cg_false : cong_expr EFalse EFalse
| cg_number x : cong_expr (ENumber x) (ENumber x)
| cg_string s : cong_expr (EString s) (EString s)
| cg_interp segs segs' : Forall2 crel_iseg segs segs' -> cong_expr (EInterp segs) (EInterp segs')
| cg_varargs : cong_expr EVarArgs EVarArgs
| cg_ident x : cong_expr (EIdent x) (EIdent x)
| cg_field p p' f : crel_expr p p' -> cong_expr (EField p f) (EField p' f)
| cg_index p p' k k' : crel_expr p p' -> crel_expr k k' -> cong_expr (EIndex p k) (EIndex p' k')
| cg_call p p' m a a' : crel_expr p p' -> crel_args a a' -> cong_expr (ECall p m a) (ECall p' m a')
| cg_function f f' : frel false false f f' -> cong_expr (EFunction f) (EFunction f')
| cg_if bs bs' els els' : Forall2 crel_ebranch bs bs' -> crel_expr els els' ->
                          cong_expr (EIf bs els) (EIf bs' els')
| cg_paren e e' : crel_expr e e' -> cong_expr (EParen e) (EParen e')
| cg_table ens ens' : crel_entries ens ens' -> cong_expr (ETable ens) (ETable ens')
| cg_unary op e e' : crel_expr e e' -> cong_expr (EUnary op e) (EUnary op e')
| cg_binary op l l' r r' : crel_expr l l' -> crel_expr r r' -> cong_expr (EBinary op l r) (EBinary op l' r')
| cg_typecast e e' t t' : crel_expr e e' -> cong_expr (ETypeCast e t) (ETypeCast e' t')
| cg_typeinst p p' ts ts' : crel_expr p p' -> cong_expr (ETypeInst p ts) (ETypeInst p' ts')

with crel_var : expr -> expr -> Prop :=
| cr_v_same e e' : cong_expr e e' -> crel_var e e'
| cr_v_rw e e1 e' : Rv e e1 -> cong_expr e1 e' -> crel_var e e'

with crel_iseg : iseg -> iseg -> Prop :=
| cg_isstr s : crel_iseg (ISStr s) (ISStr s)
| cg_isexpr e e' : crel_expr e e' -> crel_iseg (ISExpr e) (ISExpr e')

with crel_ebranch : ebranch -> ebranch -> Prop :=
| cg_ebranch c c' r r' : crel_expr c c' -> crel_expr r r' -> crel_ebranch (EBranch c r) (EBranch c' r')

with crel_args : args -> args -> Prop :=
| cg_atuple es es' : Forall2 crel_expr es es' -> crel_args (ATuple es) (ATuple es')
| cg_astring s : crel_args (AString s) (AString s)
| cg_atable ens ens' : crel_entries ens ens' -> crel_args (ATable ens) (ATable ens')

with crel_entries : list tentry -> list tentry -> Prop :=
| cr_t_same ens ens' : Forall2 cong_tentry ens ens' -> crel_entries ens ens'
| cr_t_rw ens ens1 ens' : Rt ens ens1 -> Forall2 cong_tentry ens1 ens' -> crel_entries ens ens'

with cong_tentry : tentry -> tentry -> Prop :=
| cg_tfield f v v' : crel_expr v v' -> cong_tentry (TField f v) (TField f v')
| cg_tindex k k' v v' : crel_expr k k' -> crel_expr v v' -> cong_tentry (TIndex k v) (TIndex k' v')
| cg_tvalue v v' : crel_expr v v' -> cong_tentry (TValue v) (TValue v')

(** function bodies; [self]: the closure is created with an implicit [self] parameter *)
with frel : bool -> bool -> fbody -> fbody -> Prop :=
| fr_intro self self' ps ps' v vt vt' rt rt' g g' at_ at_' body body' :
    eff_names self ps = eff_names self' ps' -> crel_block body body' ->
    frel self self' (FBody ps v vt rt g at_ body) (FBody ps' v vt' rt' g' at_' body')

with crel_stmt : stmt -> stmt -> Prop :=
| cr_s_same st st' : cong_stmt st st' -> crel_stmt st st'
| cr_s_rw st st1 st' : Rs st st1 -> cong_stmt st1 st' -> crel_stmt st st'

with cong_stmt : stmt -> stmt -> Prop :=
| cg_assign vars vars' vals vals' : Forall2 crel_var vars vars' -> Forall2 crel_expr vals vals' ->
                                    cong_stmt (SAssign vars vals) (SAssign vars' vals')
| cg_do b b' : crel_block b b' -> cong_stmt (SDo b) (SDo b')
| cg_scall c c' : crel_expr c c' -> cong_stmt (SCall c) (SCall c')
| cg_compound op var var' v v' : crel_var var var' -> crel_expr v v' ->
                                 cong_stmt (SCompound op var v) (SCompound op var' v')
| cg_sfunction base fields fields' m m' f f' :
    fields ++ opt_list m = fields' ++ opt_list m' -> frel (is_some m) (is_some m') f f' ->
    cong_stmt (SFunction base fields m f) (SFunction base fields' m' f')
| cg_genfor vars vars' es es' b b' :
    map param_name vars = map param_name vars' -> Forall2 crel_expr es es' -> crel_block b b' ->
    cong_stmt (SGenericFor vars es b) (SGenericFor vars' es' b')
| cg_sif bs bs' els els' : Forall2 crel_sbranch bs bs' -> opt_rel crel_block els els' ->
                           cong_stmt (SIf bs els) (SIf bs' els')
| cg_local k k' vars vars' vals vals' :
    map param_name vars = map param_name vars' -> Forall2 crel_expr vals vals' ->
    cong_stmt (SLocal k vars vals) (SLocal k' vars' vals')
| cg_localfunction x f f' : frel false false f f' -> cong_stmt (SLocalFunction x f) (SLocalFunction x f')
| cg_numfor var var' a a' b b' step step' body body' :
    param_name var = param_name var' -> crel_expr a a' -> crel_expr b b' -> opt_rel crel_expr step step' ->
    crel_block body body' ->
    cong_stmt (SNumericFor var a b step body) (SNumericFor var' a' b' step' body')
| cg_repeat b b' c c' : crel_block b b' -> crel_expr c c' -> cong_stmt (SRepeat b c) (SRepeat b' c')
| cg_while c c' b b' : crel_expr c c' -> crel_block b b' -> cong_stmt (SWhile c b) (SWhile c' b')
| cg_typedecl ex ex' x x' g g' t t' : cong_stmt (STypeDecl ex x g t) (STypeDecl ex' x' g' t')
| cg_typefunction ex ex' x x' f f' : cong_stmt (STypeFunction ex x f) (STypeFunction ex' x' f')

with crel_sbranch : sbranch -> sbranch -> Prop :=
| cg_sbranch c c' b b' : crel_expr c c' -> crel_block b b' -> crel_sbranch (SBranch c b) (SBranch c' b')

with crel_block : block -> block -> Prop :=
| cr_b_same b b' : cong_block b b' -> crel_block b b'
| cr_b_rw b b1 b' : Rb b b1 -> cong_block b1 b' -> crel_block b b'

with cong_block : block -> block -> Prop :=
| cg_block ss ss' last last' : Forall2 crel_stmt ss ss' -> opt_rel crel_last last last' ->
                               cong_block (Block ss last) (Block ss' last')

with crel_last : laststmt -> laststmt -> Prop :=
| cg_break : crel_last LBreak LBreak
| cg_continue : crel_last LContinue LContinue
| cg_return es es' : Forall2 crel_expr es es' -> crel_last (LReturn es) (LReturn es').
Set Elimination Schemes.

End Rel.

Section Store.
Variable B : block -> block -> Prop.

Definition lclos_rel (c1 c2 : closure) : Prop :=
  map param_name (effective_params c1) = map param_name (effective_params c2) /\
  closure_variadic c1 = closure_variadic c2 /\
  B (closure_block c1) (closure_block c2) /\
  c_env c1 = c_env c2.

Definition lstore_rel (s1 s2 : store) : Prop :=
  cells s1 = cells s2 /\ tables s1 = tables s2 /\ trace s1 = trace s2 /\
  oracle s1 = oracle s2 /\ fresh s1 = fresh s2 /\
  Forall2 lclos_rel (closures s1) (closures s2).

Definition fwd {A} (R : A -> A -> Prop) (r1 r2 : res A) : Prop :=
  match r1 with
  | Fuel => True
  | Ok a1 s1 => match r2 with Ok a2 s2 => R a1 a2 /\ lstore_rel s1 s2 | _ => False end
  | Err e1 s1 => match r2 with Err e2 s2 => e1 = e2 /\ lstore_rel s1 s2 | _ => False end
  | Unsup w1 => match r2 with Unsup w2 => w1 = w2 | _ => False end
  end.

Definition fsimR {A} (R : A -> A -> Prop) (m1 m2 : M A) : Prop :=
  forall s1 s2, lstore_rel s1 s2 -> fwd R (m1 s1) (m2 s2).

Lemma fsim_logic : sim_logic (@fsimR) lclos_rel.
Proof. exact (gsim_logic lclos_rel false). Qed.

Lemma fsim_refines_l {A} (R : A -> A -> Prop) (m1 m1' m2 : M A) :
  refines m1 m1' -> fsimR R m1' m2 -> fsimR R m1 m2.
Proof.
  intros Hr H s1 s2 Hs. specialize (H s1 s2 Hs). specialize (Hr s1).
  destruct (m1 s1) eqn:E; try exact I; rewrite Hr in H by discriminate; exact H.
Qed.

Lemma fs_local_go vars1 : forall vars2 vs rho,
  map param_name vars1 = map param_name vars2 ->
  fsimR eq (local_go vars1 vs rho) (local_go vars2 vs rho).
Proof.
  induction vars1 as [|p1 vars1 IH]; intros [|p2 vars2] vs rho H; try discriminate H.
  - rewrite !local_go_nil. now apply (sl_ret fsim_logic).
  - cbn [map] in H. injection H as Hp Hps. rewrite !local_go_cons, Hp.
    apply (sl_bind_eq fsim_logic); [apply (sl_new_cell fsim_logic)|]. intros a. now apply IH.
Qed.

End Store.
