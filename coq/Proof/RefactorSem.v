(** Reading an identifier, and fuel monotonicity in the form that [rewrite] and [apply ... in]
    take.  [reads rho x s v]: [x] denotes [v] in [s] and the read runs no code (a local cell, or
    a global of a globals table that needs no metamethod); [pure_ident] is the condition on
    the store under which every successful read is of that kind ([eval_reads]), and
    [reads_eval] is the converse.  Exports the other files about runs ([Proof/SemFacts.v],
    [Proof/DefaultRulesSem.v], [Proof/LoweringFuel.v]). *)
From Coq Require Import ZArith NArith List Bool String Lia.
From DL Require Import Lib.Bytes Lib.F64 Lua.Syntax Lua.Sem Lua.EvalSpec.
From DL Require Import Proof.EvaluatorStore.
From DL Require Export Proof.SemFacts Proof.DefaultRulesSem Proof.LoweringFuel.
Import ListNotations.
Open Scope N_scope.

Section Up.
Variable d : dialect.

Lemma eval_up n m rho va e s vs s' :
  eval d n rho va e s = Ok vs s' -> (n <= m)%nat -> eval d m rho va e s = Ok vs s'.
Proof. intros H L. eapply eval_mono; eauto. Qed.
Lemma eval1_up n m rho va e s v s' :
  eval1 d n rho va e s = Ok v s' -> (n <= m)%nat -> eval1 d m rho va e s = Ok v s'.
Proof. intros H L. eapply eval1_mono; eauto. Qed.
Lemma eval_list_up n m rho va es s vs s' :
  eval_list d n rho va es s = Ok vs s' -> (n <= m)%nat -> eval_list d m rho va es s = Ok vs s'.
Proof. intros H L. eapply eval_list_mono; eauto. Qed.
Lemma eval_args_up n m rho va a s vs s' :
  eval_args d n rho va a s = Ok vs s' -> (n <= m)%nat -> eval_args d m rho va a s = Ok vs s'.
Proof. intros H L. eapply eval_args_mono; eauto. Qed.
Lemma call_up n m f args s vs s' :
  call d n f args s = Ok vs s' -> (n <= m)%nat -> call d m f args s = Ok vs s'.
Proof. intros H L. eapply call_mono; eauto. Qed.
Lemma index_up n m o k s v s' :
  index d n o k s = Ok v s' -> (n <= m)%nat -> index d m o k s = Ok v s'.
Proof. intros H L. eapply index_mono; eauto. Qed.
Lemma setindex_up n m o k v s u s' :
  setindex d n o k v s = Ok u s' -> (n <= m)%nat -> setindex d m o k v s = Ok u s'.
Proof. intros H L. eapply setindex_mono; eauto. Qed.
Lemma exec_stmt_up n m rho va st s r s' :
  exec_stmt d n rho va st s = Ok r s' -> (n <= m)%nat -> exec_stmt d m rho va st s = Ok r s'.
Proof. intros H L. eapply exec_stmt_mono; eauto. Qed.
Lemma exec_stmts_up n m rho va ss last s r s' :
  exec_stmts d n rho va ss last s = Ok r s' -> (n <= m)%nat -> exec_stmts d m rho va ss last s = Ok r s'.
Proof. intros H L. eapply exec_stmts_mono; eauto. Qed.
Lemma exec_block_up n m rho va b s r s' :
  exec_block d n rho va b s = Ok r s' -> (n <= m)%nat -> exec_block d m rho va b s = Ok r s'.
Proof. intros H L. eapply exec_block_mono; eauto. Qed.

End Up.

Section Zero.
Variable d : dialect.

Lemma call_0 f args s : call d 0 f args s = Fuel.
Proof. exact (SemFacts.call_0 d f args s). Qed.
Lemma index_0 o k s : index d 0 o k s = Fuel.
Proof. exact (SemFacts.index_0 d o k s). Qed.
Lemma setindex_0 o k v s : setindex d 0 o k v s = Fuel.
Proof. exact (SemFacts.setindex_0 d o k v s). Qed.
Lemma eval_target_0 rho va e s : eval_target d 0 rho va e s = Fuel.
Proof. exact (SemFacts.eval_target_0 d rho va e s). Qed.

End Zero.

Definition global_default (x : name) (v : value) : value :=
  match v with
  | VNil => if is_ext_name x then VExt x else VNil
  | _ => v
  end.

Definition reads (rho : env) (x : name) (s : store) (v : value) : Prop :=
  match lookup rho x with
  | Some c => nth_N (cells s) (N.to_nat c) = Some v
  | None =>
    exists t, nth_N (tables s) (N.to_nat A_globals) = Some t /\
              (raw_get (t_entries t) (VStr x) <> VNil \/ t_meta t = None) /\
              v = global_default x (raw_get (t_entries t) (VStr x))
  end.

Definition pure_ident (rho : env) (x : name) (s : store) : Prop :=
  lookup rho x <> None \/ globals_plain s.

Section Reads.
Variable d : dialect.

Lemma get_cell_some a s v : nth_N (cells s) (N.to_nat a) = Some v -> get_cell a s = Ok v s.
Proof. intros H. unfold get_cell. now rewrite H. Qed.

Lemma index_raw_hit n a k s t :
  nth_N (tables s) (N.to_nat a) = Some t ->
  raw_get (t_entries t) (match norm_key k with Some k' => k' | None => k end) <> VNil ->
  index d (S n) (VTable a) k s =
  Ok (raw_get (t_entries t) (match norm_key k with Some k' => k' | None => k end)) s.
Proof.
  intros Ht Hv. rewrite index_S_table. unfold bind. rewrite (get_table_some _ _ _ Ht).
  destruct (raw_get _ _); try reflexivity. contradiction.
Qed.

Lemma index_plain_miss n a k s t :
  nth_N (tables s) (N.to_nat a) = Some t -> t_meta t = None ->
  raw_get (t_entries t) (match norm_key k with Some k' => k' | None => k end) = VNil ->
  index d (S n) (VTable a) k s = Ok VNil s.
Proof.
  intros Ht Hm Hv. rewrite index_S_table. unfold bind at 1. rewrite (get_table_some _ _ _ Ht).
  rewrite Hv. unfold bind. rewrite (metamethod_plain_tab s a "__index"); [reflexivity|].
  exists t. auto.
Qed.

Lemma reads_eval rho va x s v n :
  reads rho x s v -> (2 <= n)%nat -> eval d n rho va (EIdent x) s = Ok [v] s.
Proof.
  intros H L. destruct n as [|[|n]]; try lia. rewrite eval_S_ident. unfold reads in H.
  destruct (lookup rho x) as [c|].
  - unfold bind. rewrite (get_cell_some _ _ _ H). reflexivity.
  - destruct H as (t & Ht & Hk & ->).
    destruct (raw_get (t_entries t) (VStr x)) eqn:E;
      try (unfold bind; rewrite (index_raw_hit n A_globals (VStr x) s t Ht) by (cbn [norm_key]; congruence);
           cbn [norm_key]; rewrite E; reflexivity).
    destruct Hk as [Hk|Hk]; [congruence|].
    unfold bind. rewrite (index_plain_miss n A_globals (VStr x) s t Ht Hk E).
    unfold global_default. destruct (is_ext_name x); reflexivity.
Qed.

Lemma reads_eval1 rho va x s v n :
  reads rho x s v -> (3 <= n)%nat -> eval1 d n rho va (EIdent x) s = Ok v s.
Proof.
  intros H L. destruct n as [|n]; [lia|]. rewrite eval1_S. unfold bind.
  rewrite (reads_eval rho va x s v n H) by lia. reflexivity.
Qed.

Lemma eval_reads rho va x s n vs s' :
  pure_ident rho x s -> eval d n rho va (EIdent x) s = Ok vs s' ->
  s' = s /\ exists v, vs = [v] /\ reads rho x s v.
Proof.
  intros Hp H. fuel_S n H. rewrite eval_S_ident in H. unfold reads, pure_ident in *.
  destruct (lookup rho x) as [c|] eqn:El.
  - inv_ok H. subst. unfold get_cell in H0. destruct (nth_N (cells s) (N.to_nat c)) as [v0|] eqn:Ec; [|discriminate].
    inversion H0; subst. split; [reflexivity|]. exists a. split; reflexivity.
  - destruct Hp as [Hp|(t & Ht & Hm)]; [congruence|]. inv_ok H.
    apply (index_plain_tab d _ _ _ _ _ _ _ Ht Hm) in H0 as [-> ->]. cbn [norm_key] in H1.
    assert (vs = [global_default x (raw_get (t_entries t) (VStr x))] /\ s' = s) as [-> ->].
    { unfold global_default. destruct (raw_get (t_entries t) (VStr x)); try destruct (is_ext_name x); inv_ok H1; auto. }
    split; [reflexivity|]. eexists. split; [reflexivity|]. exists t. auto.
Qed.

Lemma eval1_reads rho va x s n v s' :
  pure_ident rho x s -> eval1 d n rho va (EIdent x) s = Ok v s' -> s' = s /\ reads rho x s v.
Proof.
  intros Hp H. fuel_S n H. rewrite eval1_S in H. inv_ok H.
  apply (eval_reads _ _ _ _ _ _ _ Hp) in H0 as (-> & v' & -> & Hr). subst. cbn [first]. auto.
Qed.

End Reads.
