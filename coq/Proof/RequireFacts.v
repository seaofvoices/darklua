(** Where the two locators start looking (Model/Require.v: [head_path]), the
    characterisation of [find_require_path] as "first existing candidate from that head", and
    what each kind of alias (configured source, [.luaurc]) is relative to. *)
From DL Require Import Lib.Bytes Model.Paths Model.Require Proof.PathsBasics Proof.PathsFacts.
Require Import Lia PeanoNat.
Open Scope N_scope.

Lemma head_relative_path_mode c rc src p :
  c_luau c = false -> is_require_relative p = true -> head_path c rc src p = inl (join (pop src) p).
Proof. intros Hc Hp. unfold head_path. rewrite Hp, Hc. reflexivity. Qed.

Lemma head_relative_luau_mode c rc src p :
  c_luau c = true -> is_require_relative p = true ->
  head_path c rc src p =
  inl (join (if is_module_folder_name c src
             then get_relative_parent_path (get_relative_parent_path src)
             else get_relative_parent_path src) p).
Proof. intros Hc Hp. unfold head_path. rewrite Hp, Hc. destruct (is_module_folder_name c src); reflexivity. Qed.

Lemma head_absolute c rc src p :
  is_require_relative p = false -> has_root p = true -> head_path c rc src p = inl p.
Proof. intros Hr Hp. unfold head_path. rewrite Hr, Hp. reflexivity. Qed.

Lemma head_source_path_mode c rc src name rest :
  c_luau c = false ->
  head_path c rc src (Norm name :: rest) =
  match get_source c rc name (project_location c src) with
  | Some loc => inl (extend loc rest)
  | None => inr EUnknownSource
  end.
Proof. intros Hc. unfold head_path. cbn [is_require_relative starts_with_cur starts_with_par orb has_root comp_bytes]. rewrite Hc. reflexivity. Qed.

Lemma head_self_luau_mode c rc src rest :
  c_luau c = true ->
  head_path c rc src (Norm self_name :: rest) = inl (join (get_relative_parent_path src) rest).
Proof.
  intros Hc. unfold head_path.
  cbn [is_require_relative starts_with_cur starts_with_par orb has_root comp_bytes].
  rewrite Hc, bytes_eqb_refl. reflexivity.
Qed.

Lemma head_alias_luau_mode c rc src a name rest :
  c_luau c = true -> bytes_eqb (at_sign :: name) self_name = false -> a = at_sign ->
  head_path c rc src (Norm (a :: name) :: rest) =
  match get_source c rc (a :: name) (project_location c src) with
  | Some loc => inl (extend loc rest)
  | None => inr EUnknownSource
  end.
Proof.
  intros Hc Hs ->. unfold head_path.
  cbn [is_require_relative starts_with_cur starts_with_par orb has_root comp_bytes].
  rewrite Hc, Hs, N.eqb_refl. reflexivity.
Qed.

(** luau mode: a first component that does not start with `@` is not looked up at all (the
    documentation allows such alias names): the path is used relative to the working directory *)
Lemma head_plain_luau_mode c rc src a name rest :
  c_luau c = true -> (a =? at_sign) = false ->
  head_path c rc src (Norm (a :: name) :: rest) = inl (Norm (a :: name) :: rest).
Proof.
  intros Hc Ha. unfold head_path.
  cbn [is_require_relative starts_with_cur starts_with_par orb has_root comp_bytes].
  rewrite Hc.
  assert (E : bytes_eqb (a :: name) self_name = false).
  { unfold self_name. cbn [bytes_eqb]. change (a =? 64) with (a =? at_sign). rewrite Ha. reflexivity. }
  rewrite E, Ha. reflexivity.
Qed.

Lemma head_empty c rc src : head_path c rc src [] = inr EEmpty.
Proof. reflexivity. Qed.

Lemma relative_to_requiring_file c rc d s r :
  d <> [] -> (c_luau c = false \/ is_module_folder_name c (d ++ [Norm s]) = false) ->
  head_path c rc (d ++ [Norm s]) (Cur :: r) = inl (d ++ r).
Proof.
  intros Hd Hc. destruct (c_luau c) eqn:E.
  - rewrite head_relative_luau_mode by (try exact E; reflexivity).
    destruct Hc as [Hc|Hc]; [discriminate|]. rewrite Hc, get_relative_parent_path_snoc by discriminate.
    rewrite (or_cur_nonempty d Hd), join_cur, (or_cur_nonempty d Hd). reflexivity.
  - rewrite head_relative_path_mode by (try exact E; reflexivity).
    rewrite pop_snoc by discriminate. rewrite join_cur, or_cur_nonempty by exact Hd. reflexivity.
Qed.

Lemma relative_to_parent_of_module_folder c rc d0 x s r :
  d0 <> [] -> c_luau c = true -> is_module_folder_name c ((d0 ++ [Norm x]) ++ [Norm s]) = true ->
  head_path c rc ((d0 ++ [Norm x]) ++ [Norm s]) (Cur :: r) = inl (d0 ++ r).
Proof.
  intros Hd Hc Hm. rewrite head_relative_luau_mode by (try exact Hc; reflexivity). rewrite Hm.
  rewrite get_relative_parent_path_snoc, (or_cur_nonempty (d0 ++ [Norm x]))
    by (try apply app_nonempty_r; discriminate).
  rewrite get_relative_parent_path_snoc by discriminate.
  rewrite (or_cur_nonempty d0 Hd), join_cur, (or_cur_nonempty d0 Hd). reflexivity.
Qed.

Lemma head_toplevel c rc s r : head_path c rc [Norm s] (Cur :: r) = inl (Cur :: r).
Proof.
  unfold head_path. cbn [is_require_relative starts_with_cur orb].
  destruct (c_luau c); [destruct (is_module_folder_name c [Norm s])|]; reflexivity.
Qed.

(** a module-folder file directly in the working directory stays in the working directory
    (documented: the parent) *)
Lemma toplevel_module_folder_file_stays c rc s r :
  c_luau c = true ->
  head_path c rc [Norm s] (Cur :: r) = inl (Cur :: r).
Proof. intros _. apply head_toplevel. Qed.

Theorem find_require_path_first_existing c rcs f src p r :
  find_require_path c rcs f src p = Found r <->
  exists h l1 q l2,
    head_path c (rc_aliases c rcs src) src p = inl h /\
    candidates (normalize true h) (module_folder_name c) = l1 ++ q :: l2 /\
    is_file f q = true /\ (forall x, In x l1 -> is_file f x = false) /\ r = normalize true q.
Proof.
  unfold find_require_path. destruct (head_path c _ src p) as [h|e].
  - rewrite first_existing. split.
    + intros (l1 & q & l2 & H). exists h, l1, q, l2. split; [reflexivity|exact H].
    + intros (h' & l1 & q & l2 & Hh & H). inversion Hh; subst. exists l1, q, l2. exact H.
  - split; [discriminate|]. intros (h' & l1 & q & l2 & Hh & _). discriminate.
Qed.

Theorem find_require_path_errors c rcs f src p e :
  find_require_path c rcs f src p = Failed e ->
  (e = ENotFound /\ exists h, head_path c (rc_aliases c rcs src) src p = inl h /\
      forall x, In x (candidates (normalize true h) (module_folder_name c)) -> is_file f x = false)
  \/ head_path c (rc_aliases c rcs src) src p = inr e.
Proof.
  unfold find_require_path. destruct (head_path c _ src p) as [h|e'] eqn:E.
  - intros H. left. pose proof (locate_error _ _ _ _ H) as ->. split; [reflexivity|].
    exists h. split; [reflexivity|]. apply none_existing. eexists. exact H.
  - intros H. inversion H; subst. right. reflexivity.
Qed.

(** [rel] below is [project_location c src]: the directory of the darklua configuration file
    when there is one ([c_project c = Some location]), wherever that is; otherwise the directory
    of the requiring file. *)

Lemma project_location_configured c src location :
  c_project c = Some location -> project_location c src = location.
Proof. intros H. unfold project_location. rewrite H. reflexivity. Qed.

Lemma project_location_default c d s :
  c_project c = None -> project_location c (d ++ [Norm s]) = d.
Proof. intros H. unfold project_location. rewrite H, parent_snoc by discriminate. reflexivity. Qed.

Lemma get_source_configured_path_mode c rc name rel alias :
  c_luau c = false -> assoc name (c_sources c) = Some alias ->
  get_source c rc name rel = Some (join rel alias).
Proof. intros Hc Ha. unfold get_source. rewrite Hc, Ha. reflexivity. Qed.

Lemma get_source_configured_luau_mode c rc name rel alias :
  c_luau c = true -> rc_lookup rc name = None -> assoc name (c_sources c) = Some alias ->
  get_source c rc name rel = Some (join rel alias).
Proof. intros Hc Hr Ha. unfold get_source. rewrite Hc, Hr, Ha. reflexivity. Qed.

(** a [.luaurc] alias is used as it is: it was resolved against the directory of its [.luaurc]
    and is NOT joined onto the configuration location *)
Lemma get_source_luaurc_path_mode c rc name rel p :
  c_luau c = false -> assoc name (c_sources c) = None -> rc_lookup rc name = Some p ->
  get_source c rc name rel = Some p.
Proof. intros Hc Ha Hr. unfold get_source. rewrite Hc, Ha. exact Hr. Qed.

Lemma get_source_luaurc_luau_mode c rc name rel p :
  c_luau c = true -> rc_lookup rc name = Some p -> get_source c rc name rel = Some p.
Proof. intros Hc Hr. unfold get_source. rewrite Hc, Hr. reflexivity. Qed.

Lemma first_rc_nearest rcs dirs d al :
  first_rc rcs dirs = Some (d, al) ->
  exists l1 l2, dirs = l1 ++ d :: l2 /\ rc_at rcs d = Some al /\ (forall x, In x l1 -> rc_at rcs x = None).
Proof.
  induction dirs as [|x dirs IH]; cbn [first_rc]; [discriminate|].
  destruct (rc_at rcs x) as [al'|] eqn:E.
  - intros H. inversion H; subst. exists [], dirs. repeat split; auto. intros y [].
  - intros H. destruct (IH H) as (l1 & l2 & -> & Hd & Hl1). exists (x :: l1), l2. repeat split; auto.
    intros y [<-|Hy]; auto.
Qed.

Lemma assoc_at_map (g : path -> path) k al :
  assoc (at_sign :: k) (map (fun kv => (at_sign :: fst kv, g (snd kv))) al) = option_map g (assoc k al).
Proof.
  induction al as [|[k' v] al IH]; [reflexivity|].
  cbn [map assoc fst snd bytes_eqb]. rewrite N.eqb_refl. cbn [andb].
  destruct (bytes_eqb k k'); [reflexivity|exact IH].
Qed.

Lemma rc_lookup_luaurc c rcs src d al k :
  c_use_rc c = true -> first_rc rcs (ancestors src) = Some (d, al) ->
  rc_lookup (rc_aliases c rcs src) (at_sign :: k) = option_map (fun v => normalize false (join d v)) (assoc k al).
Proof.
  intros Hc Hf. unfold rc_aliases. rewrite Hc, Hf. unfold rc_lookup.
  apply (assoc_at_map (fun v => normalize false (join d v))).
Qed.

Lemma rc_lookup_disabled c rcs src name : c_use_rc c = false -> rc_lookup (rc_aliases c rcs src) name = None.
Proof. intros H. unfold rc_aliases. rewrite H. reflexivity. Qed.

(** path mode, [require("@k/rest")] where [@k] is only a [.luaurc] alias: the head is the alias
    value relative to the [.luaurc] directory [d], whatever the configuration location is *)
Theorem head_luaurc_alias_path_mode c rcs src d al k v rest :
  c_luau c = false -> c_use_rc c = true ->
  first_rc rcs (ancestors src) = Some (d, al) -> assoc k al = Some v ->
  assoc (at_sign :: k) (c_sources c) = None ->
  head_path c (rc_aliases c rcs src) src (Norm (at_sign :: k) :: rest) = inl (extend (normalize false (join d v)) rest).
Proof.
  intros Hc Hu Hf Hk Hs. rewrite head_source_path_mode by exact Hc.
  rewrite (get_source_luaurc_path_mode c _ _ _ (normalize false (join d v)) Hc Hs).
  - reflexivity.
  - rewrite (rc_lookup_luaurc c rcs src d al k Hu Hf), Hk. reflexivity.
Qed.

(** luau mode: the same (the [.luaurc] alias also has precedence over a configured one) *)
Theorem head_luaurc_alias_luau_mode c rcs src d al k v rest :
  c_luau c = true -> c_use_rc c = true ->
  first_rc rcs (ancestors src) = Some (d, al) -> assoc k al = Some v ->
  bytes_eqb (at_sign :: k) self_name = false ->
  head_path c (rc_aliases c rcs src) src (Norm (at_sign :: k) :: rest) = inl (extend (normalize false (join d v)) rest).
Proof.
  intros Hc Hu Hf Hk Hs. rewrite head_alias_luau_mode by (try exact Hc; try exact Hs; reflexivity).
  rewrite (get_source_luaurc_luau_mode c _ _ _ (normalize false (join d v)) Hc).
  - reflexivity.
  - rewrite (rc_lookup_luaurc c rcs src d al k Hu Hf), Hk. reflexivity.
Qed.

Theorem head_configured_source_path_mode c rc src location name alias rest :
  c_luau c = false -> c_project c = Some location -> assoc name (c_sources c) = Some alias ->
  head_path c rc src (Norm name :: rest) = inl (extend (join location alias) rest).
Proof.
  intros Hc Hp Ha. rewrite head_source_path_mode by exact Hc.
  rewrite (project_location_configured c src location Hp).
  rewrite (get_source_configured_path_mode c rc name location alias Hc Ha). reflexivity.
Qed.

Theorem head_configured_alias_luau_mode c rc src location k alias rest :
  c_luau c = true -> c_project c = Some location -> bytes_eqb (at_sign :: k) self_name = false ->
  rc_lookup rc (at_sign :: k) = None -> assoc (at_sign :: k) (c_sources c) = Some alias ->
  head_path c rc src (Norm (at_sign :: k) :: rest) = inl (extend (join location alias) rest).
Proof.
  intros Hc Hp Hs Hr Ha. rewrite head_alias_luau_mode by (try exact Hc; try exact Hs; reflexivity).
  rewrite (project_location_configured c src location Hp).
  rewrite (get_source_configured_luau_mode c rc _ location alias Hc Hr Ha). reflexivity.
Qed.

(** a nearest [.luaurc] without aliases hides every outer [.luaurc]: no [.luaurc] alias at all *)
Lemma rc_lookup_nearest_without_aliases c rcs src d name :
  first_rc rcs (ancestors src) = Some (d, []) -> rc_lookup (rc_aliases c rcs src) name = None.
Proof.
  intros Hf. unfold rc_aliases. destruct (c_use_rc c); [|reflexivity]. rewrite Hf. reflexivity.
Qed.
