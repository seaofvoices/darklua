(** The scope-stack invariant of RenameProcessor (Model/Rename.v: step), by induction over ALL
    operation sequences: in every reachable state the generated names that are live (in a
    dictionary of the stack), lost (overwritten in a scope that is still open) or waiting in the
    reuse pool are pairwise distinct, each is a valid identifier, not a keyword, not in the avoid
    set the processor was created with, and was produced by the permutator before its current
    position. *)
From Coq Require Import NArith List Bool Lia ZArith ZifyBool ZifyN ZifyNat.
From DL Require Import Lib.Bytes Model.Rename Proof.RenameStream.
Import ListNotations.
Open Scope N_scope.

Definition name_eq_dec : forall a b : name, {a = b} + {a <> b} := list_eq_dec N.eq_dec.
Definition cnt (l : list name) (x : name) : nat := count_occ name_eq_dec l x.

Lemma cnt_app l1 l2 x : cnt (l1 ++ l2) x = (cnt l1 x + cnt l2 x)%nat.
Proof. apply count_occ_app. Qed.
Lemma cnt_cons y l x : cnt (y :: l) x = ((if name_eq_dec y x then 1 else 0) + cnt l x)%nat.
Proof. unfold cnt. cbn [count_occ]. destruct (name_eq_dec y x); reflexivity. Qed.
Lemma cnt_nil x : cnt [] x = 0%nat.
Proof. reflexivity. Qed.
Lemma cnt_In l x : In x l <-> (cnt l x > 0)%nat.
Proof. apply count_occ_In. Qed.
Lemma cnt_NoDup l : NoDup l <-> forall x, (cnt l x <= 1)%nat.
Proof. apply NoDup_count_occ. Qed.

Lemma cnt_pool_insert y l x : cnt (pool_insert y l) x = cnt (y :: l) x.
Proof.
  induction l as [|z l IH]; cbn [pool_insert]; [reflexivity|].
  destruct (cmp_ident y z); try reflexivity.
  rewrite cnt_cons, IH, !cnt_cons. lia.
Qed.
Lemma cnt_pool_add xs l x : cnt (pool_add xs l) x = (cnt xs x + cnt l x)%nat.
Proof.
  induction xs as [|y xs IH]; [reflexivity|].
  unfold pool_add in *. cbn [fold_right]. rewrite cnt_pool_insert, !cnt_cons, IH. lia.
Qed.

Definition gen_names (s : state) : list name := live_gen s ++ lost_gen s ++ pool s.

Lemma reusable_cons k o (r : bool) d :
  reusable ((k, (o, r)) :: d) = (if r then [o] else []) ++ reusable d.
Proof. reflexivity. Qed.

Lemma cnt_dict_remove d k x :
  (cnt (reusable (dict_remove d k)) x
   + cnt (match dict_get d k with Some (old, true) => [old] | _ => [] end) x
   <= cnt (reusable d) x)%nat.
Proof.
  induction d as [|[k' [o r]] d IH]; [cbn; lia|].
  cbn [dict_remove dict_get]. destruct (bytes_eqb k' k).
  - rewrite reusable_cons, cnt_app. destruct (dict_get d k) as [[? []]|], r; rewrite ?cnt_cons, ?cnt_nil in *; lia.
  - rewrite !reusable_cons, !cnt_app. lia.
Qed.

Lemma cnt_frame_add f real obf reuse x :
  (cnt (reusable (f_dict (frame_add f real obf reuse))) x + cnt (f_lost (frame_add f real obf reuse)) x
   <= cnt (if reuse then [obf] else []) x + (cnt (reusable (f_dict f)) x + cnt (f_lost f) x))%nat.
Proof.
  unfold frame_add. cbn [f_dict f_lost]. rewrite reusable_cons, cnt_app.
  pose proof (cnt_dict_remove (f_dict f) real x) as H.
  destruct (dict_get (f_dict f) real) as [[old []]|]; rewrite ?cnt_cons, ?cnt_nil in *; lia.
Qed.

Lemma cnt_add s real obf reuse x :
  (cnt (gen_names (add s real obf reuse)) x <= cnt (if reuse then [obf] else []) x + cnt (gen_names s) x)%nat.
Proof.
  unfold gen_names, live_gen, lost_gen, add.
  destruct (stack s) as [|f r]; cbn [stack pool flat_map]; rewrite !cnt_app.
  - pose proof (cnt_frame_add (mkFrame [] []) real obf reuse x) as F.
    change (reusable (f_dict (mkFrame [] []))) with (@nil name) in F.
    change (f_lost (mkFrame [] [])) with (@nil name) in F. rewrite !cnt_nil in *. lia.
  - pose proof (cnt_frame_add f real obf reuse x) as F. lia.
Qed.

Lemma add_pos s real obf reuse : pos (add s real obf reuse) = pos s.
Proof. unfold add. destruct (stack s); reflexivity. Qed.
Lemma add_avoid s real obf reuse : avoid (add s real obf reuse) = avoid s.
Proof. unfold add. destruct (stack s); reflexivity. Qed.

Definition good_name (avoid0 : list name) (p : N) (n : name) : Prop :=
  (exists q, q < p /\ nth_raw q = n) /\ valid_ident n = true /\ ~ In n avoid0.

Record Inv (avoid0 : list name) (s : state) : Prop := {
  inv_nodup : forall x, (cnt (gen_names s) x <= 1)%nat;
  inv_good : forall n, In n (gen_names s) -> good_name avoid0 (pos s) n;
  inv_avoid : incl (avoid0 ++ keywords) (avoid s)
}.

Lemma good_mono avoid0 p p' n : p <= p' -> good_name avoid0 p n -> good_name avoid0 p' n.
Proof.
  intros L [[q [Hq E]] R]. split; [|exact R]. exists q. split; [lia | exact E].
Qed.

Lemma Inv_init avoid0 : Inv avoid0 (init avoid0).
Proof.
  split.
  - intros x. cbn. lia.
  - intros n H. cbn in H. contradiction.
  - cbn [init avoid]. apply incl_refl.
Qed.

(** the one way the invariant is carried over, used for every case of [step]: the names of [s']
    are, as a multiset, among those of [s] and the good names [new] not yet in use *)
Lemma Inv_next avoid0 s s' new :
  Inv avoid0 s ->
  (forall x, (cnt (gen_names s') x <= cnt new x + cnt (gen_names s) x)%nat) ->
  (forall n, In n new -> (cnt new n = 1 /\ cnt (gen_names s) n = 0)%nat /\ good_name avoid0 (pos s') n) ->
  pos s <= pos s' -> incl (avoid s) (avoid s') ->
  Inv avoid0 s'.
Proof.
  intros [N G A] C New P V.
  assert (D : forall x, In x new \/ cnt new x = 0%nat).
  { intros x. destruct (cnt new x) eqn:E; [now right|]. left. apply cnt_In. lia. }
  split.
  - intros x. specialize (C x). specialize (N x). destruct (D x) as [H|H]; [apply New in H as [[H1 H2] _]|]; lia.
  - intros n H. apply cnt_In in H. specialize (C n). destruct (D n) as [K|K]; [now apply New|].
    apply (good_mono avoid0 (pos s)); [exact P|]. apply G, cnt_In. lia.
  - eapply incl_tran; eassumption.
Qed.

Lemma Inv_sub avoid0 s s' :
  Inv avoid0 s ->
  (forall x, (cnt (gen_names s') x <= cnt (gen_names s) x)%nat) ->
  pos s <= pos s' -> incl (avoid s) (avoid s') ->
  Inv avoid0 s'.
Proof. intros I C. apply (Inv_next avoid0 s s' []); [exact I | exact C | intros n []]. Qed.

Lemma Inv_add_kept avoid0 s real obf : Inv avoid0 s -> Inv avoid0 (add s real obf false).
Proof.
  intros I. apply (Inv_sub avoid0 s); [exact I| | rewrite add_pos; lia | rewrite add_avoid; apply incl_refl].
  intros y. eapply Nat.le_trans; [apply cnt_add|]. rewrite cnt_nil. lia.
Qed.

Lemma step_generate_pool avoid0 s x r real :
  Inv avoid0 s -> pool s = x :: r ->
  Inv avoid0 (add (mkState (stack s) (pos s) (avoid s) r (stuck s)) real x true).
Proof.
  intros I E. apply (Inv_sub avoid0 s); [exact I| | |].
  - intros y. eapply Nat.le_trans; [apply cnt_add|].
    unfold gen_names, live_gen, lost_gen. cbn [stack pool]. rewrite E, !cnt_app, !cnt_cons, cnt_nil. lia.
  - rewrite add_pos. cbn. lia.
  - rewrite add_avoid. cbn. apply incl_refl.
Qed.

(** the name the search stops at passed the filter, and everything in use was drawn before *)
Lemma step_generate_fresh avoid0 s q real :
  Inv avoid0 s -> pool s = [] ->
  search (fun q => filter_identifier (avoid s) (nth_raw q)) search_bits (pos s) = Some q ->
  Inv avoid0 (add (mkState (stack s) (q + 1) (avoid s) [] (stuck s)) real (nth_raw q) true).
Proof.
  intros I E S. apply search_spec in S as [F L].
  apply (Inv_next avoid0 s _ [nth_raw q]); [exact I| | |rewrite add_pos; cbn; lia|rewrite add_avoid; apply incl_refl].
  - intros y. eapply Nat.le_trans; [apply cnt_add|].
    unfold gen_names, live_gen, lost_gen. cbn [stack pool]. rewrite E. lia.
  - intros n [<-|[]]. destruct I as [_ G A]. rewrite add_pos. cbn [pos]. repeat split.
    + rewrite cnt_cons, cnt_nil. destruct (name_eq_dec (nth_raw q) (nth_raw q)); [reflexivity | contradiction].
    + destruct (cnt (gen_names s) (nth_raw q)) eqn:C; [reflexivity|]. exfalso.
      assert (H : In (nth_raw q) (gen_names s)) by (apply cnt_In; lia).
      apply G in H as [[q' [Hq' E']] _]. apply nth_raw_inj in E'. lia.
    + exists q. split; [lia | reflexivity].
    + apply (filter_valid (avoid s)); [|exact F]. eapply incl_tran; [|exact A]. apply incl_appr, incl_refl.
    + unfold filter_identifier in F. apply andb_true_iff in F as [F1 _].
      apply negb_true_iff in F1. apply mem_false in F1. intros K. apply F1, A, in_or_app. now left.
Qed.

Theorem step_Inv avoid0 s o : Inv avoid0 s -> Inv avoid0 (fst (step s o)).
Proof.
  intros I. destruct o as [| |real| |real|x]; cbn [step].
  - (* push *) apply (Inv_sub avoid0 s); cbn; auto using incl_refl; try lia.
  - (* pop *) destruct (stack s) as [|f r] eqn:E; [exact I|]. cbn [fst].
    apply (Inv_sub avoid0 s); [exact I| | cbn; lia | cbn; apply incl_refl].
    intros x. unfold gen_names, live_gen, lost_gen. rewrite E. cbn [stack pool flat_map].
    rewrite !cnt_app, cnt_pool_add. lia.
  - (* insert *) unfold generate. destruct (pool s) as [|x r] eqn:E.
    + destruct (search _ search_bits (pos s)) as [q|] eqn:S; cbn [fst].
      * now apply step_generate_fresh.
      * apply (Inv_sub avoid0 s); [exact I| | cbn; lia | cbn; apply incl_refl].
        intros y. unfold gen_names, live_gen, lost_gen. cbn [stack pool]. rewrite E. lia.
    + cbn [fst]. now apply step_generate_pool.
  - (* self *) cbn [fst]. now apply Inv_add_kept.
  - (* keep *) cbn [fst]. now apply Inv_add_kept.
  - (* lookup *) destruct (get_obfuscated (stack s) x); cbn [fst]; [exact I|].
    apply (Inv_sub avoid0 s); [exact I| | cbn; lia | cbn; apply incl_tl, incl_refl].
    intros y. unfold gen_names, live_gen, lost_gen. cbn [stack pool]. lia.
Qed.

Theorem run_Inv avoid0 ops : Inv avoid0 (run avoid0 ops).
Proof.
  unfold run. generalize (Inv_init avoid0). generalize (init avoid0).
  induction ops as [|o ops IH]; intros s I; [exact I|].
  cbn [fold_left]. apply IH. now apply step_Inv.
Qed.

Theorem scope_invariant : forall avoid0 ops,
  let s := run avoid0 ops in
  NoDup (live_gen s ++ lost_gen s ++ pool s) /\
  (forall n, In n (live_gen s ++ lost_gen s ++ pool s) ->
     valid_ident n = true /\ ~ In n keywords /\ ~ In n avoid0 /\ exists q, q < pos s /\ nth_raw q = n) /\
  incl (avoid0 ++ keywords) (avoid s).
Proof.
  intros avoid0 ops s. destruct (run_Inv avoid0 ops) as [N G A]. fold s in N, G, A.
  split; [now apply cnt_NoDup | split; [|exact A]].
  intros n H. apply G in H as [Q [V NA]]. repeat split; try assumption. now apply valid_not_keyword.
Qed.

(** the dictionaries behave like scopes: the innermost declaration wins, others are untouched *)
Lemma dict_get_remove_other d k x : bytes_eqb k x = false -> dict_get (dict_remove d k) x = dict_get d x.
Proof.
  intros NE. induction d as [|[k' v] d IH]; [reflexivity|].
  cbn [dict_remove dict_get]. destruct (bytes_eqb k' k) eqn:E1.
  - apply bytes_eqb_eq in E1. subst k'. rewrite NE. exact IH.
  - cbn [dict_get]. now rewrite IH.
Qed.

Lemma get_obfuscated_add s real obf reuse x :
  get_obfuscated (stack (add s real obf reuse)) x
  = if bytes_eqb real x then Some obf else get_obfuscated (stack s) x.
Proof.
  unfold add. destruct (stack s) as [|f r]; cbn [stack get_obfuscated frame_add f_dict dict_get];
    destruct (bytes_eqb real x) eqn:E; try reflexivity.
  now rewrite dict_get_remove_other.
Qed.

Theorem lookup_after_add s real obf reuse :
  get_obfuscated (stack (add s real obf reuse)) real = Some obf.
Proof. now rewrite get_obfuscated_add, bytes_eqb_refl. Qed.

Theorem lookup_other_after_add s real obf reuse x :
  real <> x -> get_obfuscated (stack (add s real obf reuse)) x = get_obfuscated (stack s) x.
Proof. intros NE. now rewrite get_obfuscated_add, bytes_eqb_neq. Qed.

Fixpoint keeps (ops : list op) : list name :=
  match ops with
  | [] => []
  | OKeep x :: r => x :: keeps r
  | _ :: r => keeps r
  end.

Lemma kept_cons k o (r : bool) d : kept ((k, (o, r)) :: d) = (if r then [] else [o]) ++ kept d.
Proof. reflexivity. Qed.

Lemma kept_remove d k : incl (kept (dict_remove d k)) (kept d).
Proof.
  induction d as [|[k' [o r]] d IH]; [apply incl_refl|].
  cbn [dict_remove]. destruct (bytes_eqb k' k); rewrite ?kept_cons.
  - now apply incl_appr.
  - apply incl_app_app; [apply incl_refl | exact IH].
Qed.

Lemma live_kept_add s real obf reuse :
  incl (live_kept (add s real obf reuse)) ((if reuse then [] else [obf]) ++ live_kept s).
Proof.
  unfold live_kept, add. destruct (stack s) as [|f r]; cbn [stack flat_map frame_add f_dict]; rewrite kept_cons.
  - cbn [dict_remove kept flat_map]. rewrite !app_nil_r. apply incl_refl.
  - rewrite <- app_assoc. apply incl_app_app; [apply incl_refl|].
    apply incl_app_app; [apply kept_remove | apply incl_refl].
Qed.

Lemma live_kept_step s o : incl (live_kept (fst (step s o))) (of_string "self" :: keeps [o] ++ live_kept s).
Proof.
  destruct o as [| |real| |real|x]; cbn [step keeps app].
  - cbn. apply incl_tl, incl_refl.
  - destruct (stack s) as [|f r] eqn:E; cbn [fst]; [apply incl_tl, incl_refl|].
    unfold live_kept. rewrite E. cbn [stack flat_map]. apply incl_tl, incl_appr, incl_refl.
  - unfold generate. destruct (pool s) as [|y r].
    + destruct (search _ search_bits (pos s)); cbn [fst].
      * eapply incl_tran; [apply live_kept_add|]. cbn. apply incl_tl, incl_refl.
      * cbn. apply incl_tl, incl_refl.
    + cbn [fst]. eapply incl_tran; [apply live_kept_add|]. cbn. apply incl_tl, incl_refl.
  - cbn [fst]. eapply incl_tran; [apply live_kept_add|]. cbn [app]. apply incl_refl.
  - cbn [fst]. eapply incl_tran; [apply live_kept_add|]. cbn [app]. apply incl_tl, incl_refl.
  - destruct (get_obfuscated (stack s) x); cbn [fst]; apply incl_tl, incl_refl.
Qed.

Lemma keeps_app a b : keeps (a ++ b) = keeps a ++ keeps b.
Proof.
  induction a as [|o a IH]; [reflexivity|]. destruct o; cbn [app keeps]; rewrite IH; reflexivity.
Qed.

Lemma live_kept_run avoid0 ops :
  incl (live_kept (run avoid0 ops)) (of_string "self" :: keeps ops).
Proof.
  induction ops as [|o ops IH] using rev_ind.
  - cbn. intros x [].
  - unfold run in *. rewrite fold_left_app. cbn [fold_left].
    eapply incl_tran; [apply live_kept_step|].
    rewrite keeps_app. intros x [H|H]; [now left|].
    apply in_app_or in H as [H|H].
    + right. apply in_or_app. now right.
    + apply IH in H as [H|H]; [now left | right; apply in_or_app; now left].
Qed.

(** no generated name collides with a kept one, as long as the kept function names were given to
    the processor as names to avoid (mod.rs: CollectFunctionNames) and the permutator has not
    reached "self" *)
Theorem generated_disjoint_from_kept : forall avoid0 ops,
  let s := run avoid0 ops in
  incl (keeps ops) avoid0 -> pos s <= self_index ->
  forall n, In n (live_gen s ++ lost_gen s ++ pool s) -> ~ In n (live_kept s).
Proof.
  intros avoid0 ops s K P n H HK.
  destruct (scope_invariant avoid0 ops) as [_ [G _]]. fold s in G.
  apply G in H as [_ [_ [NA [q [Hq E]]]]].
  apply live_kept_run in HK as [HK|HK].
  - rewrite <- nth_raw_self in HK. subst n. apply nth_raw_inj in HK. lia.
  - apply NA. now apply K.
Qed.

(** the order of the reuse pool is total on generated names: the HashMap iteration order in
    [Scope::pop] (values are extended in arbitrary order, then sorted) cannot influence it *)
Lemma cmp_char_eq a b :
  is_ident_char a = true -> is_ident_char b = true -> cmp_char a b = Eq -> a = b.
Proof.
  unfold cmp_char, is_ident_char, is_ident_start, is_lower, is_upper, is_digit. intros Ha Hb.
  destruct (a =? b) eqn:E; [intros _; lia|].
  destruct ((48 <=? a) && (a <=? 57) && ((48 <=? b) && (b <=? 57))
            || (97 <=? a) && (a <=? 122) && ((97 <=? b) && (b <=? 122))
            || (65 <=? a) && (a <=? 90) && ((65 <=? b) && (b <=? 90))) eqn:C.
  - intros K. apply N.compare_eq in K. exact K.
  - destruct ((48 <=? a) && (a <=? 57)) eqn:D1; [discriminate|].
    destruct ((48 <=? b) && (b <=? 57)) eqn:D2; [discriminate|].
    destruct (a =? 95) eqn:U1; [discriminate|]. destruct (b =? 95) eqn:U2; [discriminate|].
    destruct ((97 <=? a) && (a <=? 122)) eqn:L1; [discriminate|].
    destruct ((97 <=? b) && (b <=? 122)) eqn:L2; [discriminate|]. intros _. lia.
Qed.

Theorem cmp_ident_total : forall a b,
  Forall (fun c => is_ident_char c = true) a -> Forall (fun c => is_ident_char c = true) b ->
  cmp_ident a b = Eq -> a = b.
Proof.
  induction a as [|x a IH]; intros [|y b] Fa Fb H; cbn [cmp_ident] in H; try discriminate; [reflexivity|].
  inversion Fa; inversion Fb; subst.
  destruct (cmp_char x y) eqn:C; try discriminate.
  apply cmp_char_eq in C; try assumption. subst y. f_equal. now apply IH.
Qed.
