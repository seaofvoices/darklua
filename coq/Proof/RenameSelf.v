(** The generator can hand out "self" (Model/Rename.v): it is never in the avoid set, and
    [insert_self] keeps it as it is.  Declaring enough locals inside a method reaches it. *)
From Coq Require Import NArith List Bool Lia ZArith ZifyBool ZifyN ZifyNat.
From DL Require Import Lib.Bytes Model.Rename Proof.RenameStream Proof.RenameInv.
Import ListNotations.
Open Scope N_scope.

Definition self := of_string "self".

Lemma self_passes av : ~ In self av -> filter_identifier av (nth_raw self_index) = true.
Proof.
  intros H. rewrite nth_raw_self. unfold filter_identifier. apply andb_true_iff. split.
  - apply negb_true_iff. now apply mem_false.
  - reflexivity.
Qed.

Definition top_get (s : state) (k : name) : option (name * bool) :=
  match stack s with f :: _ => dict_get (f_dict f) k | [] => None end.

Lemma top_get_add s real obf reuse k :
  top_get (add s real obf reuse) k = if bytes_eqb real k then Some (obf, reuse) else top_get s k.
Proof.
  unfold top_get, add. destruct (stack s) as [|f r]; cbn [stack frame_add f_dict dict_get];
    destruct (bytes_eqb real k) eqn:E; try reflexivity.
  now apply dict_get_remove_other.
Qed.

Lemma dict_get_In d k o (r : bool) :
  dict_get d k = Some (o, r) -> In o (if r then reusable d else kept d).
Proof.
  induction d as [|[k' [o' r']] d IH]; [discriminate|]. cbn [dict_get].
  destruct (bytes_eqb k' k); intros H.
  - inversion H; subst o' r'. unfold reusable, kept. destruct r; now left.
  - apply IH in H. unfold reusable, kept in *. destruct r; cbn [flat_map]; apply in_or_app; now right.
Qed.

Lemma top_get_In s k o (r : bool) :
  top_get s k = Some (o, r) -> In o (if r then live_gen s else live_kept s).
Proof.
  unfold top_get, live_gen, live_kept. destruct (stack s) as [|f st]; [discriminate|].
  intros H. apply dict_get_In in H. destruct r; cbn [flat_map]; apply in_or_app; now left.
Qed.

(** a state in which only fresh names have been drawn, inside a method *)
Definition inside_method (av : list name) (s : state) : Prop :=
  pool s = [] /\ avoid s = av /\ top_get s self = Some (self, false).

(** there, a declaration draws the next name the filter lets through, "self" at the latest *)
Lemma step_insert_inside av s x :
  ~ In self av -> x <> self -> inside_method av s -> pos s <= self_index ->
  exists q s', step s (OInsert x) = (s', Some (nth_raw q)) /\ pos s <= q <= self_index /\ pos s' = q + 1 /\
               inside_method av s' /\ top_get s' x = Some (nth_raw q, true).
Proof.
  intros NS NX [P [A G]] L.
  assert (R : self_index < 2 ^ N.of_nat search_bits) by reflexivity.
  destruct (search_finds (fun q => filter_identifier (avoid s) (nth_raw q)) search_bits (pos s) self_index)
    as [q [Hq [_ B]]]; [lia | rewrite A; now apply self_passes |].
  exists q, (add (mkState (stack s) (q + 1) (avoid s) [] (stuck s)) x (nth_raw q) true).
  split; [cbn [step]; unfold generate; now rewrite P, Hq|].
  split; [exact B|]. split; [now rewrite add_pos|].
  unfold inside_method. rewrite !top_get_add, add_avoid, bytes_eqb_refl, (bytes_eqb_neq x self NX).
  repeat split; try assumption. unfold add. now destruct (stack _).
Qed.

(** with enough declarations, one of them is renamed to self while the method's self is live *)
Lemma reach_self av x : ~ In self av -> x <> self -> forall fuel s,
  inside_method av s -> pos s <= self_index -> (N.to_nat (self_index - pos s) < fuel)%nat ->
  exists n, let s' := fold_left (fun s o => fst (step s o)) (repeat (OInsert x) n) s in
            In self (live_gen s') /\ In self (live_kept s').
Proof.
  intros NS NX. induction fuel as [|fuel IH]; intros s HI L F; [lia|].
  destruct (step_insert_inside av s x NS NX HI L) as [q [s' [St [B [P' [HI' T]]]]]].
  destruct (N.eq_dec q self_index) as [->|NE].
  - exists 1%nat. cbn [repeat fold_left]. rewrite St. cbn [fst]. rewrite nth_raw_self in T.
    split; [exact (top_get_In s' x self true T) | apply (top_get_In s' self self false), HI'].
  - destruct (IH s' HI') as [n Hn]; [lia | lia |].
    exists (S n). cbn [repeat fold_left]. rewrite St. exact Hn.
Qed.

(** REFUTED: generated names are not always disjoint from kept ones.  For every avoid set without
    "self" (the rule never puts it there) some run has "self" both as a live generated name and as
    the kept name of the method receiver. *)
Theorem generated_disjoint_from_kept_refuted : forall avoid0, ~ In self avoid0 ->
  exists ops, let s := run avoid0 ops in
    incl (keeps ops) avoid0 /\ exists n, In n (live_gen s) /\ In n (live_kept s).
Proof.
  intros avoid0 NS.
  assert (NS' : ~ In self (avoid0 ++ keywords)).
  { intros H. apply in_app_or in H as [H|H]; [contradiction|]. revert H. apply mem_false. reflexivity. }
  destruct (reach_self (avoid0 ++ keywords) [120] NS' ltac:(discriminate) (S (N.to_nat self_index))
                       (fold_left (fun s o => fst (step s o)) [OPush; OInsertSelf] (init avoid0))) as [n Hn].
  - repeat split.
  - cbn. discriminate.
  - cbn [fold_left step fst init add stack pos]. lia.
  - exists ([OPush; OInsertSelf] ++ repeat (OInsert [120]) n). cbv zeta. split.
    + rewrite keeps_app. cbn [keeps app]. clear. induction n; [intros x []|exact IHn].
    + exists self. unfold run. rewrite fold_left_app. exact Hn.
Qed.
