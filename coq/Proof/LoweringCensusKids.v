(** One level of a tree: the children of a node ([kids_*]), tagged by the position in which the
    traversal of Model/Visit.v visits them, so that a fact about the traversal is stated once
    about kids instead of once per constructor.
      Census  the census of a node is the root's own contribution [root_*] plus that of the kids,
      Weight  the size measure decomposes in the same way (root weight [wr_*]),
      Maps    the children maps of Model/Visit.v map the kids and keep the root,
      Agree   children maps that agree on the kids agree on the node. *)
From Coq Require Import ZArith NArith List Bool Lia ZifyBool ZifyN ZifyNat.
From DL Require Import Lib.Bytes Lua.Syntax Lua.Census Model.Visit Proof.LoweringCensusBase.
Import ListNotations.
Local Open Scope nat_scope.

(** a child and the role in which it is visited: expression, prefix, variable, the call of
    a call statement, the condition of a repeat, a block, a type *)
Inductive kid :=
| KE (e : expr) | KP (e : expr) | KV (e : expr) | KC (e : expr) | KR (e : expr)
| KB (b : block) | KT (t : ty).

Definition kids_opt_ty (o : option ty) : list kid := match o with Some t => [KT t] | None => [] end.
Definition kids_param (p : param) : list kid := match p with Param _ t => kids_opt_ty t end.
Definition kids_fbody (f : fbody) : list kid :=
  match f with
  | FBody ps _ vt rt gen _ body =>
    flat_map kids_param ps ++ kids_opt_ty vt ++ kids_opt_ty rt ++ kids_opt_ty gen ++ [KB body]
  end.
Definition kids_tentry (t : tentry) : list kid :=
  match t with TField _ v => [KE v] | TIndex k v => [KE k; KE v] | TValue v => [KE v] end.
Definition kids_args (a : args) : list kid :=
  match a with ATuple es => map KE es | AString _ => [] | ATable en => flat_map kids_tentry en end.
Definition kids_iseg (s : iseg) : list kid := match s with ISStr _ => [] | ISExpr e => [KE e] end.
Definition kids_ebranch (b : ebranch) : list kid := match b with EBranch c r => [KE c; KE r] end.

Definition kids_expr (e : expr) : list kid :=
  match e with
  | ENil | ETrue | EFalse | ENumber _ | EString _ | EVarArgs | EIdent _ => []
  | EInterp segs => flat_map kids_iseg segs
  | EField p _ => [KP p]
  | EIndex p k => [KP p; KE k]
  | ECall p _ a => KP p :: kids_args a
  | EFunction f => kids_fbody f
  | EIf bs els => flat_map kids_ebranch bs ++ [KE els]
  | EParen e' => [KE e']
  | ETable en => flat_map kids_tentry en
  | EUnary _ e' => [KE e']
  | EBinary _ l r => [KE l; KE r]
  | ETypeCast e' t => [KE e'; KT t]
  | ETypeInst p tys => KP p :: map KT tys
  end.

Definition kids_ty (t : ty) : list kid :=
  match t with TyNode _ subs es => map KT subs ++ map KE es end.

Definition kids_sbranch (b : sbranch) : list kid := match b with SBranch c body => [KE c; KB body] end.
Definition kids_opt_block (o : option block) : list kid := match o with Some b => [KB b] | None => [] end.
Definition kids_opt_expr (o : option expr) : list kid := match o with Some e => [KE e] | None => [] end.

Definition kids_stmt (s : stmt) : list kid :=
  match s with
  | SAssign vars vals => map KV vars ++ map KE vals
  | SDo b => [KB b]
  | SCall c => [KC c]
  | SCompound _ var v => [KV var; KE v]
  | SFunction _ _ _ f => kids_fbody f
  | SGenericFor vars es b => flat_map kids_param vars ++ map KE es ++ [KB b]
  | SIf bs els => flat_map kids_sbranch bs ++ kids_opt_block els
  | SLocal _ vars vals => flat_map kids_param vars ++ map KE vals
  | SLocalFunction _ f => kids_fbody f
  | SNumericFor var a b step body => kids_param var ++ [KE a; KE b] ++ kids_opt_expr step ++ [KB body]
  | SRepeat b c => [KB b; KR c]
  | SWhile c b => [KE c; KB b]
  | STypeDecl _ _ gen t => kids_opt_ty gen ++ [KT t]
  | STypeFunction _ _ f => kids_fbody f
  end.

Definition kids_last (l : laststmt) : list kid :=
  match l with LReturn es => map KE es | _ => [] end.

Definition f_kid (i : nat) (c : kid) : N :=
  match c with
  | KE e | KP e | KV e | KC e | KR e => f_expr i e
  | KB b => f_block i b
  | KT t => f_ty i t
  end.

Definition w_kid (c : kid) : nat :=
  match c with
  | KE e | KP e | KV e | KC e | KR e => w_expr e
  | KB b => w_block b
  | KT t => w_ty t
  end.

Definition attrs_root (i : nat) (f : fbody) : N :=
  match f with FBody _ _ _ _ _ attrs _ => if (attrs =? 0)%N then 0%N else u i 8 end.

Definition root_expr (i : nat) (e : expr) : N :=
  match e with
  | ENumber n => if luau_number n then u i 5 else 0%N
  | EInterp _ => u i 3
  | EIf _ _ => u i 2
  | EBinary BIDiv _ _ => u i 4
  | ETypeCast _ _ | ETypeInst _ _ => u i 7
  | EFunction f => attrs_root i f
  | _ => 0%N
  end.

Definition root_stmt (i : nat) (s : stmt) : N :=
  match s with
  | SCompound op _ _ => (u i 0 + match op with BIDiv => u i 4 | _ => 0 end)%N
  | SLocal c _ _ => if c then u i 6 else 0%N
  | STypeDecl _ _ _ _ => u i 7
  | STypeFunction _ _ f => (u i 7 + attrs_root i f)%N
  | SFunction _ _ _ f | SLocalFunction _ f => attrs_root i f
  | _ => 0%N
  end.

Definition root_last (i : nat) (l : laststmt) : N :=
  match l with LContinue => u i 1 | _ => 0%N end.

(** [kcbn]: on a goal about one constructor, unfolds the kids, the census [f_*] and the weight
    [w_*] of that node one level down, and the sums over them; nothing else reduces, so the
    subterms stay folded and [lia] sees a sum of atoms. *)
Ltac kcbn :=
  cbn [map f_kid w_kid sumN sum fold_right app flat_map kids_opt_ty kids_param kids_tentry kids_iseg kids_ebranch
       kids_sbranch kids_opt_block kids_opt_expr kids_expr kids_stmt kids_last kids_ty kids_args kids_fbody optN wopt
       f_iseg f_ebranch f_tentry f_sbranch f_expr f_stmt f_last f_args w_iseg w_ebranch w_tentry w_sbranch w_expr
       w_stmt w_last w_args root_expr root_stmt root_last attrs_root].

Lemma f_kids_opt_ty i o : sumN (map (f_kid i) (kids_opt_ty o)) = optN (f_ty i) o.
Proof. destruct o; kcbn; lia. Qed.

Lemma f_kids_param i p : sumN (map (f_kid i) (kids_param p)) = f_param i p.
Proof. destruct p. funf. cbn [kids_param]. apply f_kids_opt_ty. Qed.

Lemma f_kids_fbody i f : f_fbody i f = (attrs_root i f + sumN (map (f_kid i) (kids_fbody f)))%N.
Proof.
  destruct f as [ps va vt rt gen attrs body]. funf. cbn [kids_fbody attrs_root].
  rewrite !map_app, !sumN_app, !f_kids_opt_ty, sumN_flat_map.
  rewrite (sumN_map_ext (fun x => sumN (map (f_kid i) (kids_param x))) (f_param i) ps) by (intros; apply f_kids_param).
  cbn [map f_kid sumN fold_right]. lia.
Qed.

Lemma f_kids_tentry i t : sumN (map (f_kid i) (kids_tentry t)) = f_tentry i t.
Proof. destruct t; kcbn; lia. Qed.

Lemma f_kids_tentries i en : sumN (map (f_kid i) (flat_map kids_tentry en)) = sumN (map (f_tentry i) en).
Proof. rewrite sumN_flat_map. apply sumN_map_ext. intros; apply f_kids_tentry. Qed.

Lemma f_kids_map_KE i es : sumN (map (f_kid i) (map KE es)) = sumN (map (f_expr i) es).
Proof. rewrite map_map. reflexivity. Qed.
Lemma f_kids_map_KV i es : sumN (map (f_kid i) (map KV es)) = sumN (map (f_expr i) es).
Proof. rewrite map_map. reflexivity. Qed.
Lemma f_kids_map_KT i ts : sumN (map (f_kid i) (map KT ts)) = sumN (map (f_ty i) ts).
Proof. rewrite map_map. reflexivity. Qed.

Lemma f_kids_args i a : sumN (map (f_kid i) (kids_args a)) = f_args i a.
Proof. destruct a; funf; cbn [kids_args f_args]; [apply f_kids_map_KE|reflexivity|apply f_kids_tentries]. Qed.

Theorem f_expr_kids i e : f_expr i e = (root_expr i e + sumN (map (f_kid i) (kids_expr e)))%N.
Proof.
  destruct e; funf; cbn [f_expr root_expr kids_expr]; try (kcbn; lia).
  - rewrite sumN_flat_map. f_equal. apply sumN_map_ext. intros [b|e] _; kcbn; lia.
  - cbn [map f_kid]. rewrite sumN_cons, f_kids_args. lia.
  - apply f_kids_fbody.
  - rewrite map_app, sumN_app, sumN_flat_map.
    rewrite (sumN_map_ext (fun x => sumN (map (f_kid i) (kids_ebranch x))) (f_ebranch i) branches) by (intros [c r] _; kcbn; lia). kcbn. lia.
  - rewrite f_kids_tentries. lia.
  - cbn [map f_kid]. rewrite sumN_cons, f_kids_map_KT. lia.
Qed.

Theorem f_ty_kids i t : f_ty i t = (u i 7 + sumN (map (f_kid i) (kids_ty t)))%N.
Proof.
  destruct t as [k subs es]. funf. cbn [kids_ty].
  rewrite map_app, sumN_app, f_kids_map_KT, f_kids_map_KE. reflexivity.
Qed.

Lemma f_kids_params i ps : sumN (map (f_kid i) (flat_map kids_param ps)) = sumN (map (f_param i) ps).
Proof. rewrite sumN_flat_map. apply sumN_map_ext. intros; apply f_kids_param. Qed.

Theorem f_stmt_kids i s : f_stmt i s = (root_stmt i s + sumN (map (f_kid i) (kids_stmt s)))%N.
Proof.
  destruct s; funf; cbn [f_stmt root_stmt kids_stmt]; try (kcbn; lia).
  - rewrite map_app, sumN_app, f_kids_map_KV, f_kids_map_KE. lia.
  - apply f_kids_fbody.
  - rewrite !map_app, !sumN_app, f_kids_params, f_kids_map_KE. kcbn. lia.
  - rewrite map_app, sumN_app, sumN_flat_map.
    rewrite (sumN_map_ext (fun x => sumN (map (f_kid i) (kids_sbranch x))) (f_sbranch i) branches) by (intros [c b] _; kcbn; lia).
    destruct els; kcbn; lia.
  - rewrite map_app, sumN_app, f_kids_params, f_kids_map_KE. destruct is_const; lia.
  - apply f_kids_fbody.
  - rewrite !map_app, !sumN_app, f_kids_param. destruct step; kcbn; lia.
  - rewrite map_app, sumN_app, f_kids_opt_ty. kcbn. lia.
  - rewrite (f_kids_fbody i f). lia.
Qed.

Theorem f_last_kids i l : f_last i l = (root_last i l + sumN (map (f_kid i) (kids_last l)))%N.
Proof. destruct l; funf; cbn [f_last root_last kids_last]; try (kcbn; lia). rewrite f_kids_map_KE. lia. Qed.

Definition wr_fbody (f : fbody) : nat := match f with FBody ps _ _ _ _ _ _ => S (List.length ps) end.
Definition wr_args (a : args) : nat := match a with ATable en => S (List.length en) | _ => 1 end.
Definition wr_iseg (s : iseg) : nat := match s with ISStr _ => 1 | ISExpr _ => 6 end.

Definition wr_expr (e : expr) : nat :=
  match e with
  | EInterp segs => 8 + sum (map wr_iseg segs)
  | ECall _ _ a => S (wr_args a)
  | EFunction f => S (wr_fbody f)
  | EIf bs _ => S (12 * List.length bs)
  | ETable en => S (List.length en)
  | EBinary BIDiv _ _ => 8
  | ETypeCast _ _ | ETypeInst _ _ => 2
  | _ => 1
  end.

(** a compound assignment counts its variable twice: once as a kid, once here *)
Definition wr_stmt (s : stmt) : nat :=
  match s with
  | SCompound _ var _ => 40 + w_expr var
  | SFunction _ _ _ f | SLocalFunction _ f | STypeFunction _ _ f => S (wr_fbody f)
  | SGenericFor vars _ _ | SLocal _ vars _ => S (List.length vars)
  | SIf bs _ => S (List.length bs)
  | SNumericFor _ _ _ _ _ => 2
  | _ => 1
  end.

Lemma sum_map_const {A} c (l : list A) : sum (map (fun _ => c) l) = c * List.length l.
Proof. induction l as [|x l IH]; cbn [map List.length]; [symmetry; apply Nat.mul_0_r|]. rewrite sum_cons, IH, Nat.mul_succ_r. lia. Qed.

Lemma sum_kids {A} (w r : A -> nat) (g : A -> list kid) l :
  (forall x, w x = r x + sum (map w_kid (g x))) ->
  sum (map w l) = sum (map r l) + sum (map w_kid (flat_map g l)).
Proof.
  intros E. induction l as [|x l IH]; [reflexivity|].
  cbn [map flat_map]. rewrite map_app, sum_app, !sum_cons, E, IH. lia.
Qed.

Lemma w_kids_opt_ty o : sum (map w_kid (kids_opt_ty o)) = wopt w_ty o.
Proof. destruct o; kcbn; lia. Qed.
Lemma w_kids_param p : w_param p = 1 + sum (map w_kid (kids_param p)).
Proof. destruct p. wunf. cbn [kids_param]. rewrite w_kids_opt_ty. reflexivity. Qed.

Lemma w_kids_fbody f : w_fbody f = wr_fbody f + sum (map w_kid (kids_fbody f)).
Proof.
  destruct f as [ps va vt rt gen attrs body]. wunf. cbn [kids_fbody wr_fbody].
  rewrite (sum_kids _ _ _ ps w_kids_param), sum_map_const, !map_app, !sum_app, !w_kids_opt_ty. kcbn. lia.
Qed.

Lemma w_kids_tentry t : w_tentry t = 1 + sum (map w_kid (kids_tentry t)).
Proof. destruct t; kcbn; lia. Qed.

Lemma w_kids_tentries en : sum (map w_tentry en) = List.length en + sum (map w_kid (flat_map kids_tentry en)).
Proof. rewrite (sum_kids _ _ _ en w_kids_tentry), sum_map_const. lia. Qed.

Lemma w_kids_map_KE es : sum (map w_kid (map KE es)) = sum (map w_expr es).
Proof. rewrite map_map. reflexivity. Qed.
Lemma w_kids_map_KV es : sum (map w_kid (map KV es)) = sum (map w_expr es).
Proof. rewrite map_map. reflexivity. Qed.
Lemma w_kids_map_KT ts : sum (map w_kid (map KT ts)) = sum (map w_ty ts).
Proof. rewrite map_map. reflexivity. Qed.

Lemma w_kids_args a : w_args a = wr_args a + sum (map w_kid (kids_args a)).
Proof.
  destruct a; wunf; cbn [kids_args wr_args w_args]; [rewrite w_kids_map_KE; lia|kcbn; lia|].
  rewrite w_kids_tentries. lia.
Qed.

Lemma w_kids_iseg s : w_iseg s = wr_iseg s + sum (map w_kid (kids_iseg s)).
Proof. destruct s; kcbn; cbn [wr_iseg]; lia. Qed.
Lemma w_kids_ebranch b : w_ebranch b = 12 + sum (map w_kid (kids_ebranch b)).
Proof. destruct b; kcbn; lia. Qed.
Lemma w_kids_sbranch b : w_sbranch b = 1 + sum (map w_kid (kids_sbranch b)).
Proof. destruct b; kcbn; lia. Qed.

Theorem w_expr_kids e : w_expr e = wr_expr e + sum (map w_kid (kids_expr e)).
Proof.
  destruct e; wunf; cbn [kids_expr wr_expr w_expr]; try (kcbn; lia).
  - rewrite (sum_kids _ _ _ segs w_kids_iseg). lia.
  - cbn [map w_kid]. rewrite sum_cons, w_kids_args. lia.
  - rewrite w_kids_fbody. lia.
  - rewrite (sum_kids _ _ _ branches w_kids_ebranch), sum_map_const, map_app, sum_app. kcbn. lia.
  - rewrite w_kids_tentries. lia.
  - cbn [map w_kid]. rewrite sum_cons, w_kids_map_KT. lia.
Qed.

Theorem w_ty_kids t : w_ty t = S (sum (map w_kid (kids_ty t))).
Proof.
  destruct t as [k subs es]. wunf. cbn [kids_ty]. rewrite map_app, sum_app, w_kids_map_KT, w_kids_map_KE. reflexivity.
Qed.

Lemma w_kids_params ps : sum (map w_param ps) = List.length ps + sum (map w_kid (flat_map kids_param ps)).
Proof. rewrite (sum_kids _ _ _ ps w_kids_param), sum_map_const. lia. Qed.

Theorem w_stmt_kids s : w_stmt s = wr_stmt s + sum (map w_kid (kids_stmt s)).
Proof.
  destruct s; wunf; cbn [kids_stmt wr_stmt w_stmt]; try (kcbn; lia).
  - rewrite map_app, sum_app, w_kids_map_KV, w_kids_map_KE. lia.
  - rewrite w_kids_fbody. lia.
  - rewrite !map_app, !sum_app, w_kids_map_KE, w_kids_params. kcbn. lia.
  - rewrite (sum_kids _ _ _ branches w_kids_sbranch), sum_map_const, map_app, sum_app. destruct els; kcbn; lia.
  - rewrite map_app, sum_app, w_kids_map_KE, w_kids_params. lia.
  - rewrite w_kids_fbody. lia.
  - rewrite !map_app, !sum_app, w_kids_param. destruct step; kcbn; lia.
  - rewrite map_app, sum_app, w_kids_opt_ty. kcbn. lia.
  - rewrite w_kids_fbody. lia.
Qed.

Theorem w_last_kids l : w_last l = S (sum (map w_kid (kids_last l))).
Proof. destruct l; wunf; cbn [kids_last w_last]; try reflexivity. rewrite w_kids_map_KE. reflexivity. Qed.

(** so every kid is lighter than its parent *)
Lemma wr_expr_pos e : 1 <= wr_expr e.
Proof. destruct e; cbn [wr_expr]; try lia. destruct op; lia. Qed.
Lemma wr_stmt_pos s : 1 <= wr_stmt s.
Proof. destruct s; cbn [wr_stmt]; lia. Qed.

Theorem w_kids_expr e c : In c (kids_expr e) -> w_kid c < w_expr e.
Proof. intros H. pose proof (sum_in w_kid _ c H). pose proof (wr_expr_pos e). rewrite w_expr_kids. lia. Qed.
Theorem w_kids_ty t c : In c (kids_ty t) -> w_kid c < w_ty t.
Proof. intros H. pose proof (sum_in w_kid _ c H). rewrite w_ty_kids. lia. Qed.
Theorem w_kids_stmt s c : In c (kids_stmt s) -> w_kid c < w_stmt s.
Proof. intros H. pose proof (sum_in w_kid _ c H). pose proof (wr_stmt_pos s). rewrite w_stmt_kids. lia. Qed.
Theorem w_kids_last l c : In c (kids_last l) -> w_kid c < w_last l.
Proof. intros H. pose proof (sum_in w_kid _ c H). rewrite w_last_kids. lia. Qed.

Record vis := mkVis {
  ve : expr -> expr; vp : expr -> expr; vv : expr -> expr; vc : expr -> expr; vr : expr -> expr;
  vb : block -> block; vt : ty -> ty;
}.

Definition vkid (V : vis) (c : kid) : kid :=
  match c with
  | KE e => KE (ve V e) | KP e => KP (vp V e) | KV e => KV (vv V e) | KC e => KC (vc V e)
  | KR e => KR (vr V e) | KB b => KB (vb V b) | KT t => KT (vt V t)
  end.

Lemma flat_map_map_comm {A B} (g : A -> list B) (h : A -> A) (v : B -> B) l :
  (forall x, g (h x) = map v (g x)) -> flat_map g (map h l) = map v (flat_map g l).
Proof.
  intros H. induction l as [|x l IH]; [reflexivity|]. cbn [map flat_map]. rewrite map_app, H, IH. reflexivity.
Qed.

Section Maps.
Variable V : vis.
Let xe := expr_children (ve V) (vp V) (vb V) (vt V).

Lemma kids_opt_ty_map o : kids_opt_ty (option_map (vt V) o) = map (vkid V) (kids_opt_ty o).
Proof. destruct o; reflexivity. Qed.

Lemma kids_param_map p : kids_param (param_children (vt V) p) = map (vkid V) (kids_param p).
Proof. destruct p. cbn [param_children kids_param]. apply kids_opt_ty_map. Qed.

Lemma kids_params_map ps :
  flat_map kids_param (map (param_children (vt V)) ps) = map (vkid V) (flat_map kids_param ps).
Proof. apply flat_map_map_comm. apply kids_param_map. Qed.

Lemma kids_fbody_map f : kids_fbody (fbody_children (vb V) (vt V) f) = map (vkid V) (kids_fbody f).
Proof.
  destruct f as [ps va vt0 rt gen attrs body]. cbn [fbody_children kids_fbody].
  rewrite !map_app, kids_params_map, !kids_opt_ty_map. reflexivity.
Qed.

Lemma kids_tentries_map en :
  flat_map kids_tentry (map (tentry_children (ve V)) en) = map (vkid V) (flat_map kids_tentry en).
Proof. apply flat_map_map_comm. intros [f v|k v|v]; reflexivity. Qed.

Lemma map_KE_map es : map KE (map (ve V) es) = map (vkid V) (map KE es).
Proof. rewrite !map_map. reflexivity. Qed.
Lemma map_KV_map es : map KV (map (vv V) es) = map (vkid V) (map KV es).
Proof. rewrite !map_map. reflexivity. Qed.
Lemma map_KT_map ts : map KT (map (vt V) ts) = map (vkid V) (map KT ts).
Proof. rewrite !map_map. reflexivity. Qed.

Lemma kids_args_map a : kids_args (args_children (ve V) a) = map (vkid V) (kids_args a).
Proof. destruct a; cbn [args_children kids_args]; [apply map_KE_map|reflexivity|apply kids_tentries_map]. Qed.

Theorem kids_expr_map e : kids_expr (xe e) = map (vkid V) (kids_expr e).
Proof.
  unfold xe. destruct e; cbn [expr_children kids_expr]; try reflexivity.
  - apply flat_map_map_comm. intros [b|e]; reflexivity.
  - cbn [map vkid]. rewrite kids_args_map. reflexivity.
  - apply kids_fbody_map.
  - rewrite map_app. f_equal. apply flat_map_map_comm. intros [c r]; reflexivity.
  - apply kids_tentries_map.
  - cbn [map vkid]. rewrite map_KT_map. reflexivity.
Qed.

Theorem root_expr_map i e : root_expr i (xe e) = root_expr i e.
Proof. unfold xe. destruct e; try reflexivity. destruct f; reflexivity. Qed.

Lemma wr_fbody_map f : wr_fbody (fbody_children (vb V) (vt V) f) = wr_fbody f.
Proof. destruct f. cbn [fbody_children wr_fbody]. rewrite map_length. reflexivity. Qed.

Theorem wr_expr_map e : wr_expr (xe e) = wr_expr e.
Proof.
  unfold xe. destruct e; cbn [expr_children wr_expr]; rewrite ?map_length, ?wr_fbody_map; try reflexivity.
  - rewrite map_map. do 2 f_equal. apply map_ext. intros [b|e]; reflexivity.
  - destruct a; cbn [args_children wr_args]; rewrite ?map_length; reflexivity.
Qed.

Theorem kids_ty_map t : kids_ty (ty_children (ve V) (vt V) t) = map (vkid V) (kids_ty t).
Proof. destruct t as [k subs es]. cbn [ty_children kids_ty]. rewrite map_app, map_KT_map, map_KE_map. reflexivity. Qed.

Let xs := stmt_children (ve V) (vb V) (vt V) (vv V) (vc V) (vr V).

Theorem kids_stmt_map s : kids_stmt (xs s) = map (vkid V) (kids_stmt s).
Proof.
  unfold xs. destruct s; cbn [stmt_children kids_stmt]; try reflexivity.
  - rewrite map_app, map_KV_map, map_KE_map. reflexivity.
  - apply kids_fbody_map.
  - rewrite !map_app, kids_params_map, map_KE_map. reflexivity.
  - rewrite map_app. f_equal; [|destruct els; reflexivity].
    apply flat_map_map_comm. intros [c b]; reflexivity.
  - rewrite map_app, kids_params_map, map_KE_map. reflexivity.
  - apply kids_fbody_map.
  - rewrite !map_app, kids_param_map. destruct step; reflexivity.
  - rewrite map_app, kids_opt_ty_map. reflexivity.
  - apply kids_fbody_map.
Qed.

Theorem root_stmt_map i s : root_stmt i (xs s) = root_stmt i s.
Proof. unfold xs. destruct s; try reflexivity; destruct f; reflexivity. Qed.

Theorem wr_stmt_map s : (forall e, w_expr (vv V e) <= w_expr e) -> wr_stmt (xs s) <= wr_stmt s.
Proof.
  intros Hv. unfold xs. destruct s; cbn [stmt_children wr_stmt]; rewrite ?map_length, ?wr_fbody_map; try lia.
  pose proof (Hv var). lia.
Qed.

Theorem kids_last_map l : kids_last (last_children (ve V) l) = map (vkid V) (kids_last l).
Proof. destruct l; cbn [last_children kids_last]; try reflexivity. apply map_KE_map. Qed.

Theorem root_last_map i l : root_last i (last_children (ve V) l) = root_last i l.
Proof. destruct l; reflexivity. Qed.
End Maps.

Lemma sumN_kids_zero i V l :
  (forall c, In c l -> f_kid i (vkid V c) = 0%N) -> sumN (map (f_kid i) (map (vkid V) l)) = 0%N.
Proof. intros H. rewrite map_map. apply sumN_map_zero. exact H. Qed.

Lemma f_expr_children i V e :
  (forall c, In c (kids_expr e) -> f_kid i (vkid V c) = 0%N) ->
  f_expr i (expr_children (ve V) (vp V) (vb V) (vt V) e) = root_expr i e.
Proof. intros H. rewrite f_expr_kids, root_expr_map, kids_expr_map, sumN_kids_zero by exact H. lia. Qed.

Lemma f_ty_children i V t :
  (forall c, In c (kids_ty t) -> f_kid i (vkid V c) = 0%N) ->
  f_ty i (ty_children (ve V) (vt V) t) = u i 7.
Proof. intros H. rewrite f_ty_kids, kids_ty_map, sumN_kids_zero by exact H. lia. Qed.

Lemma f_stmt_children i V s :
  (forall c, In c (kids_stmt s) -> f_kid i (vkid V c) = 0%N) ->
  f_stmt i (stmt_children (ve V) (vb V) (vt V) (vv V) (vc V) (vr V) s) = root_stmt i s.
Proof. intros H. rewrite f_stmt_kids, root_stmt_map, kids_stmt_map, sumN_kids_zero by exact H. lia. Qed.

Lemma f_last_children i V l :
  (forall c, In c (kids_last l) -> f_kid i (vkid V c) = 0%N) ->
  f_last i (last_children (ve V) l) = root_last i l.
Proof. intros H. rewrite f_last_kids, root_last_map, kids_last_map, sumN_kids_zero by exact H. lia. Qed.

Lemma f_expr_zero_inv i e : f_expr i e = 0%N -> root_expr i e = 0%N /\ forall c, In c (kids_expr e) -> f_kid i c = 0%N.
Proof.
  rewrite f_expr_kids. intros H. split; [lia|]. apply sumN_map_zero_inv. lia.
Qed.
Lemma f_ty_zero_inv i t : f_ty i t = 0%N -> u i 7 = 0%N /\ forall c, In c (kids_ty t) -> f_kid i c = 0%N.
Proof. rewrite f_ty_kids. intros H. split; [lia|]. apply sumN_map_zero_inv. lia. Qed.
Lemma f_stmt_zero_inv i s : f_stmt i s = 0%N -> root_stmt i s = 0%N /\ forall c, In c (kids_stmt s) -> f_kid i c = 0%N.
Proof. rewrite f_stmt_kids. intros H. split; [lia|]. apply sumN_map_zero_inv. lia. Qed.
Lemma f_last_zero_inv i l : f_last i l = 0%N -> root_last i l = 0%N /\ forall c, In c (kids_last l) -> f_kid i c = 0%N.
Proof. rewrite f_last_kids. intros H. split; [lia|]. apply sumN_map_zero_inv. lia. Qed.

Definition kid_agree (V V' : vis) (c : kid) : Prop :=
  match c with
  | KE e => ve V e = ve V' e | KP e => vp V e = vp V' e | KV e => vv V e = vv V' e | KC e => vc V e = vc V' e
  | KR e => vr V e = vr V' e | KB b => vb V b = vb V' b | KT t => vt V t = vt V' t
  end.

(** split the hypothesis on the kids of a node along the shape of the kid list *)
Ltac split_kids H := rewrite ?Forall_app, ?Forall_cons_iff in H; decompose [and] H.

Section Agree.
Variables V V' : vis.

Lemma list_agree {A} (g : A -> list kid) (h h' : A -> A) l :
  (forall x, Forall (kid_agree V V') (g x) -> h x = h' x) ->
  Forall (kid_agree V V') (flat_map g l) -> map h l = map h' l.
Proof. intros E H. rewrite Forall_flat_map in H. apply map_ext_Forall. revert H. apply Forall_impl. exact E. Qed.

Lemma exprs_agree es : Forall (kid_agree V V') (map KE es) -> map (ve V) es = map (ve V') es.
Proof. rewrite Forall_map. apply map_ext_Forall. Qed.
Lemma vars_agree es : Forall (kid_agree V V') (map KV es) -> map (vv V) es = map (vv V') es.
Proof. rewrite Forall_map. apply map_ext_Forall. Qed.
Lemma tys_agree ts : Forall (kid_agree V V') (map KT ts) -> map (vt V) ts = map (vt V') ts.
Proof. rewrite Forall_map. apply map_ext_Forall. Qed.

Lemma opt_ty_agree o : Forall (kid_agree V V') (kids_opt_ty o) -> option_map (vt V) o = option_map (vt V') o.
Proof. destruct o as [t|]; [|reflexivity]. cbn [kids_opt_ty option_map]. intros H. split_kids H. f_equal. assumption. Qed.

Lemma opt_block_agree o : Forall (kid_agree V V') (kids_opt_block o) -> option_map (vb V) o = option_map (vb V') o.
Proof. destruct o as [b|]; [|reflexivity]. cbn [kids_opt_block option_map]. intros H. split_kids H. f_equal. assumption. Qed.
Lemma opt_expr_agree o : Forall (kid_agree V V') (kids_opt_expr o) -> option_map (ve V) o = option_map (ve V') o.
Proof. destruct o as [e|]; [|reflexivity]. cbn [kids_opt_expr option_map]. intros H. split_kids H. f_equal. assumption. Qed.

Lemma param_agree p : Forall (kid_agree V V') (kids_param p) -> param_children (vt V) p = param_children (vt V') p.
Proof. destruct p. cbn [kids_param param_children]. intros H. f_equal. apply opt_ty_agree, H. Qed.

Lemma fbody_agree f : Forall (kid_agree V V') (kids_fbody f) ->
  fbody_children (vb V) (vt V) f = fbody_children (vb V') (vt V') f.
Proof.
  destruct f as [ps va vt0 rt gen attrs body]. cbn [kids_fbody fbody_children]. intros H. split_kids H.
  f_equal; auto using opt_ty_agree, (list_agree kids_param), param_agree.
Qed.

Lemma tentry_agree t : Forall (kid_agree V V') (kids_tentry t) -> tentry_children (ve V) t = tentry_children (ve V') t.
Proof. destruct t; cbn [kids_tentry tentry_children]; intros H; split_kids H; f_equal; assumption. Qed.

Lemma args_agree a : Forall (kid_agree V V') (kids_args a) -> args_children (ve V) a = args_children (ve V') a.
Proof.
  destruct a; cbn [kids_args args_children]; intros H; f_equal;
    auto using exprs_agree, (list_agree kids_tentry), tentry_agree.
Qed.

Lemma iseg_agree s : Forall (kid_agree V V') (kids_iseg s) -> iseg_children (ve V) s = iseg_children (ve V') s.
Proof. destruct s; cbn [kids_iseg iseg_children]; intros H; split_kids H; f_equal; assumption. Qed.
Lemma ebranch_agree b : Forall (kid_agree V V') (kids_ebranch b) -> ebranch_children (ve V) b = ebranch_children (ve V') b.
Proof. destruct b; cbn [kids_ebranch ebranch_children]; intros H; split_kids H; f_equal; assumption. Qed.
Lemma sbranch_agree b : Forall (kid_agree V V') (kids_sbranch b) ->
  sbranch_children (ve V) (vb V) b = sbranch_children (ve V') (vb V') b.
Proof. destruct b; cbn [kids_sbranch sbranch_children]; intros H; split_kids H; f_equal; assumption. Qed.

Theorem expr_children_agree e : Forall (kid_agree V V') (kids_expr e) ->
  expr_children (ve V) (vp V) (vb V) (vt V) e = expr_children (ve V') (vp V') (vb V') (vt V') e.
Proof.
  destruct e; cbn [kids_expr expr_children]; intros H; split_kids H; f_equal;
    auto using fbody_agree, args_agree, tys_agree, (list_agree kids_iseg), iseg_agree,
      (list_agree kids_ebranch), ebranch_agree, (list_agree kids_tentry), tentry_agree.
Qed.

Theorem ty_children_agree t : Forall (kid_agree V V') (kids_ty t) ->
  ty_children (ve V) (vt V) t = ty_children (ve V') (vt V') t.
Proof. destruct t. cbn [kids_ty ty_children]. intros H. split_kids H. f_equal; auto using tys_agree, exprs_agree. Qed.

Theorem stmt_children_agree s : Forall (kid_agree V V') (kids_stmt s) ->
  stmt_children (ve V) (vb V) (vt V) (vv V) (vc V) (vr V) s =
  stmt_children (ve V') (vb V') (vt V') (vv V') (vc V') (vr V') s.
Proof.
  destruct s; cbn [kids_stmt stmt_children]; intros H; split_kids H; f_equal;
    auto using fbody_agree, exprs_agree, vars_agree, opt_ty_agree, opt_block_agree, opt_expr_agree, param_agree,
      (list_agree kids_param), (list_agree kids_sbranch), sbranch_agree.
Qed.

Theorem last_children_agree l : Forall (kid_agree V V') (kids_last l) -> last_children (ve V) l = last_children (ve V') l.
Proof. destruct l; cbn [kids_last last_children]; intros H; f_equal; auto using exprs_agree. Qed.
End Agree.

Section Weight.
Variable V : vis.
Hypothesis HV : forall c, w_kid (vkid V c) <= w_kid c.

Lemma w_kids_visited l : sum (map w_kid (map (vkid V) l)) <= sum (map w_kid l).
Proof. rewrite map_map. apply sum_map_le_pointwise. intros c _. apply HV. Qed.

Theorem w_expr_children e : w_expr (expr_children (ve V) (vp V) (vb V) (vt V) e) <= w_expr e.
Proof. rewrite !w_expr_kids, kids_expr_map, wr_expr_map. pose proof (w_kids_visited (kids_expr e)). lia. Qed.

Theorem w_ty_children t : w_ty (ty_children (ve V) (vt V) t) <= w_ty t.
Proof. rewrite !w_ty_kids, kids_ty_map. pose proof (w_kids_visited (kids_ty t)). lia. Qed.

Theorem w_stmt_children s : w_stmt (stmt_children (ve V) (vb V) (vt V) (vv V) (vc V) (vr V) s) <= w_stmt s.
Proof.
  rewrite !w_stmt_kids, kids_stmt_map. pose proof (w_kids_visited (kids_stmt s)).
  pose proof (wr_stmt_map V s (fun e => HV (KV e))). lia.
Qed.

Theorem w_last_children l : w_last (last_children (ve V) l) <= w_last l.
Proof. rewrite !w_last_kids, kids_last_map. pose proof (w_kids_visited (kids_last l)). lia. Qed.
End Weight.
