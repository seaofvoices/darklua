(** The other eight lowering rules keep a tree in the domain of remove_continue: if no
    [continue] is stray (Model/RemoveContinue.v: [stray_*] = 0), none is after the rule.

    1. children maps ([Model/Visit.v]) with zero-preserving visitors preserve [stray = 0];
    2. [visit_zero]: for hooks that preserve [stray = 0] at the node they rewrite, the whole
       traversal does, at EVERY fuel (no sufficiency needed: with no fuel left a node is
       returned unchanged);
    3. each of the eight processors' hooks preserves it. *)
From Coq Require Import ZArith NArith List Bool Lia ZifyBool ZifyN ZifyNat.
From DL Require Import Lib.Bytes Lua.Syntax Lua.Census Model.Evaluator Model.Visit Model.Lowering Model.RemoveContinue
  Proof.LoweringCensusBase Proof.LoweringCensusKids Proof.LoweringCensusVisit Proof.LoweringCensusAll
  Proof.RemoveContinue.
Import ListNotations.
Local Open Scope nat_scope.

Lemma sumN_map_map_zero {A} (F : A -> N) (g : A -> A) l :
  (forall x, In x l -> F x = 0%N -> F (g x) = 0%N) -> sumN (map F l) = 0%N -> sumN (map F (map g l)) = 0%N.
Proof.
  intros H Z. apply sumN_map_zero. intros y Hy. apply in_map_iff in Hy as (x & <- & Hx).
  apply H; [exact Hx|]. exact (sumN_map_zero_inv F l Z x Hx).
Qed.

Lemma optN_map_zero {A} (F : A -> N) (g : A -> A) o :
  (forall x, F x = 0%N -> F (g x) = 0%N) -> optN F o = 0%N -> optN F (option_map g o) = 0%N.
Proof. destruct o; cbn [optN option_map]; auto. Qed.

Ltac zhyp :=
  repeat match goal with
  | H : (_ + _ = 0)%N |- _ => apply N.eq_add_0 in H; destruct H
  end.
Ltac zgoal := repeat match goal with |- (_ + _ = 0)%N => apply N.eq_add_0; split end.

Section Children.
Variable V : vis.
Hypothesis He : forall e, stray_expr e = 0%N -> stray_expr (ve V e) = 0%N.
Hypothesis Hp : forall e, stray_expr e = 0%N -> stray_expr (vp V e) = 0%N.
Hypothesis Hv : forall e, stray_expr e = 0%N -> stray_expr (vv V e) = 0%N.
Hypothesis Hc : forall e, stray_expr e = 0%N -> stray_expr (vc V e) = 0%N.
Hypothesis Hr : forall e, stray_expr e = 0%N -> stray_expr (vr V e) = 0%N.
Hypothesis Hb : forall inl b, stray_block inl b = 0%N -> stray_block inl (vb V b) = 0%N.
Hypothesis Ht : forall t, stray_ty t = 0%N -> stray_ty (vt V t) = 0%N.

(** [leaf] closes a goal [stray_x (visited child) = 0] from [stray_x child = 0] in the context:
    a child by the hypothesis on its visitor, a list or an option of children by the two
    lemmas above, a child of a smaller class by its lemma below, once proved *)
Local Hint Resolve sumN_map_map_zero optN_map_zero : zero.
Local Ltac leaf := auto with zero.

Lemma z_param p : stray_param p = 0%N -> stray_param (param_children (vt V) p) = 0%N.
Proof. destruct p as [x t]. cbn [param_children]. sunf. intros Z. leaf. Qed.
Local Hint Resolve z_param : zero.

Lemma z_fbody inl f : stray_fbody inl f = 0%N -> stray_fbody inl (fbody_children (vb V) (vt V) f) = 0%N.
Proof.
  destruct f as [ps va vt0 rt gen attrs body]. cbn [fbody_children]. sunf. intros Z.
  zhyp. zgoal; leaf.
Qed.

Lemma z_tentry t : stray_tentry t = 0%N -> stray_tentry (tentry_children (ve V) t) = 0%N.
Proof. destruct t; cbn [tentry_children]; sunf; intros Z; zhyp; zgoal; leaf. Qed.
Local Hint Resolve z_fbody z_tentry : zero.

Lemma z_args a : stray_args a = 0%N -> stray_args (args_children (ve V) a) = 0%N.
Proof.
  destruct a; cbn [args_children]; sunf; intros Z; leaf.
Qed.

Lemma z_iseg s : stray_iseg s = 0%N -> stray_iseg (iseg_children (ve V) s) = 0%N.
Proof. destruct s; cbn [iseg_children]; sunf; intros Z; leaf. Qed.

Lemma z_ebranch b : stray_ebranch b = 0%N -> stray_ebranch (ebranch_children (ve V) b) = 0%N.
Proof. destruct b; cbn [ebranch_children]; sunf; intros Z; zhyp; zgoal; leaf. Qed.
Local Hint Resolve z_args z_iseg z_ebranch : zero.

Lemma z_expr_children e : stray_expr e = 0%N ->
  stray_expr (expr_children (ve V) (vp V) (vb V) (vt V) e) = 0%N.
Proof.
  destruct e; cbn [expr_children]; sunf; intros Z; zhyp; zgoal; leaf.
Qed.

Lemma z_ty_children t : stray_ty t = 0%N -> stray_ty (ty_children (ve V) (vt V) t) = 0%N.
Proof. destruct t as [k subs es]. cbn [ty_children]. sunf. intros Z. zhyp. zgoal; leaf. Qed.

Lemma z_sbranch inl b : stray_sbranch inl b = 0%N -> stray_sbranch inl (sbranch_children (ve V) (vb V) b) = 0%N.
Proof. destruct b; cbn [sbranch_children]; sunf; intros Z; zhyp; zgoal; leaf. Qed.
Local Hint Resolve z_sbranch : zero.

Lemma z_last_children inl l : stray_last inl l = 0%N -> stray_last inl (last_children (ve V) l) = 0%N.
Proof. destruct l; cbn [last_children]; sunf; intros Z; leaf. Qed.

Lemma z_stmt_children inl s : stray_stmt inl s = 0%N ->
  stray_stmt inl (stmt_children (ve V) (vb V) (vt V) (vv V) (vc V) (vr V) s) = 0%N.
Proof.
  destruct s; cbn [stmt_children]; sunf; intros Z; zhyp; zgoal; leaf.
Qed.
End Children.

Definition hooks_z (H : hooks) : Prop :=
  (forall e, stray_expr e = 0%N -> stray_expr (h_expr H e) = 0%N) /\
  (forall e, stray_expr e = 0%N -> stray_expr (h_prefix H e) = 0%N) /\
  (forall inl k s, stray_stmt inl s = 0%N -> stray_stmt inl (fst (h_stmt H k s)) = 0%N) /\
  (forall inl b, stray_block inl b = 0%N -> stray_block inl (h_block H b) = 0%N).

Definition zero_at (H : hooks) (n : nat) : Prop :=
  (forall k e, stray_expr e = 0%N -> stray_expr (visit_expr H n k e) = 0%N) /\
  (forall k e, stray_expr e = 0%N -> stray_expr (visit_prefix H n k e) = 0%N) /\
  (forall k e, stray_expr e = 0%N -> stray_expr (visit_var H n k e) = 0%N) /\
  (forall k e, stray_expr e = 0%N -> stray_expr (visit_call H n k e) = 0%N) /\
  (forall k t, stray_ty t = 0%N -> stray_ty (visit_ty H n k t) = 0%N) /\
  (forall inl k s, stray_stmt inl s = 0%N -> stray_stmt inl (fst (visit_stmt H n k s)) = 0%N) /\
  (forall inl k b, stray_block inl b = 0%N -> stray_block inl (visit_block H n k b) = 0%N).

Theorem visit_zero H : hooks_z H -> forall n, zero_at H n.
Proof.
  intros (Ze & Zp & Zs & Zb). induction n as [|n IH].
  - unfold zero_at. repeat match goal with |- _ /\ _ => split end; intros; assumption.
  - destruct IH as (Ie & Ip & Iv & Ic & It & Is & Ib).
    assert (X : forall k kc e', stray_expr e' = 0%N ->
              stray_expr (expr_children (ve (Vof H n k kc)) (vp (Vof H n k kc)) (vb (Vof H n k kc))
                                        (vt (Vof H n k kc)) e') = 0%N).
    { intros k kc e'. apply z_expr_children; cbn [Vof ve vp vv vc vr vb vt]; auto. }
    unfold zero_at. repeat match goal with |- _ /\ _ => split end.
    + intros k e Z. rewrite visit_expr_S. apply X, Ze, Z.
    + intros k e Z. rewrite visit_prefix_S. destruct (is_prefix_form e); apply X; auto.
    + intros k e Z. rewrite visit_var_S. destruct (is_var_form e); apply X; auto.
    + intros k e Z. rewrite visit_call_S. destruct (is_call_form e); apply X; auto.
    + intros k t Z. rewrite visit_ty_S. apply z_ty_children; cbn [Vof ve vp vv vc vr vb vt]; auto.
    + intros inl k s Z. rewrite visit_stmt_S. cbv zeta. cbn [fst].
      apply z_stmt_children; cbn [Vof ve vp vv vc vr vb vt]; auto.
    + intros inl k b Z. rewrite visit_block_S. pose proof (Zb inl b Z) as Z'.
      destruct (h_block H b) as [ss last]. revert Z'. sunf. intros Z'. zhyp. zgoal.
      * apply sumN_map_zero. apply Forall_forall.
        apply (thread_Forall (fun s => stray_stmt inl s = 0%N)).
        intros k' s Hs. apply Is. exact (sumN_map_zero_inv _ _ H0 s Hs).
      * apply optN_map_zero; [|assumption]. intros l Zl.
        apply (z_last_children (Vof H n (snd (thread (visit_stmt H n) k ss)) 0)); cbn [Vof ve vp vv vc vr vb vt]; auto.
Qed.

Corollary run_rule_zero H : hooks_z H -> forall b, continue_in_loops b = true -> continue_in_loops (run_rule H b) = true.
Proof.
  intros HZ b Hb. unfold continue_in_loops, stray_continues in *. apply N.eqb_eq in Hb. apply N.eqb_eq.
  unfold run_rule. destruct (visit_zero H HZ (w_block b)) as (_ & _ & _ & _ & _ & _ & Ib). apply Ib, Hb.
Qed.

Ltac ssimp := repeat (progress (sunf; cbn [map optN]; rewrite ?sumN_cons, ?sumN_nil)).
Ltac ssimp_in H := revert H; ssimp; intro H.

Lemma hooks_z_id_parts :
  (forall e, stray_expr e = 0%N -> stray_expr ((fun e => e) e) = 0%N) /\
  (forall inl (k : nat) s, stray_stmt inl s = 0%N -> stray_stmt inl (fst ((fun k s => (s, k)) k s)) = 0%N) /\
  (forall inl b, stray_block inl b = 0%N -> stray_block inl ((fun b => b) b) = 0%N).
Proof. repeat split; intros; assumption. Qed.

Lemma z_wrap_in_table e : stray_expr e = 0%N -> stray_expr (wrap_in_table e) = 0%N.
Proof. intros Z. unfold wrap_in_table. destruct (can_return_multiple_values e); ssimp; lia. Qed.

Lemma z_convert_if_branch c r acc : stray_expr c = 0%N -> stray_expr r = 0%N -> stray_expr acc = 0%N ->
  stray_expr (convert_if_branch c r acc) = 0%N.
Proof.
  intros Zc Zr Za. unfold convert_if_branch.
  pose proof (z_wrap_in_table r Zr). pose proof (z_wrap_in_table acc Za).
  destruct (is_truthy (evaluate r)) as [[|]|]; unfold num_one; ssimp; lia.
Qed.

Lemma z_rw_if_expression e : stray_expr e = 0%N -> stray_expr (rw_if_expression e) = 0%N.
Proof.
  intros Z. destruct e; try exact Z. ssimp_in Z. zhyp.
  destruct branches as [|b bs]; [ssimp; assumption|].
  cbn [rw_if_expression]. revert H. generalize (b :: bs). intros l. induction l as [|[c r] l IH]; intros Hl.
  - exact H0.
  - cbn [fold_right]. ssimp_in Hl. zhyp. apply z_convert_if_branch; auto.
Qed.

Lemma hooks_z_if_expression : hooks_z hooks_if_expression.
Proof. repeat split; cbn [hooks_if_expression h_expr h_prefix h_stmt h_block fst]; auto. apply z_rw_if_expression. Qed.

Lemma z_simplify_prefix p : stray_expr p = 0%N -> stray_expr (simplify_prefix p) = 0%N.
Proof. intros Z. destruct p; try exact Z. destruct p; exact Z. Qed.

Lemma z_remove_parens e : stray_expr e = 0%N -> stray_expr (remove_parens e) = 0%N.
Proof. intros Z. destruct e; exact Z. Qed.

Lemma z_rw_compound_assign_k inl k s : stray_stmt inl s = 0%N -> stray_stmt inl (fst (rw_compound_assign_k k s)) = 0%N.
Proof.
  intros Z. destruct s; try exact Z. ssimp_in Z. zhyp. unfold rw_compound_assign_k.
  destruct var; cbn [fst]; unfold plain_assign, do_assign, local_temps; ssimp_in H; try (ssimp; lia).
  - (* field *)
    pose proof (z_simplify_prefix _ H). pose proof (z_remove_parens _ H).
    destruct (prefix_needs_temp var); cbn [fst]; unfold plain_assign; ssimp; lia.
  - (* index *) zhyp.
    pose proof (z_simplify_prefix _ H). pose proof (z_remove_parens _ H). pose proof (z_remove_parens _ H1).
    destruct (prefix_needs_temp var1), (key_needs_temp var2); cbn [fst]; unfold plain_assign; ssimp; lia.
Qed.

Lemma hooks_z_compound_assign : hooks_z hooks_compound_assign.
Proof. repeat split; cbn [hooks_compound_assign h_expr h_prefix h_stmt h_block]; auto. apply z_rw_compound_assign_k. Qed.

Lemma z_rw_floor_division e : stray_expr e = 0%N -> stray_expr (rw_floor_division e) = 0%N.
Proof. intros Z. destruct e; try exact Z. destruct op; try exact Z. ssimp_in Z. cbn [rw_floor_division]. ssimp. lia. Qed.

Lemma z_rw_floor_division_stmt inl s : stray_stmt inl s = 0%N -> stray_stmt inl (rw_floor_division_stmt s) = 0%N.
Proof.
  intros Z. destruct s; try exact Z. destruct op; try exact Z. unfold rw_floor_division_stmt.
  destruct (visit_zero _ hooks_z_compound_assign (w_stmt (SCompound BIDiv var v))) as (_ & _ & _ & _ & _ & Is & _).
  apply Is, Z.
Qed.

Lemma hooks_z_floor_division : hooks_z hooks_floor_division.
Proof.
  repeat split; cbn [hooks_floor_division h_expr h_prefix h_stmt h_block fst]; auto.
  - apply z_rw_floor_division.
  - intros inl _ s. apply z_rw_floor_division_stmt.
Qed.

Lemma z_interp_values st segs : sumN (map stray_iseg segs) = 0%N ->
  sumN (map stray_expr (interp_values st segs)) = 0%N.
Proof.
  induction segs as [|[s|e] segs IH]; intros Z; ssimp_in Z; cbn [interp_values flat_map app] in *.
  - reflexivity.
  - apply IH, Z.
  - zhyp. fold (interp_values st segs). cbn [map]. rewrite sumN_cons. rewrite (IH H0).
    destruct st; unfold call_tostring; ssimp; lia.
Qed.

Lemma z_rw_interpolated_string st e : stray_expr e = 0%N -> stray_expr (rw_interpolated_string st e) = 0%N.
Proof.
  intros Z. destruct e; try exact Z. ssimp_in Z. unfold rw_interpolated_string.
  pose proof (z_interp_values st segs Z) as Zv.
  destruct segs as [|[s|v] [|sg segs]]; unfold call_tostring; ssimp; ssimp_in Z; try lia.
Qed.

Lemma hooks_z_interpolated_string st : hooks_z (hooks_interpolated_string st).
Proof. repeat split; cbn [hooks_interpolated_string h_expr h_prefix h_stmt h_block fst]; auto. apply z_rw_interpolated_string. Qed.

Lemma hooks_z_luau_number : hooks_z hooks_luau_number.
Proof.
  repeat split; cbn [hooks_luau_number h_expr h_prefix h_stmt h_block fst]; auto.
  intros e Z. destruct e; exact Z.
Qed.

Lemma hooks_z_const : hooks_z hooks_const.
Proof.
  repeat split; cbn [hooks_const h_expr h_prefix h_stmt h_block fst]; auto.
  intros inl k s Z. destruct s; exact Z.
Qed.

Lemma z_clear_params ps : sumN (map stray_param (map clear_param ps)) = 0%N.
Proof. apply sumN_map_zero. intros y Hy. apply in_map_iff in Hy as ([x t] & <- & _). reflexivity. Qed.

Lemma z_clear_fbody inl f : stray_fbody inl f = 0%N -> stray_fbody inl (clear_fbody f) = 0%N.
Proof.
  destruct f as [ps va vt0 rt gen attrs body]. cbn [clear_fbody]. sunf. intros Z. zhyp.
  rewrite z_clear_params. cbn [optN]. lia.
Qed.

Lemma z_strip_types e : stray_expr e = 0%N -> stray_expr (strip_types e) = 0%N.
Proof.
  induction e; intros Z; try exact Z; cbn [strip_types].
  - ssimp_in Z. zhyp. destruct (can_return_multiple_values e); [ssimp; assumption|auto].
  - ssimp_in Z. zhyp. destruct (can_return_multiple_values e); [ssimp; assumption|auto].
Qed.

Lemma z_rw_types e : stray_expr e = 0%N -> stray_expr (rw_types e) = 0%N.
Proof.
  intros Z. apply z_strip_types in Z. unfold rw_types. destruct (strip_types e); try exact Z.
  cbn [stray_expr] in *. apply z_clear_fbody, Z.
Qed.

Lemma z_rw_types_prefix p : stray_expr p = 0%N -> stray_expr (rw_types_prefix p) = 0%N.
Proof.
  induction p; intros Z; try exact Z. cbn [rw_types_prefix]. ssimp_in Z. zhyp. auto.
Qed.

Lemma z_rw_types_stmt inl s : stray_stmt inl s = 0%N -> stray_stmt inl (rw_types_stmt s) = 0%N.
Proof.
  intros Z. destruct s; try exact Z; cbn [rw_types_stmt]; ssimp_in Z; zhyp; ssimp; rewrite ?z_clear_params.
  - apply z_clear_fbody, Z.
  - lia.
  - lia.
  - apply z_clear_fbody, Z.
  - destruct var; cbn [clear_param]. ssimp. lia.
Qed.

Lemma z_rw_types_block inl b : stray_block inl b = 0%N -> stray_block inl (rw_types_block b) = 0%N.
Proof.
  destruct b as [ss last]. cbn [rw_types_block]. sunf. intros Z. zhyp. zgoal; [|assumption].
  apply sumN_map_zero. intros s Hs. apply filter_In in Hs as [Hs _]. exact (sumN_map_zero_inv _ _ H s Hs).
Qed.

Lemma hooks_z_types : hooks_z hooks_types.
Proof.
  repeat split; cbn [hooks_types h_expr h_prefix h_stmt h_block fst].
  - apply z_rw_types.
  - apply z_rw_types_prefix.
  - intros inl _ s. apply z_rw_types_stmt.
  - apply z_rw_types_block.
Qed.

Lemma z_clear_attrs inl f : stray_fbody inl (clear_attrs f) = stray_fbody inl f.
Proof. destruct f. reflexivity. Qed.

Lemma hooks_z_attribute : hooks_z hooks_attribute.
Proof.
  repeat split; cbn [hooks_attribute h_expr h_prefix h_stmt h_block fst]; auto.
  - intros e Z. destruct e; try exact Z. cbn [rw_attribute stray_expr] in *. rewrite z_clear_attrs. exact Z.
  - intros inl _ s Z. destruct s; try exact Z; cbn [rw_attribute_stmt stray_stmt] in *; rewrite z_clear_attrs; exact Z.
Qed.

Theorem lowering_rules_keep_domain : forall p, In p lowering_rules ->
  forall b, continue_in_loops b = true -> continue_in_loops (snd p b) = true.
Proof.
  intros p Hp. cbn in Hp.
  repeat destruct Hp as [<-|Hp]; try contradiction; cbn [snd]; apply run_rule_zero.
  - exact hooks_z_compound_assign.
  - exact hooks_z_if_expression.
  - exact (hooks_z_interpolated_string false).
  - exact (hooks_z_interpolated_string true).
  - exact hooks_z_floor_division.
  - exact hooks_z_luau_number.
  - exact hooks_z_const.
  - exact hooks_z_types.
  - exact hooks_z_attribute.
Qed.
