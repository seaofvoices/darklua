(** C19 — basic lemmas about Model/Config.v: association lists, sorting, property values. *)
From Coq Require Import List Bool String Ascii ZArith NArith Lia Permutation.
From DL Require Import Model.Config.
From DL Require Import Proof.ListFacts.
Import ListNotations.
Open Scope string_scope.

Lemma has_key_true_iff {A} (k : string) (l : list (string * A)) :
  has_key k l = true <-> In k (map fst l).
Proof.
  unfold has_key. induction l as [|[k' v] l IH]; cbn [lookup map fst In].
  - split; [discriminate|tauto].
  - destruct (String.eqb k k') eqn:E.
    + apply String.eqb_eq in E. subst. split; auto.
    + apply String.eqb_neq in E. rewrite IH. split; [auto|]. intros [H|H]; [congruence|exact H].
Qed.

Lemma has_key_false_iff {A} (k : string) (l : list (string * A)) :
  has_key k l = false <-> ~ In k (map fst l).
Proof.
  rewrite <- has_key_true_iff. destruct (has_key k l); split; intros; congruence.
Qed.

Lemma has_key_perm {A} (k : string) (l l' : list (string * A)) :
  Permutation l l' -> has_key k l = has_key k l'.
Proof.
  intros P. destruct (has_key k l') eqn:E.
  - apply has_key_true_iff. apply has_key_true_iff in E.
    eapply Permutation_in; [apply Permutation_sym, Permutation_map, P|exact E].
  - apply has_key_false_iff. apply has_key_false_iff in E. intros H. apply E.
    eapply Permutation_in; [apply Permutation_map, P|exact H].
Qed.

Lemma lookup_in {A} (k : string) (l : list (string * A)) v : lookup k l = Some v -> In (k, v) l.
Proof.
  induction l as [|[k' v'] l IH]; cbn [lookup]; [discriminate|].
  destruct (String.eqb k k') eqn:E.
  - apply String.eqb_eq in E. subst. intros [= ->]. left. reflexivity.
  - intros H. right. apply IH. exact H.
Qed.

Lemma in_lookup_nodup {A} (k : string) (l : list (string * A)) v :
  NoDup (map fst l) -> In (k, v) l -> lookup k l = Some v.
Proof.
  induction l as [|[k' v'] l IH]; cbn [lookup map fst]; intros ND Hin; [destruct Hin|].
  inversion ND as [|? ? Hnot ND']; subst. destruct Hin as [Heq|Hin].
  - inversion Heq; subst. rewrite String.eqb_refl. reflexivity.
  - destruct (String.eqb k k') eqn:E.
    + apply String.eqb_eq in E. subst. exfalso. apply Hnot. apply in_map_iff. exists (k', v). split; [reflexivity|exact Hin].
    + apply IH; assumption.
Qed.

Lemma insert_by_key_perm {A} (kv : string * A) l : Permutation (insert_by_key kv l) (kv :: l).
Proof.
  induction l as [|kv' l IH]; cbn [insert_by_key]; [reflexivity|].
  destruct (String.leb (fst kv) (fst kv')); [reflexivity|].
  rewrite IH. apply perm_swap.
Qed.

Lemma sort_by_key_perm {A} (l : list (string * A)) : Permutation (sort_by_key l) l.
Proof.
  induction l as [|kv l IH]; cbn [sort_by_key]; [reflexivity|].
  rewrite insert_by_key_perm. constructor. exact IH.
Qed.

Lemma sort_by_key_nil {A} (l : list (string * A)) : sort_by_key l = [] -> l = [].
Proof.
  intros H. pose proof (sort_by_key_perm l) as P. rewrite H in P. apply Permutation_nil in P. exact P.
Qed.

Lemma as_strings_map_JStr (l : list string) : as_strings (map JStr l) = Some l.
Proof. induction l as [|s l IH]; cbn [map as_strings]; [reflexivity|]. rewrite IH. reflexivity. Qed.

Lemma mem_true_iff s l : mem s l = true <-> In s l.
Proof.
  unfold mem. rewrite existsb_exists. split.
  - intros [x [Hin E]]. apply String.eqb_eq in E. subst. exact Hin.
  - intros Hin. exists s. split; [exact Hin|apply String.eqb_refl].
Qed.

Lemma filter_length_le {A} (f g : A -> bool) (l : list A) :
  (forall x, f x = true -> g x = true) -> List.length (filter f l) <= List.length (filter g l).
Proof.
  intros H. induction l as [|x l IH]; cbn [filter]; [lia|].
  destruct (f x) eqn:Ef.
  - rewrite (H x Ef). cbn [List.length]. lia.
  - destruct (g x); cbn [List.length]; lia.
Qed.

Lemma filter_ext_in_length {A} (f g : A -> bool) (l : list A) :
  (forall x, f x = g x) -> filter f l = filter g l.
Proof. intros H. apply filter_ext. exact H. Qed.

Lemma filter_all_true {A} (f : A -> bool) (l : list A) : (forall x, In x l -> f x = true) -> filter f l = l.
Proof.
  induction l as [|x l IH]; intros H; cbn [filter]; [reflexivity|].
  rewrite (H x (or_introl eq_refl)). f_equal. apply IH. intros y Hy. apply H. right. exact Hy.
Qed.

Lemma Forall2_map_inj {A B} (f : A -> B) (R : A -> A -> Prop) :
  (forall a b, f a = f b -> R a b) -> forall l1 l2, map f l1 = map f l2 -> Forall2 R l1 l2.
Proof.
  intros H. induction l1 as [|a l1 IH]; intros [|b l2] E; try discriminate; [constructor|].
  injection E as Ea El. constructor; [apply H; exact Ea|apply IH; exact El].
Qed.

Definition in_usize (z : Z) : bool := ((0 <=? z) && (z <=? usize_max))%Z.

Lemma in_usize_of_N n : (Z.of_N n <= usize_max)%Z -> in_usize (Z.of_N n) = true.
Proof.
  intros H. apply andb_true_iff. split; apply Z.leb_le; [apply N2Z.is_nonneg|exact H].
Qed.

Lemma in_usize_to_N z : in_usize z = true -> (Z.of_N (Z.to_N z) <= usize_max)%Z.
Proof.
  intros E. apply andb_true_iff in E. destruct E as [E1 E2]. apply Z.leb_le in E1. apply Z.leb_le in E2.
  rewrite Z2N.id; assumption.
Qed.
