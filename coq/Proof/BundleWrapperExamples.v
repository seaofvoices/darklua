(** Non-vacuity of [Proof/BundleWrapperFacts.v]: concrete bundles run through [run_chunk] in
    both dialects (the module body is run once although its value is nil / false), a contrast
    with the un-boxed cache (which runs it twice), and concrete stores satisfying the
    hypotheses of [wrapper_hit] and [wrapper_once]. *)
From Coq Require Import ZArith NArith List Bool String Lia.
From DL Require Import Lib.Bytes Lua.Syntax Lua.Sem Model.BundleWrapper
  Proof.BundleWrapperBase Proof.BundleWrapperFacts.
Import ListNotations.
Open Scope N_scope.
Local Notation llen := List.length.

Definition M0 : name := of_string "M".
Definition nm0 : name := of_string "a".
Definition ext_p : expr := EIdent (of_string "ext_p").

(** module body: [ext_p("body") return <e>] *)
Definition body_of (e : expr) : block :=
  Block [SCall (ECall ext_p None (ATuple [EString (of_string "body")]))] (Some (LReturn [e])).

(** [M.a()] *)
Definition acc_call : expr := ECall (EField (EIdent M0) nm0) None (ATuple []).

(** local M = { cache = {} }
    do do local function __modImpl() ext_p("body") return <e> end
          function M.a() <accessor> end end end
    ext_p(M.a(), M.a()) *)
Definition prog_of (e : expr) : block :=
  Block [ modules_table M0;
          SDo (Block [module_def M0 nm0 (body_of e)] None);
          SCall (ECall ext_p None (ATuple [acc_call; acc_call])) ] None.

Definition ev_body : event := EvCall (of_string "ext_p") [RStr (of_string "body")].
Definition ev_out (r : rvalue) : event := EvCall (of_string "ext_p") [r; r].

(** these programs have the shape the bundler emits (the recogniser of Model/BundleWrapper.v) *)
Example prog_wrapper_ok :
  wrapper_ok M0 (prog_of ENil) = true /\ wrapper_ok M0 (prog_of EFalse) = true.
Proof. vm_compute. split; reflexivity. Qed.

(** the body's event occurs exactly once; both calls see the same value *)
Example run_nil_51 : run_chunk L51 40 [] (prog_of ENil) = OutOk [ev_body; ev_out RNil] [].
Proof. vm_compute. reflexivity. Qed.
Example run_nil_luau : run_chunk Luau 40 [] (prog_of ENil) = OutOk [ev_body; ev_out RNil] [].
Proof. vm_compute. reflexivity. Qed.
Example run_false_51 :
  run_chunk L51 40 [] (prog_of EFalse) = OutOk [ev_body; ev_out (RBool false)] [].
Proof. vm_compute. reflexivity. Qed.
Example run_false_luau :
  run_chunk Luau 40 [] (prog_of EFalse) = OutOk [ev_body; ev_out (RBool false)] [].
Proof. vm_compute. reflexivity. Qed.
Example run_string_51 :
  run_chunk L51 40 [] (prog_of (EString (of_string "x"))) =
  OutOk [ev_body; ev_out (RStr (of_string "x"))] [].
Proof. vm_compute. reflexivity. Qed.
Example run_string_luau :
  run_chunk Luau 40 [] (prog_of (EString (of_string "x"))) =
  OutOk [ev_body; ev_out (RStr (of_string "x"))] [].
Proof. vm_compute. reflexivity. Qed.

(** a module returning nothing at all: [first [] = nil] is what gets cached *)
Definition prog_noreturn : block :=
  Block [ modules_table M0;
          SDo (Block [module_def M0 nm0
                        (Block [SCall (ECall ext_p None (ATuple [EString (of_string "body")]))] None)]
                     None);
          SCall (ECall ext_p None (ATuple [acc_call; acc_call])) ] None.
Example run_noreturn :
  run_chunk L51 40 [] prog_noreturn = OutOk [ev_body; ev_out RNil] [] /\
  run_chunk Luau 40 [] prog_noreturn = OutOk [ev_body; ev_out RNil] [].
Proof. vm_compute. split; reflexivity. Qed.

(** contrast: caching the bare value instead of the box [{ c = ... }] runs a nil- or
    false-valued body at every call -- the property is not a triviality of the semantics *)
Definition naive_block (M nm : name) : block :=
  Block
    [ SLocal false [Param s_v None] [cache_slot M nm];
      SIf [ SBranch (EUnary UNot (EIdent s_v))
                    (Block [ SAssign [EIdent s_v] [impl_call];
                             SAssign [cache_slot M nm] [EIdent s_v] ] None) ] None ]
    (Some (LReturn [EIdent s_v])).
Definition naive_prog (e : expr) : block :=
  Block [ modules_table M0;
          SDo (Block [SDo (Block [ SLocalFunction s_impl (impl (body_of e));
                                   SFunction M0 [nm0] None
                                             (FBody [] false None None None 0 (naive_block M0 nm0)) ]
                                 None)] None);
          SCall (ECall ext_p None (ATuple [acc_call; acc_call])) ] None.
Example naive_runs_body_twice :
  run_chunk Luau 40 [] (naive_prog ENil) = OutOk [ev_body; ev_body; ev_out RNil] [] /\
  run_chunk Luau 40 [] (naive_prog EFalse) = OutOk [ev_body; ev_body; ev_out (RBool false)] [] /\
  run_chunk Luau 40 [] (naive_prog ETrue) = OutOk [ev_body; ev_out (RBool true)] [].
Proof. vm_compute. repeat split; reflexivity. Qed.

(** cell 0 = M = table 7 = { cache = table 8 }, table 8 = { a = table 9 }, table 9 = {} (the box of
    a nil-valued module) *)
Definition hit_s0 (box : table) : store :=
  mkStore [VTable 7]
          (initial_tables ++ [ mkTable [(VStr s_cache, VTable 8)] None;
                               mkTable [(VStr nm0, VTable 9)] None;
                               box ])
          [] [] [] 0.
Definition hit_rho0 : env := [(M0, 0)].

Lemma hit_instance d n0 box :
  t_meta box = None ->
  exec_block d (9 + n0) hit_rho0 [] (accessor_block M0 nm0) (hit_s0 box) =
  Ok (SigReturn [raw_get (t_entries box) (VStr s_c)]) (add_cell (hit_s0 box) (VTable 9)).
Proof.
  apply (wrapper_hit d n0 M0 nm0 hit_rho0 [] (hit_s0 box) 0 7
                     (mkTable [(VStr s_cache, VTable 8)] None) 8
                     (mkTable [(VStr nm0, VTable 9)] None) 9 box);
    try reflexivity.
  discriminate.
Qed.

Example hit_instance_nil d n0 :
  exec_block d (9 + n0) hit_rho0 [] (accessor_block M0 nm0) (hit_s0 (mkTable [] None)) =
  Ok (SigReturn [VNil]) (add_cell (hit_s0 (mkTable [] None)) (VTable 9)).
Proof. exact (hit_instance d n0 (mkTable [] None) eq_refl). Qed.

Example hit_instance_false d n0 :
  exec_block d (9 + n0) hit_rho0 [] (accessor_block M0 nm0)
             (hit_s0 (mkTable [(VStr s_c, VBool false)] None)) =
  Ok (SigReturn [VBool false]) (add_cell (hit_s0 (mkTable [(VStr s_c, VBool false)] None)) (VTable 9)).
Proof. exact (hit_instance d n0 (mkTable [(VStr s_c, VBool false)] None) eq_refl). Qed.

(** the interpreter agrees (fuel 9 is enough, 8 is not: the constant of the theorem is tight) *)
Example hit_instance_computed :
  exec_block Luau 9 hit_rho0 [] (accessor_block M0 nm0) (hit_s0 (mkTable [] None)) =
  Ok (SigReturn [VNil]) (add_cell (hit_s0 (mkTable [] None)) (VTable 9)) /\
  exec_block Luau 8 hit_rho0 [] (accessor_block M0 nm0) (hit_s0 (mkTable [] None)) = Fuel.
Proof. vm_compute. split; reflexivity. Qed.

(** cell 0 = M = table 7 = { cache = table 8 }, table 8 = {}, cell 1 = __modImpl = closure 0 *)
Definition miss_s0 (e : expr) : store :=
  mkStore [VTable 7; VClosure 0]
          (initial_tables ++ [ mkTable [(VStr s_cache, VTable 8)] None; mkTable [] None ])
          [mkClosure (impl (body_of e)) [] false] [] [] 0.
Definition miss_rho0 : env := [(s_impl, 1); (M0, 0)].

Lemma once_instance d e v s2 :
  call d (2 + 10) (VClosure 0) [] (miss_pre (miss_s0 e)) = Ok [v] s2 ->
  nth_N (cells s2) 0 = Some (VTable 7) ->
  nth_N (tables s2) 7 = Some (mkTable [(VStr s_cache, VTable 8)] None) ->
  nth_N (tables s2) 8 = Some (mkTable [] None) ->
  nth_N (tables s2) 9 = Some (mkTable [] None) ->
  (2 < llen (cells s2))%nat ->
  let s4 := miss_post (miss_s0 e) s2 8 (mkTable [] None) nm0 v in
  exec_block d (14 + 10) miss_rho0 [] (accessor_block M0 nm0) (miss_s0 e) = Ok (SigReturn [v]) s4 /\
  nth_N (tables s4) 9 = Some (box_of v) /\
  forall m va',
    exec_block d (9 + m) miss_rho0 va' (accessor_block M0 nm0) s4 =
    Ok (SigReturn [v]) (add_cell s4 (VTable 9)) /\
    trace (add_cell s4 (VTable 9)) = trace s2.
Proof.
  intros Hcall Hc HtM HtC Hbox Hlen s4.
  destruct (wrapper_once d 10 M0 nm0 miss_rho0 [] (miss_s0 e) 0 7
                         (mkTable [(VStr s_cache, VTable 8)] None) 8 (mkTable [] None)
                         1 (VClosure 0) [v] s2
                         (mkTable [(VStr s_cache, VTable 8)] None) (mkTable [] None))
    as (H1 & _ & H3); try assumption; try reflexivity; [discriminate|discriminate|].
  split; [exact H1|]. split; [|exact H3].
  eapply (miss_post_box (miss_s0 e) s2 0 7 _ 8); [repeat split; reflexivity|exact Hbox].
Qed.

Example once_instance_nil :
  exists s2,
    call Luau (2 + 10) (VClosure 0) [] (miss_pre (miss_s0 ENil)) = Ok [VNil] s2 /\
    trace s2 = [ev_body] /\
    let s4 := miss_post (miss_s0 ENil) s2 8 (mkTable [] None) nm0 VNil in
    exec_block Luau (14 + 10) miss_rho0 [] (accessor_block M0 nm0) (miss_s0 ENil) =
    Ok (SigReturn [VNil]) s4 /\
    nth_N (tables s4) 9 = Some (mkTable [] None) /\
    forall m va',
      exec_block Luau (9 + m) miss_rho0 va' (accessor_block M0 nm0) s4 =
      Ok (SigReturn [VNil]) (add_cell s4 (VTable 9)) /\
      trace (add_cell s4 (VTable 9)) = trace s2.
Proof.
  eexists. split; [vm_compute; reflexivity|]. split; [reflexivity|].
  apply once_instance; try reflexivity. vm_compute. lia.
Qed.

Example once_instance_false :
  exists s2,
    call L51 (2 + 10) (VClosure 0) [] (miss_pre (miss_s0 EFalse)) = Ok [VBool false] s2 /\
    trace s2 = [ev_body] /\
    let s4 := miss_post (miss_s0 EFalse) s2 8 (mkTable [] None) nm0 (VBool false) in
    exec_block L51 (14 + 10) miss_rho0 [] (accessor_block M0 nm0) (miss_s0 EFalse) =
    Ok (SigReturn [VBool false]) s4 /\
    nth_N (tables s4) 9 = Some (mkTable [(VStr s_c, VBool false)] None) /\
    forall m va',
      exec_block L51 (9 + m) miss_rho0 va' (accessor_block M0 nm0) s4 =
      Ok (SigReturn [VBool false]) (add_cell s4 (VTable 9)) /\
      trace (add_cell s4 (VTable 9)) = trace s2.
Proof.
  eexists. split; [vm_compute; reflexivity|]. split; [reflexivity|].
  apply once_instance; try reflexivity. vm_compute. lia.
Qed.

(** the interpreter agrees with [wrapper_miss] on this store *)
Example miss_instance_computed :
  match call Luau 12 (VClosure 0) [] (miss_pre (miss_s0 ENil)) with
  | Ok vs s2 =>
    exec_block Luau 24 miss_rho0 [] (accessor_block M0 nm0) (miss_s0 ENil) =
    Ok (SigReturn [first vs]) (miss_post (miss_s0 ENil) s2 8 (mkTable [] None) nm0 (first vs))
  | _ => False
  end.
Proof. vm_compute. reflexivity. Qed.
