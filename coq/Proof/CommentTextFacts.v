(** Facts about [Model/CommentText.v]: the comment built by [append_text_comment] is read by
    the reference comment lexer as exactly one comment, and the trivia filters keep every code
    token. *)
From DL Require Import Lib.Bytes Model.CommentText.
Require Import Lia PeanoNat.
Open Scope N_scope.
Local Notation length := List.length.
Arguments N.eqb : simpl never.
Arguments N.leb : simpl never.
Arguments N.ltb : simpl never.

Lemma find_sub_long p s : (length s < length p)%nat -> find_sub p s = false.
Proof. intros H. destruct (find_sub p s) eqn:E; [|reflexivity]. apply find_sub_length in E. lia. Qed.

Lemma find_sub_cons p c s : find_sub p (c :: s) = prefix_b p (c :: s) || find_sub p s.
Proof. reflexivity. Qed.

Lemma firstn_app_exact {T} (a b : list T) : firstn (length a) (a ++ b) = a.
Proof. induction a as [|x a IH]; [destruct b; reflexivity|]. cbn [length app firstn]. rewrite IH. reflexivity. Qed.

Lemma prefix_b_lf p w : p <> [] -> existsb (N.eqb 10) p = false -> prefix_b p (10 :: w) = false.
Proof.
  intros Hne Hp. destruct p as [|c p]; [congruence|].
  cbn [existsb] in Hp. apply orb_false_iff in Hp as [Hc _].
  cbn [prefix_b]. rewrite N.eqb_sym, Hc. reflexivity.
Qed.

Lemma prefix_b_lf_false p x w : existsb (N.eqb 10) p = false ->
  prefix_b p x = false -> prefix_b p (x ++ 10 :: w) = false.
Proof.
  revert x; induction p as [|c p IH]; intros x Hp H; [discriminate H|].
  cbn [existsb] in Hp. apply orb_false_iff in Hp as [Hc Hp].
  destruct x as [|y x]; cbn [app prefix_b] in *.
  - rewrite N.eqb_sym, Hc. reflexivity.
  - destruct (c =? y); [exact (IH x Hp H)|reflexivity].
Qed.

Lemma find_sub_lf_wrap p x : p <> [] -> existsb (N.eqb 10) p = false ->
  find_sub p x = false -> find_sub p (10 :: x ++ [10]) = false.
Proof.
  intros Hne Hp Hx. rewrite find_sub_cons, (prefix_b_lf p _ Hne Hp). cbn [orb].
  induction x as [|c x IH]; cbn [app].
  - rewrite find_sub_cons, (prefix_b_lf p _ Hne Hp). cbn [orb find_sub]. destruct p; [congruence|reflexivity].
  - rewrite find_sub_cons in Hx. apply orb_false_iff in Hx as [H1 H2].
    rewrite find_sub_cons, (IH H2), orb_false_r. exact (prefix_b_lf_false p (c :: x) [] Hp H1).
Qed.

(** [match c with 61 => a | _ => b end] is a tree of tests on the binary digits of [c].  These two
    lemmas turn it into a test for equality; every other proof goes through the equations
    below and never walks that tree. *)
Lemma match_61 {A} (c : N) (a b : A) : match c with 61 => a | _ => b end = if c =? 61 then a else b.
Proof.
  destruct (N.eqb_spec c 61) as [->|Hc]; [reflexivity|].
  destruct c as [|p]; [reflexivity|].
  do 6 (destruct p as [p|p|]; try reflexivity). all: try (exfalso; apply Hc; reflexivity).
  all: destruct p; reflexivity.
Qed.

Lemma match_91 {A} (c : N) (a b : A) : match c with 91 => a | _ => b end = if c =? 91 then a else b.
Proof.
  destruct (N.eqb_spec c 91) as [->|Hc]; [reflexivity|].
  destruct c as [|p]; [reflexivity|].
  do 7 (destruct p as [p|p|]; try reflexivity). all: exfalso; apply Hc; reflexivity.
Qed.

Lemma count_eqs_cons c s n : count_eqs (c :: s) n = if c =? 61 then count_eqs s (S n) else (n, c :: s).
Proof. exact (match_61 c (count_eqs s (S n)) (n, c :: s)). Qed.

Lemma skip_eqs_cons c s : skip_eqs (c :: s) = if c =? 61 then skip_eqs s else c :: s.
Proof. exact (match_61 c (skip_eqs s) (c :: s)). Qed.

Lemma skip_eqs_count_eqs s n : skip_eqs s = snd (count_eqs s n).
Proof.
  revert n; induction s as [|c s IH]; intros n; [reflexivity|].
  rewrite skip_eqs_cons, count_eqs_cons. destruct (c =? 61); [apply IH|reflexivity].
Qed.

Lemma is_eol_cases c : is_eol c = true -> c = 10 \/ c = 13.
Proof. unfold is_eol. intros H. apply orb_true_iff in H as [H|H]; apply N.eqb_eq in H; auto. Qed.

Lemma long_closer_length n : length (long_closer n) = S (S n).
Proof. unfold long_closer. cbn [length]. rewrite app_length, repeat_length. cbn. lia. Qed.

Lemma long_opener_length n : length (long_opener n) = S (S n).
Proof. unfold long_opener. cbn [length]. rewrite app_length, repeat_length. cbn. lia. Qed.

Lemma long_closer_nonempty n : long_closer n <> [].
Proof. unfold long_closer. discriminate. Qed.

Lemma long_closer_no_lf n : existsb (N.eqb 10) (long_closer n) = false.
Proof.
  unfold long_closer. cbn [existsb]. rewrite existsb_app. cbn [existsb].
  assert (H : existsb (N.eqb 10) (repeat 61 n) = false).
  { induction n as [|n IH]; cbn [repeat existsb]; [reflexivity|]. rewrite IH. reflexivity. }
  rewrite H. reflexivity.
Qed.

(** the level search stops on a level whose closer and opener are both absent: brackets longer
    than the text do not occur in it *)
Lemma find_level_ok : forall fuel s n, (length s <= fuel + n)%nat ->
  find_sub (long_closer (find_level fuel s n)) s = false /\
  find_sub (long_opener (find_level fuel s n)) s = false.
Proof.
  induction fuel as [|f IH]; intros s n Hlen; cbn [find_level].
  - split; apply find_sub_long; rewrite ?long_closer_length, ?long_opener_length; lia.
  - destruct (find_sub (long_closer n) s || find_sub (long_opener n) s) eqn:E.
    + apply IH. lia.
    + apply orb_false_iff in E. exact E.
Qed.

Lemma comment_level_ok s :
  find_sub (long_closer (comment_level s)) s = false /\ find_sub (long_opener (comment_level s)) s = false.
Proof. unfold comment_level. apply find_level_ok. lia. Qed.

Lemma find_level_least : forall fuel s n m, (n <= m)%nat -> (m < find_level fuel s n)%nat ->
  find_sub (long_closer m) s || find_sub (long_opener m) s = true.
Proof.
  induction fuel as [|f IH]; intros s n m Hnm Hm; cbn [find_level] in Hm; [lia|].
  destruct (find_sub (long_closer n) s || find_sub (long_opener n) s) eqn:E; [|lia].
  destruct (Nat.eq_dec n m) as [->|Hne]; [exact E|].
  apply (IH s (S n) m); [lia|exact Hm].
Qed.

Lemma comment_level_least s m : (m < comment_level s)%nat ->
  find_sub (long_closer m) s || find_sub (long_opener m) s = true.
Proof. intros H. apply (find_level_least (S (length s)) s 0 m); [lia|exact H]. Qed.

Lemma count_eqs_repeat n k rest : (forall t, rest <> 61 :: t) ->
  count_eqs (repeat 61 n ++ rest) k = ((k + n)%nat, rest).
Proof.
  intros Hrest. revert k; induction n as [|n IH]; intros k; cbn [repeat app].
  - rewrite Nat.add_0_r. destruct rest as [|c rest]; [reflexivity|]. rewrite count_eqs_cons.
    destruct (N.eqb_spec c 61) as [->|_]; [exfalso; eapply Hrest; reflexivity|reflexivity].
  - cbn [count_eqs]. rewrite IH. f_equal. lia.
Qed.

Lemma long_open_opener n rest : long_open (long_opener n ++ rest) = Some (n, rest).
Proof.
  unfold long_opener, long_open. cbn [app]. rewrite <- app_assoc. cbn [app].
  rewrite count_eqs_repeat by (intros t H; discriminate). reflexivity.
Qed.

(** after the run of "=", a "[" *)
Definition bracket_next (s : bytes) : bool := match skip_eqs s with 91 :: _ => true | _ => false end.

Lemma bracket_next_cons c s : bracket_next (c :: s) = if c =? 61 then bracket_next s else c =? 91.
Proof.
  unfold bracket_next. rewrite skip_eqs_cons. destruct (c =? 61); [reflexivity|].
  etransitivity; [exact (match_91 c true false)|]. destruct (c =? 91); reflexivity.
Qed.

Lemma starts_cons c t : starts_with_long_bracket (c :: t) = (c =? 91) && bracket_next t.
Proof. etransitivity; [exact (match_91 c (bracket_next t) false)|]. destruct (c =? 91); reflexivity. Qed.

(** [starts_with_long_bracket] of the rule = "a long-bracket opener is at the head" of the reference lexer *)
Lemma starts_agrees t :
  starts_with_long_bracket t = match long_open t with Some _ => true | None => false end.
Proof.
  destruct t as [|c t]; [reflexivity|]. rewrite starts_cons.
  transitivity (if c =? 91 then match long_open (91 :: t) with Some _ => true | None => false end else false).
  2:{ unfold long_open at 2. rewrite match_91. destruct (c =? 91); reflexivity. }
  destruct (c =? 91); [|reflexivity]. cbn [andb long_open].
  unfold bracket_next. rewrite (skip_eqs_count_eqs t 0). destruct (count_eqs t 0) as [n t1]. cbn [snd].
  destruct t1 as [|d t1]; [reflexivity|].
  rewrite (match_91 d true false), (match_91 (A := option (nat * bytes)) d (Some (n, t1)) None).
  destruct (d =? 91); reflexivity.
Qed.

Lemma long_open_none t : long_open t = None <-> starts_with_long_bracket t = false.
Proof. rewrite starts_agrees. destruct (long_open t); split; congruence. Qed.

Lemma starts_follow f : line_follow f = true -> starts_with_long_bracket f = false /\ bracket_next f = false.
Proof.
  destruct f as [|c f]; [split; reflexivity|]. intros H.
  apply is_eol_cases in H as [->| ->]; split; reflexivity.
Qed.

Lemma bracket_next_app s f : line_follow f = true -> bracket_next (s ++ f) = bracket_next s.
Proof.
  intros Hf. induction s as [|c s IH]; cbn [app].
  - apply (starts_follow f Hf).
  - rewrite !bracket_next_cons, IH. reflexivity.
Qed.

Lemma long_open_app_follow s follow : line_follow follow = true ->
  long_open s = None -> long_open (s ++ follow) = None.
Proof.
  rewrite !long_open_none. intros Hf H. destruct s as [|c s]; cbn [app].
  - apply (starts_follow follow Hf).
  - rewrite starts_cons in *. rewrite bracket_next_app by exact Hf. exact H.
Qed.

Lemma find_end_prefix cl s : prefix_b cl s = true -> find_end cl s = Some (length cl).
Proof. intros H. destruct s; cbn [find_end]; rewrite H; reflexivity. Qed.

Lemma find_end_skip cl c s : prefix_b cl (c :: s) = false ->
  find_end cl (c :: s) = option_map S (find_end cl s).
Proof. intros H. cbn [find_end]. rewrite H. reflexivity. Qed.

Lemma find_end_own_closer cl x follow : cl <> [] -> existsb (N.eqb 10) cl = false ->
  find_sub cl x = false ->
  find_end cl (x ++ 10 :: cl ++ follow) = Some (length x + 1 + length cl)%nat.
Proof.
  intros Hne Hcl. induction x as [|y x IH]; intros Hx; cbn [app length].
  - rewrite find_end_skip by (apply prefix_b_lf; assumption).
    rewrite find_end_prefix by apply prefix_b_app. reflexivity.
  - rewrite find_sub_cons in Hx. apply orb_false_iff in Hx as [Hp Hx].
    rewrite find_end_skip by exact (prefix_b_lf_false cl (y :: x) _ Hcl Hp).
    rewrite (IH Hx). reflexivity.
Qed.

(** "--" opener LF text LF closer, the long form written by the rule, at any level *)
Definition long_comment (n : nat) (text : bytes) : bytes :=
  [45; 45] ++ long_opener n ++ [10] ++ text ++ [10] ++ long_closer n.

Lemma long_comment_length n text : length (long_comment n text) = (length text + 2 * n + 8)%nat.
Proof.
  unfold long_comment. rewrite !app_length, long_opener_length, long_closer_length. cbn [length]. lia.
Qed.

(** the lexers' view of it: the opener, then a body in which the first closer is the last thing *)
Lemma long_comment_app n text follow :
  long_comment n text ++ follow = 45 :: 45 :: long_opener n ++ (10 :: text) ++ 10 :: long_closer n ++ follow.
Proof. unfold long_comment. cbn [app]. rewrite <- !app_assoc. cbn [app]. rewrite <- !app_assoc. reflexivity. Qed.

Lemma long_comment_body n text follow : find_sub (long_closer n) text = false ->
  find_end (long_closer n) ((10 :: text) ++ 10 :: long_closer n ++ follow) = Some (length text + n + 4)%nat.
Proof.
  intros H. rewrite find_end_own_closer.
  - rewrite long_closer_length. cbn [length]. f_equal. lia.
  - apply long_closer_nonempty.
  - apply long_closer_no_lf.
  - rewrite find_sub_cons, H. rewrite prefix_b_lf; [reflexivity|apply long_closer_nonempty|apply long_closer_no_lf].
Qed.

Theorem long_comment_closed n text follow : find_sub (long_closer n) text = false ->
  lex_comment (long_comment n text ++ follow) = Some (length (long_comment n text)).
Proof.
  intros H. rewrite long_comment_app, long_comment_length. unfold lex_comment.
  rewrite long_open_opener, (long_comment_body n text follow H). cbn [option_map]. f_equal. lia.
Qed.

(** Lua 5.1 moreover wants no "[[" inside a level-0 comment *)
Theorem long_comment_closed_51 n text follow : find_sub (long_closer n) text = false ->
  (n = 0%nat -> find_sub (long_opener 0) text = false) ->
  lex_comment51 (long_comment n text ++ follow) = Some (length (long_comment n text)).
Proof.
  intros H H0. rewrite long_comment_app, long_comment_length. unfold lex_comment51.
  rewrite long_open_opener, (long_comment_body n text follow H).
  destruct n as [|n]; cbn [Nat.eqb andb]; [|f_equal; lia].
  replace (length text + 0 + 4 - 2)%nat with (length ((10 :: text) ++ [10])) by (rewrite app_length; cbn [length]; lia).
  replace ((10 :: text) ++ 10 :: long_closer 0 ++ follow) with (((10 :: text) ++ [10]) ++ long_closer 0 ++ follow)
    by (rewrite <- app_assoc; reflexivity).
  rewrite firstn_app_exact. cbn [app].
  rewrite (find_sub_lf_wrap [91; 91] text); [f_equal; lia|discriminate|reflexivity|exact (H0 eq_refl)].
Qed.

Lemma line_len_app x follow : existsb is_eol x = false -> line_follow follow = true ->
  line_len (x ++ follow) = length x.
Proof.
  intros Hx Hf. induction x as [|c x IH]; cbn [app line_len length].
  - destruct follow as [|c f]; [reflexivity|]. cbn [line_follow] in Hf. cbn [line_len]. rewrite Hf. reflexivity.
  - cbn [existsb] in Hx. apply orb_false_iff in Hx as [Hc Hx]. rewrite Hc. f_equal. exact (IH Hx).
Qed.

Lemma existsb_is_eol s : has_lf s = false -> has_cr s = false -> existsb is_eol s = false.
Proof.
  unfold has_lf, has_cr, is_eol. induction s as [|c s IH]; cbn [existsb]; [reflexivity|].
  intros H1 H2. apply orb_false_iff in H1 as [A1 B1]. apply orb_false_iff in H2 as [A2 B2].
  rewrite (IH B1 B2). rewrite N.eqb_sym in A1. rewrite N.eqb_sym in A2. rewrite A1, A2. reflexivity.
Qed.

(** the two lexers differ on long comments only *)
Theorem short_comment_closed t follow :
  long_open t = None -> existsb is_eol t = false -> line_follow follow = true ->
  lex_comment (45 :: 45 :: t ++ follow) = Some (2 + length t)%nat /\
  lex_comment51 (45 :: 45 :: t ++ follow) = Some (2 + length t)%nat.
Proof.
  intros Hop Ht Hf. unfold lex_comment, lex_comment51.
  rewrite (long_open_app_follow _ _ Hf Hop), (line_len_app _ _ Ht Hf). split; reflexivity.
Qed.

Lemma block_form_false text : block_form text = false ->
  has_lf text = false /\ has_cr text = false /\ long_open text = None.
Proof.
  unfold block_form. intros H. apply orb_false_iff in H as [H H3]. apply orb_false_iff in H as [H1 H2].
  repeat split; try assumption. apply long_open_none, H3.
Qed.

(** the two forms, each with what the choice of the form guarantees *)
Lemma comment_of_cases text : text <> [] ->
  (block_form text = true /\ comment_of text = long_comment (comment_level text) text) \/
  (block_form text = false /\ comment_of text = 45 :: 45 :: text /\
   long_open text = None /\ existsb is_eol text = false).
Proof.
  intros Hne. unfold comment_of. destruct text as [|c t]; [congruence|].
  destruct (block_form (c :: t)) eqn:Hb; [left; split; reflexivity|right].
  destruct (block_form_false _ Hb) as [Hlf [Hcr Hop]].
  repeat split; [exact Hop|apply existsb_is_eol; assumption].
Qed.

(** every text: the long form whatever follows, the short form before a line break or the end.
    Texts starting with a long-bracket opener and texts with a carriage return are in the long form
    since /repo commit d1a6e5c; in the short form they broke out *)
Theorem comment_closed : forall text follow, text <> [] ->
  (block_form text = true \/ line_follow follow = true) ->
  lex_comment (comment_of text ++ follow) = Some (length (comment_of text)).
Proof.
  intros text follow Hne Hf. destruct (comment_of_cases text Hne) as [[_ ->]|[Hb [-> [Hop Ht]]]].
  - apply long_comment_closed, comment_level_ok.
  - destruct Hf as [Hf|Hf]; [congruence|]. apply (short_comment_closed text follow Hop Ht Hf).
Qed.

Theorem block_comment_closed : forall text follow, block_form text = true ->
  lex_comment (comment_of text ++ follow) = Some (length (comment_of text)).
Proof.
  intros text follow Hb. apply comment_closed; [intros ->; discriminate Hb|left; exact Hb].
Qed.

(** Lua 5.1: the level is also free of its opener, so no "[[" is nested in a level-0 comment *)
Theorem comment_closed_51 : forall text follow, text <> [] ->
  (block_form text = true \/ line_follow follow = true) ->
  lex_comment51 (comment_of text ++ follow) = Some (length (comment_of text)).
Proof.
  intros text follow Hne Hf. destruct (comment_of_cases text Hne) as [[_ ->]|[Hb [-> [Hop Ht]]]].
  - apply long_comment_closed_51; [apply comment_level_ok|].
    intros E. rewrite <- E. apply comment_level_ok.
  - destruct Hf as [Hf|Hf]; [congruence|]. apply (short_comment_closed text follow Hop Ht Hf).
Qed.

(** the texts that used to break out (recorded before d1a6e5c) are now held by a long comment *)
Example formerly_opener_text :
  let text := of_string "[[ hello" in
  comment_of text = of_string "--[=[" ++ [10] ++ text ++ [10] ++ of_string "]=]" /\
  lex_comment (comment_of text ++ of_string "print(1)]]") = Some (length (comment_of text)).
Proof. vm_compute. split; reflexivity. Qed.

Example formerly_cr_text :
  let text := [97; 13; 112; 114; 105; 110; 116; 40; 50; 41] in   (* "a\rprint(2)" *)
  comment_of text = of_string "--[[" ++ [10] ++ text ++ [10] ++ of_string "]]" /\
  lex_comment (comment_of text ++ [10]) = Some (length (comment_of text)).
Proof. vm_compute. split; reflexivity. Qed.

(** "a\n[[b" is written at level 1: "[[" would be nested in a level-0 bracket (Lua 5.1) *)
Example nested_opener_level :
  comment_level [97; 10; 91; 91; 98] = 1%nat.
Proof. vm_compute. reflexivity. Qed.

Theorem text_inside : forall text, text <> [] ->
  exists pre post, comment_of text = pre ++ text ++ post /\
    (block_form text = false -> pre = [45; 45] /\ post = []) /\
    (block_form text = true -> pre = [45; 45] ++ long_opener (comment_level text) ++ [10] /\
                               post = [10] ++ long_closer (comment_level text)).
Proof.
  intros text Hne. destruct (comment_of_cases text Hne) as [[Hb ->]|[Hb [-> _]]]; rewrite Hb.
  - exists ([45; 45] ++ long_opener (comment_level text) ++ [10]), ([10] ++ long_closer (comment_level text)).
    split; [|split; [discriminate|intros _; split; reflexivity]].
    unfold long_comment. rewrite <- !app_assoc. reflexivity.
  - exists [45; 45], []. split; [rewrite app_nil_r; reflexivity|].
    split; [intros _; split; reflexivity|discriminate].
Qed.

Lemma count_lf_app a b : count_lf (a ++ b) = (count_lf a + count_lf b)%nat.
Proof. unfold count_lf, count_b. rewrite filter_app, app_length. reflexivity. Qed.

Lemma lines_count_aux_snoc s c p : c <> 10 ->
  lines_count_aux (s ++ [c]) p = S (count_lf (s ++ [c])).
Proof.
  intros Hc. revert p; induction s as [|d s IH]; intros p; cbn [app lines_count_aux].
  - apply N.eqb_neq in Hc. rewrite Hc. unfold count_lf, count_b. cbn [filter].
    rewrite N.eqb_sym, Hc. reflexivity.
  - unfold count_lf, count_b in *. cbn [filter]. rewrite (N.eqb_sym 10 d).
    destruct (d =? 10); cbn [length]; rewrite IH; reflexivity.
Qed.

Theorem shift_exact : forall text, text <> [] ->
  shift_amount text = count_lf (start_insertion text).
Proof.
  intros text Hne. unfold shift_amount, start_insertion, lines_count.
  assert (Hc : exists s c, comment_of text = s ++ [c] /\ c <> 10).
  { destruct (comment_of_cases text Hne) as [[_ ->]|[_ [-> [_ Ht]]]].
    - exists ([45; 45] ++ long_opener (comment_level text) ++ [10] ++ text ++ [10] ++ 93 :: repeat 61 (comment_level text)), 93.
      split; [|discriminate]. unfold long_comment, long_closer. rewrite <- !app_assoc. reflexivity.
    - destruct (exists_last Hne) as [s [c ->]]. exists (45 :: 45 :: s), c. split; [reflexivity|].
      rewrite existsb_app in Ht. apply orb_false_iff in Ht as [_ Ht]. intros ->. discriminate Ht. }
  destruct Hc as [s [c [-> Hc]]].
  destruct (s ++ [c]) eqn:E; [destruct s; discriminate|]. rewrite <- E.
  rewrite lines_count_aux_snoc by exact Hc. rewrite (count_lf_app (s ++ [c]) [10]). change (count_lf [10]) with 1%nat. lia.
Qed.

(** the generator takes a comment for a long comment exactly when a long-bracket opener follows
    "--", as the reference lexer does (since /repo commit fc507f0) *)
Theorem classifier_agrees : forall t,
  is_multiline_comment (45 :: 45 :: t) = match long_open t with Some _ => true | None => false end.
Proof. intros t. rewrite <- starts_agrees. reflexivity. Qed.

(** ... and it is the form the rule chose (both directions, no exception) *)
Theorem comment_form_recognised : forall text, text <> [] ->
  is_single_line_comment (comment_of text) = negb (block_form text).
Proof.
  intros text Hne. unfold is_single_line_comment. f_equal.
  destruct (comment_of_cases text Hne) as [[Hb ->]|[Hb [-> [Hop _]]]]; rewrite Hb.
  - unfold long_comment. cbn [app]. rewrite classifier_agrees, long_open_opener. reflexivity.
  - rewrite classifier_agrees, Hop. reflexivity.
Qed.

Lemma filter_filter_none {T} (f g : T -> bool) (l : list T) :
  (forall x, g x = true -> f x = false) -> filter f (filter g l) = [].
Proof.
  intros H. induction l as [|x l IH]; cbn [filter]; [reflexivity|].
  destruct (g x) eqn:E; [cbn [filter]; rewrite (H x E)|]; exact IH.
Qed.

Lemma filter_filter_same {T} (f g : T -> bool) (l : list T) :
  (forall x, f x = true -> g x = true) -> filter f (filter g l) = filter f l.
Proof.
  intros H. induction l as [|x l IH]; cbn [filter]; [reflexivity|].
  destruct (f x) eqn:E; [rewrite (H x E); cbn [filter]; rewrite E, IH; reflexivity|].
  destruct (g x); cbn [filter]; rewrite ?E; exact IH.
Qed.

Section Filters.
  Context {A : Type}.
  (** [keep] is the regex oracle of [remove_comments]: does one of the [except] patterns match *)
  Variable keep : bytes -> bool.

  Definition retain (f : trivia_kind * bytes -> bool) (t : ttoken A) : ttoken A :=
    mk_ttoken (tt_code t) (filter f (tt_leading t)) (filter f (tt_trailing t)).

  Lemma filter_comments_retain : filter_comments keep = retain (keep_trivia keep).
  Proof. reflexivity. Qed.

  Lemma clear_kind_retain k : clear_kind k = retain (fun tr => negb (trivia_kind_eqb (fst tr) k)).
  Proof. reflexivity. Qed.

  Lemma code_tokens_retain f (l : list (ttoken A)) : code_tokens (map (retain f) l) = code_tokens l.
  Proof. unfold code_tokens. rewrite map_map. apply map_ext. reflexivity. Qed.

  Lemma flat_trivia_retain f (l : list (ttoken A)) :
    flat_map trivia_of (map (retain f) l) = filter f (flat_map trivia_of l).
  Proof.
    induction l as [|t l IH]; cbn [map flat_map]; [reflexivity|].
    rewrite filter_app, IH. f_equal. unfold trivia_of, retain. cbn. rewrite filter_app. reflexivity.
  Qed.

  Lemma code_tokens_filter (l : list (ttoken A)) :
    code_tokens (map (filter_comments keep) l) = code_tokens l.
  Proof. rewrite filter_comments_retain. apply code_tokens_retain. Qed.

  Lemma code_tokens_clear k (l : list (ttoken A)) :
    code_tokens (map (clear_kind k) l) = code_tokens l.
  Proof. rewrite clear_kind_retain. apply code_tokens_retain. Qed.

  Theorem comments_filter (l : list (ttoken A)) :
    comments_of (map (filter_comments keep) l) = filter keep (comments_of l).
  Proof.
    unfold comments_of. rewrite filter_comments_retain, flat_trivia_retain.
    induction (flat_map trivia_of l) as [|[k s] m IH]; [reflexivity|].
    cbn [filter]. unfold keep_trivia, is_comment in *. cbn [fst snd] in *.
    destruct k; cbn [trivia_kind_eqb negb orb]; [|exact IH].
    destruct (keep s) eqn:Ek; cbn [filter map fst snd trivia_kind_eqb]; rewrite Ek, IH; reflexivity.
  Qed.

  Theorem whitespaces_filter (l : list (ttoken A)) :
    whitespaces_of (map (filter_comments keep) l) = whitespaces_of l.
  Proof.
    unfold whitespaces_of. rewrite filter_comments_retain, flat_trivia_retain, filter_filter_same; [reflexivity|].
    intros [[] s] H; [discriminate H|reflexivity].
  Qed.

  Theorem clear_comments_spec (l : list (ttoken A)) :
    comments_of (map clear_comments l) = [] /\ whitespaces_of (map clear_comments l) = whitespaces_of l.
  Proof.
    unfold comments_of, whitespaces_of, clear_comments. rewrite clear_kind_retain, flat_trivia_retain. split.
    - rewrite filter_filter_none; [reflexivity|]. intros [[] s] H; [discriminate H|reflexivity].
    - rewrite filter_filter_same; [reflexivity|]. intros [[] s] H; [discriminate H|reflexivity].
  Qed.

  Theorem clear_whitespaces_spec (l : list (ttoken A)) :
    whitespaces_of (map clear_whitespaces l) = [] /\ comments_of (map clear_whitespaces l) = comments_of l.
  Proof.
    unfold comments_of, whitespaces_of, clear_whitespaces. rewrite clear_kind_retain, flat_trivia_retain. split.
    - rewrite filter_filter_none; [reflexivity|]. intros [[] s] H; [reflexivity|discriminate H].
    - rewrite filter_filter_same; [reflexivity|]. intros [[] s] H; [reflexivity|discriminate H].
  Qed.

  Theorem append_start_spec comment (t : ttoken A) (l : list (ttoken A)) :
    code_tokens (append_start comment t :: l) = code_tokens (t :: l) /\
    comments_of (append_start comment t :: l) = comment :: comments_of (t :: l).
  Proof.
    split; reflexivity.
  Qed.

  Theorem append_end_spec comment (l : list (ttoken A)) (t : ttoken A) :
    code_tokens (l ++ [append_end comment t]) = code_tokens (l ++ [t]) /\
    comments_of (l ++ [append_end comment t]) = comments_of (l ++ [t]) ++ [comment].
  Proof.
    split.
    - unfold code_tokens. rewrite !map_app. reflexivity.
    - unfold comments_of. rewrite !flat_map_app. cbn [flat_map]. rewrite !app_nil_r.
      unfold trivia_of, append_end. cbn [tt_leading tt_trailing].
      rewrite !filter_app, !map_app. cbn [filter is_comment fst trivia_kind_eqb map snd].
      rewrite <- !app_assoc. reflexivity.
  Qed.
End Filters.
