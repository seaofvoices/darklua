(** The refinement theorem of C10: after a reported history, the worker's files are those of
    a fresh run. *)
From Coq Require Import Arith PeanoNat Lia.
From DL Require Import Lib.Bytes Model.WorkerFs Model.Worker Proof.WorkerBasics Proof.WorkerInv
     Proof.WorkerStep Proof.WorkerProcess.
Open Scope N_scope.

Section Main.
  Variable cfg : Type.
  Variable hash : cfg -> N.
  Variable xform : cfg -> path -> content -> fs -> option content * list path.
  Variable inp outp : path.

  Hypothesis io_disjoint1 : starts_with inp outp = false.
  Hypothesis io_disjoint2 : starts_with outp inp = false.
  Hypothesis hash_faithful : forall c1 c2, hash c1 = hash c2 ->
                                           forall q t f, xform c1 q t f = xform c2 q t f.
  Hypothesis xform_frame : forall c q t f f',
      fst (xform c q t f) <> None ->
      (forall d, In d (snd (xform c q t f)) -> fs_get f' d = fs_get f d) ->
      xform c q t f' = xform c q t f.
  Hypothesis deps_exist : forall c q t f d,
      fst (xform c q t f) <> None -> In d (snd (xform c q t f)) -> fs_get f d <> None.
  Hypothesis deps_outside : forall c q t f d,
      fst (xform c q t f) <> None -> In d (snd (xform c q t f)) -> starts_with outp d = false.

  Notation out_of := (out_of inp outp).
  Notation is_source := (is_source inp).
  Notation step := (step cfg hash xform inp outp).
  Notation run := (run cfg hash xform inp outp).
  Notation fresh := (fresh cfg xform inp outp).
  Notation healthy := (healthy cfg xform inp).
  Notation always_healthy := (always_healthy cfg xform inp).
  Notation reported_from := (reported_from cfg inp).
  Notation dirs_ok := (dirs_ok cfg hash xform inp outp).
  Notation track := (track cfg inp).
  Notation user_step := (user_step cfg).
  Notation user_fs := (user_fs cfg).

  Definition ev_ok (E : list path) (e : event cfg) : Prop :=
    match e with
    | FsWrite p _ => touches_out outp p = false /\ In p E
    | FsRemove p => touches_out outp p = false
    | FsRemoveDir d => touches_out outp d = false
    | _ => True
    end.

  Lemma written_in_ever f0 (h : list (event cfg)) p c : In (FsWrite p c) h -> In p (ever_files cfg f0 h).
  Proof.
    intros H. unfold ever_files. apply in_or_app. right. unfold written_paths.
    apply in_flat_map. exists (FsWrite p c). split; [exact H|left; reflexivity].
  Qed.

  Lemma paths_ok_facts f0 h :
    paths_ok cfg inp outp f0 h = true ->
    let E := ever_files cfg f0 h in
    Forall (ev_ok E) h /\
    (forall a b, In a E -> In b E -> starts_with a b = true -> a = b) /\
    (forall q p, In q E -> is_source q = true -> fs_get f0 p <> None -> starts_with (out_of q) p = false) /\
    (forall p, fs_get f0 p <> None -> In p E).
  Proof.
    intros H E. unfold paths_ok in H. fold E in H.
    apply andb_true_iff in H as [H H3]. apply andb_true_iff in H as [H1 H2].
    rewrite forallb_forall in H1, H2, H3.
    split; [|split; [|split]].
    - apply Forall_forall. intros e He. specialize (H1 e He). destruct e; cbn; auto.
      + apply negb_true_iff in H1. split; [exact H1|]. eapply written_in_ever. exact He.
      + apply negb_true_iff in H1. exact H1.
      + apply negb_true_iff in H1. exact H1.
    - intros a b Ha Hb Hab. specialize (H2 a Ha). rewrite forallb_forall in H2. specialize (H2 b Hb).
      unfold strict_prefix in H2. rewrite Hab in H2. cbn in H2. apply negb_true_iff, negb_false_iff in H2.
      apply path_eqb_eq. exact H2.
    - intros q p Hq Hs Hp. specialize (H3 q Hq). rewrite Hs in H3. cbn in H3.
      rewrite forallb_forall in H3. apply fs_get_In in Hp. specialize (H3 p Hp).
      apply negb_true_iff in H3. exact H3.
    - intros p Hp. unfold E, ever_files. apply in_or_app. left. apply fs_get_In. exact Hp.
  Qed.

  Variable f0 : fs.
  Variable E : list path.
  Hypothesis E_nonest : forall a b, In a E -> In b E -> starts_with a b = true -> a = b.
  Hypothesis E_foreign : forall q p, In q E -> is_source q = true -> fs_get f0 p <> None ->
                                     starts_with (out_of q) p = false.
  Hypothesis E_initial : forall p, fs_get f0 p <> None -> In p E.

  Notation inv := (inv cfg hash xform inp outp f0 E).

  Fixpoint dirt_after (u : fs) (d : dirty) (h : list (event cfg)) : dirty :=
    match h with
    | [] => d
    | e :: h' => dirt_after (user_step u e) (track u d e) h'
    end.

  Lemma inv_initial c0 c :
    inv c0 (mkDirty [] (fs_collect f0 inp) []) f0 (mkWorld f0 c empty_tree).
  Proof.
    assert (Hnone : forall i it, get_slot [] i = Some it -> False) by (intros [|i] it H; discriminate).
    constructor; cbn [w_tree w_fs dC dN dR empty_tree slots]; try (intros i it Hi; destruct (Hnone i it Hi)).
    - apply wf_empty.
    - intros q Hq Hex Hn. destruct Hn. apply fs_collect_source. auto.
    - intros p _. right. right. reflexivity.
    - reflexivity.
    - exact E_initial.
    - reflexivity.
  Qed.

  Lemma with_tree_inv c0 d u w r :
    (exists t', r = Ok t' /\ inv c0 d u (mkWorld (w_fs w) (w_cfg w) t')) ->
    exists w' c0', with_tree cfg w r = Running w' /\ inv c0' d u w' /\ w_cfg w' = w_cfg w.
  Proof. intros [t' [-> I]]. eexists. exists c0. split; [reflexivity|]. split; [exact I|reflexivity]. Qed.

  Lemma step_inv c0 d u w e :
    inv c0 d u w -> ev_ok E e ->
    call_ok cfg inp u e = true ->
    (e = Process -> is_clean d = true /\ healthy (w_cfg w) u = true) ->
    dir_event_ok cfg (w_tree w) e = true ->
    exists w' c0', step w e = Running w' /\ inv c0' (track u d e) (user_step u e) w' /\
                   w_cfg w' = match e with SetCfg c => c | _ => w_cfg w end.
  Proof.
    intros Hinv Hev Hcall Hproc Hdir. destruct e; cbn [step user_step Worker.user_step].
    1-6: eexists; exists c0; (split; [reflexivity|]); (split; [|reflexivity]).
    - destruct Hev. apply step_FsWrite; assumption.
    - apply step_FsRemove; assumption.
    - apply step_FsRemoveDir; assumption.
    - apply step_SetCfg; assumption.
    - apply step_Snapshot; assumption.
    - apply step_Collect; assumption.
    - apply with_tree_inv with (c0 := c0), step_SrcChanged; assumption.
    - apply with_tree_inv with (c0 := c0), step_RemoveSrc; assumption.
    - cbn [call_ok] in Hcall. apply andb_true_iff in Hcall as [Hc1 Hc2].
      apply with_tree_inv with (c0 := c0), step_AddSrc; assumption.
    - destruct (Hproc eq_refl) as [Hclean Hhl].
      destruct (step_Process cfg hash xform inp outp io_disjoint1 io_disjoint2 hash_faithful xform_frame
                             deps_outside f0 E E_nonest E_foreign c0 d u w Hinv Hclean Hhl)
        as [t' [f' [R [I' _]]]].
      rewrite R. eexists. exists (w_cfg w). split; [reflexivity|]. split; [exact I'|reflexivity].
  Qed.

  Lemma run_inv : forall h c0 d u w,
    inv c0 d u w -> Forall (ev_ok E) h ->
    reported_from u d h = true -> dirs_ok w h = true ->
    always_healthy u (w_cfg w) h = true ->
    exists w' c0', run w h = Running w' /\ inv c0' (dirt_after u d h) (user_fs u h) w' /\
                   w_cfg w' = final_cfg cfg (w_cfg w) h.
  Proof.
    induction h as [|e h IH]; intros c0 d u w Hinv Hev Hrep Hdir Hah.
    - exists w, c0. cbn. auto.
    - inversion Hev as [|? ? He Hev']; subst.
      cbn [Worker.always_healthy] in Hah. apply andb_true_iff in Hah as [Hah1 Hah2].
      cbn [Worker.reported_from] in Hrep. apply andb_true_iff in Hrep as [Hrep Hrep'].
      apply andb_true_iff in Hrep as [Hcall Hproc].
      cbn [Worker.dirs_ok] in Hdir. apply andb_true_iff in Hdir as [Hd1 Hd2].
      destruct (step_inv c0 d u w e Hinv He Hcall) as [w1 [c1 [Hs [I1 Hc]]]].
      { intros ->. auto. }
      { exact Hd1. }
      rewrite Hs in Hd2. rewrite <- Hc in Hah2.
      destruct (IH c1 _ _ w1 I1 Hev' Hrep' Hd2 Hah2) as [w' [c' [Hr [I' Hc']]]].
      exists w', c'. cbn [Worker.run dirt_after]. rewrite Hs. split; [exact Hr|]. split; [exact I'|].
      rewrite Hc', Hc. unfold final_cfg. cbn [fold_left]. destruct e; reflexivity.
  Qed.

  Lemma reported_from_app h1 h2 u d :
    reported_from u d (h1 ++ h2) = true ->
    reported_from u d h1 = true /\ reported_from (user_fs u h1) (dirt_after u d h1) h2 = true.
  Proof.
    revert u d; induction h1 as [|e h1 IH]; intros u d H; cbn [app Worker.reported_from dirt_after] in *.
    - auto.
    - apply andb_true_iff in H as [H1 H2]. apply IH in H2 as [H2 H3]. rewrite H1, H2. auto.
  Qed.

  Lemma dirs_ok_split h1 h2 w :
    dirs_ok w (h1 ++ h2) =
    dirs_ok w h1 && match run w h1 with Running w' => dirs_ok w' h2 | _ => true end.
  Proof.
    revert w; induction h1 as [|e h1 IH]; intros w; cbn [app Worker.dirs_ok Worker.run]; [reflexivity|].
    destruct (step w e) as [w1| |]; rewrite <- ?andb_assoc, ?IH; reflexivity.
  Qed.

  Lemma dirs_ok_app h1 h2 w w' :
    dirs_ok w (h1 ++ h2) = true -> run w h1 = Running w' ->
    dirs_ok w h1 = true /\ dirs_ok w' h2 = true.
  Proof. rewrite dirs_ok_split. intros H R. rewrite R in H. apply andb_true_iff, H. Qed.

  Lemma dirs_ok_prefix h1 h2 w : dirs_ok w (h1 ++ h2) = true -> dirs_ok w h1 = true.
  Proof. rewrite dirs_ok_split. intros H. apply andb_true_iff in H. apply H. Qed.

  Lemma run_app h1 h2 w w' :
    run w h1 = Running w' -> run w (h1 ++ h2) = run w' h2.
  Proof.
    revert w; induction h1 as [|e h1 IH]; intros w R; cbn [app Worker.run] in *.
    - inversion R; subst. reflexivity.
    - destruct (step w e) as [w1| |]; try discriminate. apply IH. exact R.
  Qed.

  Definition fresh_step c u (g : fs) (q : path) : fs :=
    match fs_get u q with
    | Some txt => match fst (xform c q txt u) with
                  | Some o => fs_write g (out_of q) o
                  | None => g
                  end
    | None => g
    end.

  Lemma fresh_fold_other c u p l : forall g,
    (forall q, In q l -> out_of q <> p) -> fs_get (fold_left (fresh_step c u) l g) p = fs_get g p.
  Proof.
    induction l as [|q l IH]; intros g Hl; cbn [fold_left]; [reflexivity|].
    rewrite IH by (intros q' Hq'; apply Hl; right; exact Hq'). unfold fresh_step.
    destruct (fs_get u q) as [txt|]; [|reflexivity].
    destruct (fst (xform c q txt u)) as [o|]; [|reflexivity].
    rewrite fs_get_write. destruct (path_eqb (out_of q) p) eqn:Ep; [|reflexivity].
    apply path_eqb_eq in Ep. destruct (Hl q (or_introl eq_refl) Ep).
  Qed.

  (** once [q] has been transformed its output stays: no other source has the same output *)
  Lemma fresh_fold_output c u q txt o :
    is_source q = true -> fs_get u q = Some txt -> fst (xform c q txt u) = Some o ->
    forall l g, (forall q', In q' l -> is_source q' = true) ->
                In q l \/ fs_get g (out_of q) = Some o ->
                fs_get (fold_left (fresh_step c u) l g) (out_of q) = Some o.
  Proof.
    intros Hqs Hq Hx. induction l as [|q' l IH]; intros g Hl Hor; cbn [fold_left].
    - destruct Hor as [[]|H]. exact H.
    - apply IH; [intros x Hx'; apply Hl; right; exact Hx'|]. unfold fresh_step.
      destruct (path_eq_dec q' q) as [->|Hne].
      + right. rewrite Hq, Hx, fs_get_write, path_eqb_refl. reflexivity.
      + destruct Hor as [[Heq|Hin']|Hg]; [congruence|left; exact Hin'|].
        right. destruct (fs_get u q') as [txt'|]; [|exact Hg].
        destruct (fst (xform c q' txt' u)) as [o'|]; [|exact Hg].
        rewrite fs_get_write. destruct (path_eqb (out_of q') (out_of q)) eqn:Ep; [|exact Hg].
        apply path_eqb_eq, out_of_inj in Ep; [contradiction|apply Hl; left; reflexivity|exact Hqs].
  Qed.

  Lemma fresh_other c u p :
    (forall q, In q (fs_collect u inp) -> out_of q <> p) -> fs_get (fresh c u) p = fs_get u p.
  Proof. apply fresh_fold_other. Qed.

  Lemma fresh_output c u q txt o :
    In q (fs_collect u inp) -> fs_get u q = Some txt -> fst (xform c q txt u) = Some o ->
    fs_get (fresh c u) (out_of q) = Some o.
  Proof.
    intros Hin Hq Hx.
    assert (Hsrc : forall q', In q' (fs_collect u inp) -> is_source q' = true)
      by (intros q' H; apply fs_collect_source in H as [_ H]; exact H).
    apply (fresh_fold_output c u q txt o); auto.
  Qed.

  (** why a settled tree has the files of a fresh run: every source has an item, a finished
      clean item is good, and what is under the output folder and belongs to no item is as it
      was initially *)
  Lemma settled_eq_fresh c d u w :
    inv c d u w -> is_clean d = true -> rmf (w_tree w) = [] ->
    (forall j it, get_slot (slots (w_tree w)) j = Some it -> is_done (i_st it) = true) ->
    forall p, fs_get (w_fs w) p = fs_get (fresh c u) p.
  Proof.
    intros I Hclean Hrm Hdone. destruct (clean_dirty d Hclean) as [HdC [HdN HdR]].
    pose proof (inv_wf I) as W.
    assert (Hitem : forall i it, get_slot (slots (w_tree w)) i = Some it ->
                                 fs_get (w_fs w) (i_out it) = fs_get (fresh c u) (i_out it)).
    { intros i it Hi.
      destruct (inv_good I i it Hi (Hdone i it Hi) (clean_item_nil d it HdC HdR))
        as [txt [o [Hsrc [Hok [Hdeps [Hst Hres]]]]]].
      destruct (wf_item W i it Hi) as [Hout [Hs _]].
      assert (Hso : starts_with outp (i_src it) = false) by (eapply source_not_out; eassumption).
      assert (Hu : fs_get u (i_src it) = Some txt) by (rewrite <- (inv_user I); assumption).
      assert (Hx : xform c (i_src it) txt u = xform c (i_src it) txt (w_fs w)).
      { apply xform_frame; [congruence|]. intros x Hx. symmetry. apply (inv_user I).
        eapply deps_outside; [|exact Hx]. congruence. }
      rewrite Hres, Hout. symmetry. apply (fresh_output c u (i_src it) txt o); [|exact Hu|congruence].
      apply fs_collect_source. split; [congruence|exact Hs]. }
    intros p. destruct (starts_with outp p) eqn:Epo.
    - destruct (item_out_dec (w_tree w) p) as [[i [it [Hi <-]]]|Hno]; [eapply Hitem; exact Hi|].
      destruct (inv_out I p Epo) as [[i [it [Hi Ho]]]|[Hr|Hf]].
      + destruct (Hno i it Hi Ho).
      + rewrite Hrm in Hr. destruct Hr.
      + rewrite Hf, fresh_other; [symmetry; apply (inv_ufs_out I p Epo)|].
        (* a source whose output is [p] would have an item *)
        intros q Hq Heq. apply fs_collect_source in Hq as [Hq1 Hqs].
        assert (Hnode : node_of (w_tree w) q <> None).
        { apply (inv_hasitem I q Hqs); [|rewrite HdN; intros []].
          rewrite (inv_user I); [exact Hq1|]. eapply source_not_out; eassumption. }
        apply node_of_ne_none in Hnode as [i [it [Hi Hs]]].
        destruct (wf_item W i it Hi) as [Hout _].
        apply (Hno i it Hi). rewrite Hout, Hs. exact Heq.
    - rewrite (inv_user I p Epo). symmetry. apply fresh_other.
      intros q _ Heq. rewrite <- Heq, rebase_starts in Epo. discriminate.
  Qed.

  Lemma always_healthy_app h1 h2 u c :
    always_healthy u c (h1 ++ h2) = true ->
    always_healthy u c h1 = true /\
    always_healthy (user_fs u h1) (final_cfg cfg c h1) h2 = true.
  Proof.
    revert u c; induction h1 as [|e h1 IH]; intros u c H; cbn [app Worker.always_healthy] in *.
    - auto.
    - apply andb_true_iff in H as [H1 H2]. apply IH in H2 as [H2 H3]. rewrite H1, H2. split; [reflexivity|].
      unfold final_cfg, user_fs in *. cbn [fold_left]. exact H3.
  Qed.

  Theorem incremental_eq_fresh_E c_init h :
    Forall (ev_ok E) h ->
    reported cfg inp f0 (h ++ [Process]) = true ->
    dirs_ok (mkWorld f0 c_init empty_tree) h = true ->
    always_healthy f0 c_init (h ++ [Process]) = true ->
    exists w, run (mkWorld f0 c_init empty_tree) (h ++ [Process]) = Running w /\
              forall p, fs_get (w_fs w) p = fs_get (fresh (final_cfg cfg c_init h) (user_fs f0 h)) p.
  Proof.
    intros Hev Hrep Hdir Hah. set (w0 := mkWorld f0 c_init empty_tree) in *.
    apply reported_from_app in Hrep as [Hrep1 Hclean]. apply always_healthy_app in Hah as [Hah1 Hhealthy].
    destruct (run_inv h c_init _ f0 w0 (inv_initial c_init c_init) Hev Hrep1 Hdir Hah1)
      as [w1 [c1 [Hrun1 [I1 Hc1]]]].
    cbn [Worker.reported_from call_ok andb] in Hclean. rewrite andb_true_r in Hclean.
    unfold w0 in Hc1. cbn [w_cfg] in Hc1. cbn [Worker.always_healthy] in Hhealthy. rewrite andb_true_r, <- Hc1 in Hhealthy.
    destruct (step_Process cfg hash xform inp outp io_disjoint1 io_disjoint2 hash_faithful xform_frame
                           deps_outside f0 E E_nonest E_foreign c1 _ _ w1 I1 Hclean Hhealthy)
      as [t2 [f2 [R [I2 [Hrm Hdone]]]]].
    exists (mkWorld f2 (w_cfg w1) t2). split.
    { rewrite (run_app h [Process] w0 w1 Hrun1). cbn [Worker.run Worker.step]. rewrite R. reflexivity. }
    rewrite <- Hc1. exact (settled_eq_fresh _ _ _ _ I2 Hclean Hrm Hdone).
  Qed.

  (** no history inside the contract makes the worker panic or run out of fuel *)
  Theorem no_panic_E c_init h :
    Forall (ev_ok E) h ->
    reported cfg inp f0 h = true ->
    dirs_ok (mkWorld f0 c_init empty_tree) h = true ->
    always_healthy f0 c_init h = true ->
    exists w, run (mkWorld f0 c_init empty_tree) h = Running w.
  Proof.
    intros Hev Hrep Hdir Hah.
    destruct (run_inv h c_init _ f0 _ (inv_initial c_init c_init) Hev Hrep Hdir Hah) as [w1 [c1 [Hrun1 _]]].
    eauto.
  Qed.
End Main.
