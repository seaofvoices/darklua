(** C07 for remove_continue (Model/RemoveContinue.v): census of the rule's output.

    For every class of the syntax and every state of the traversal:
      [keep]  for a feature [j <> 1] the count of the output equals the count of the input
              (the rule only adds [local], [repeat], [if], assignments, [not], identifiers,
              [true]/[false], [break]);
      [cont]  the count of [continue] in the output is [stray_*]: the [continue] statements
              reached while the top of the loop stack is not a loop.
    Both by the structural induction of Proof/ResolveInd.v (list children come with [Forall],
    optional children with [OptP]); every node is treated alike: one step of the traversal,
    the induction hypothesis for each recursive call, a comparison of sums. *)
From Coq Require Import ZArith NArith List Bool Lia ZifyBool ZifyN ZifyNat.
From DL Require Import Lib.Bytes Lua.Syntax Lua.Census Model.RemoveContinue
  Proof.LoweringCensusBase Proof.ResolveInd.
Import ListNotations.
Local Open Scope nat_scope.

(** [meas rc F G x]: whatever the counter, the result of the traversal [rc] at [x] has the
    [F]-measure that [G] gives for [x].  [measB] is the same for the classes visited under a
    frame; there [G] may depend on whether the frame is a loop. *)

Definition is_loop (ctx : option N) : bool := match ctx with Some _ => true | None => false end.

Definition meas {A} (rc : N -> A -> A * N) (F G : A -> N) (x : A) : Prop :=
  forall m x' m', rc m x = (x', m') -> F x' = G x.

Definition measB {A} (rc : option N -> N -> A -> A * N * bool) (F : A -> N) (G : bool -> A -> N) (x : A) : Prop :=
  forall ctx m x' m' c, rc ctx m x = (x', m', c) -> F x' = G (is_loop ctx) x.

Lemma mapS_meas {A} (rc : N -> A -> A * N) (F G : A -> N) l : Forall (meas rc F G) l ->
  forall m l' m', mapS rc m l = (l', m') -> sumN (map F l') = sumN (map G l).
Proof.
  induction 1 as [|a l Ha _ IH]; intros m l' m' E; cbn [mapS] in E.
  - injection E as <- <-. reflexivity.
  - destruct (rc m a) as [x' n1] eqn:E1. destruct (mapS rc n1 l) as [r' n2] eqn:E2.
    injection E as <- <-. cbn [map]. rewrite !sumN_cons, (Ha _ _ _ E1), (IH _ _ _ E2). reflexivity.
Qed.

Lemma mapSB_meas {A} (rc : option N -> N -> A -> A * N * bool) F G l : Forall (measB rc F G) l ->
  forall ctx m l' m' c, mapSB (rc ctx) m l = (l', m', c) -> sumN (map F l') = sumN (map (G (is_loop ctx)) l).
Proof.
  induction 1 as [|a l Ha _ IH]; intros ctx m l' m' c E; cbn [mapSB] in E.
  - injection E as <- <- <-. reflexivity.
  - destruct (rc ctx m a) as [[x' n1] c1] eqn:E1. destruct (mapSB (rc ctx) n1 l) as [[r' n2] c2] eqn:E2.
    injection E as <- <- <-. cbn [map]. rewrite !sumN_cons, (Ha _ _ _ _ _ E1), (IH _ _ _ _ _ E2). reflexivity.
Qed.

Lemma optS_meas {A} (rc : N -> A -> A * N) (F G : A -> N) o : OptP (meas rc F G) o ->
  forall m o' m', optS rc m o = (o', m') -> optN F o' = optN G o.
Proof.
  destruct o as [x|]; intros H m o' m' E; cbn [optS] in E.
  - destruct (rc m x) as [x' n1] eqn:E1. injection E as <- <-. exact (H _ _ _ E1).
  - injection E as <- <-. reflexivity.
Qed.

Lemma optSB_meas {A} (rc : option N -> N -> A -> A * N * bool) F G o : OptP (measB rc F G) o ->
  forall ctx m o' m' c, optSB (rc ctx) m o = (o', m', c) -> optN F o' = optN (G (is_loop ctx)) o.
Proof.
  destruct o as [x|]; intros H ctx m o' m' c E; cbn [optSB] in E.
  - destruct (rc ctx m x) as [[x' n1] c1] eqn:E1. injection E as <- <- <-. exact (H _ _ _ _ _ E1).
  - injection E as <- <- <-. reflexivity.
Qed.

(** [rc_step E]: unfold the traversal once in [E : rc_* .. = (x', m')], name the results of
    its recursive calls and read off [x'];
    [by_IH]: replace the equation of each recursive call by the measure equation that its
    induction hypothesis gives. *)
Ltac rc_step E :=
  cbn [rc_ty rc_expr rc_iseg rc_ebranch rc_args rc_tentry rc_fbody rc_param rc_stmt rc_sbranch rc_last] in E;
  repeat match type of E with
  | context [match ?t with pair _ _ => _ end] =>
    lazymatch type of t with
    | (_ * _ * _)%type => destruct t as [[? ?] ?] eqn:?
    | _ => destruct t as [? ?] eqn:?
    end; cbv beta iota in E
  end;
  injection E; intros; subst; clear E.

Ltac by_IH :=
  repeat match goal with
  | IH : meas ?rc _ _ ?x, H : ?rc _ ?x = _ |- _ => apply IH in H
  | IH : measB ?rc _ _ ?x, H : ?rc _ _ ?x = _ |- _ => apply IH in H
  | IH : Forall (meas ?rc _ _) ?l, H : mapS ?rc _ ?l = _ |- _ => apply (mapS_meas _ _ _ _ IH) in H
  | IH : Forall (measB ?rc _ _) ?l, H : mapSB (?rc _) _ ?l = _ |- _ => apply (mapSB_meas _ _ _ _ IH) in H
  | IH : OptP (meas ?rc _ _) ?o, H : optS ?rc _ ?o = _ |- _ => apply (optS_meas _ _ _ _ IH) in H
  | IH : OptP (measB ?rc _ _) ?o, H : optSB (?rc _) _ ?o = _ |- _ => apply (optSB_meas _ _ _ _ IH) in H
  end;
  cbv beta in *; cbn [is_loop] in *.

(** [rc_block] either converts a final [continue] or visits the last statement; in the second
    case that statement is no [continue] under a loop, so it counts as a stray one or not
    whatever the frame *)
Lemma rc_block_inv ctx n ss last b' n' c : rc_block ctx n (Block ss last) = (b', n', c) ->
  exists ss' n1 c1, mapSB (rc_stmt ctx) n ss = (ss', n1, c1) /\
    ((exists id, ctx = Some id /\ last = Some LContinue /\ b' = Block (ss' ++ [set_flag id]) (Some LBreak)) \/
     (exists last', optS rc_last n1 last = (last', n') /\ b' = Block ss' last' /\
        optN (stray_last (is_loop ctx)) last = optN (stray_last false) last)).
Proof.
  cbn [rc_block]. destruct (mapSB (rc_stmt ctx) n ss) as [[ss' n1] c1]. intros E. exists ss', n1, c1.
  split; [reflexivity|].
  destruct last as [[| |es]|]; [|destruct ctx as [id|]| |];
    try (left; exists id; injection E as <- <- <-; repeat split; reflexivity);
    right; destruct (optS rc_last n1 _) as [last' n2]; injection E as <- <- <-; exists last'; repeat split; reflexivity.
Qed.

Lemma f_set_flag j id : f_stmt j (set_flag id) = 0%N.
Proof. reflexivity. Qed.

Lemma f_wrap_if j c id b : f_block j (wrap_if c id b) = f_block j b.
Proof.
  destruct c; [|reflexivity]. destruct b as [ss [l|]]; cbn [wrap_if wrap_loop_block]; funf.
  - fsimp. funf. fsimp. lia.
  - fsimp. funf. rewrite map_app, sumN_app. fsimp. rewrite f_set_flag. lia.
Qed.

Lemma f_converted j ss id :
  f_block j (Block (ss ++ [set_flag id]) (Some LBreak)) = sumN (map (f_stmt j) ss).
Proof. funf. rewrite map_app, sumN_app. cbn [map optN f_last]. rewrite sumN_cons, f_set_flag. cbn [sumN fold_right]. lia. Qed.

Section Keep.
Variable j : nat.
Hypothesis Hj : j <> 1.

Lemma u_j_1 : u j 1 = 0%N.
Proof. unfold u. destruct (Nat.eqb_spec j 1); [contradiction|reflexivity]. Qed.

Ltac keep_node :=
  intros; hnf; intros;
  lazymatch goal with E : _ = _ |- _ => rc_step E end;
  by_IH; funf; rewrite ?f_wrap_if; lia.

Lemma keep_block b : measB rc_block (f_block j) (fun _ => f_block j) b.
Proof.
  revert b. apply (ind_block
    (meas rc_ty (f_ty j) (f_ty j)) (meas rc_expr (f_expr j) (f_expr j)) (meas rc_iseg (f_iseg j) (f_iseg j))
    (meas rc_ebranch (f_ebranch j) (f_ebranch j)) (meas rc_args (f_args j) (f_args j))
    (meas rc_tentry (f_tentry j) (f_tentry j)) (measB rc_fbody (f_fbody j) (fun _ => f_fbody j))
    (meas rc_param (f_param j) (f_param j)) (measB rc_stmt (f_stmt j) (fun _ => f_stmt j))
    (measB rc_sbranch (f_sbranch j) (fun _ => f_sbranch j)) (measB rc_block (f_block j) (fun _ => f_block j))
    (meas rc_last (f_last j) (f_last j))).
  all: try keep_node.
  (* the block: a converted [continue] is counted at index 1 only *)
  intros ss last IHss IHlast ctx m b' m' c E.
  apply rc_block_inv in E as (ss' & n1 & c1 & E1 & [(id & -> & -> & ->)|(last' & E2 & -> & _)]); by_IH.
  - rewrite f_converted. funf. cbn [optN f_last]. rewrite u_j_1. lia.
  - funf. lia.
Qed.
End Keep.

(** as [funf] for [stray_*]; the model's [nsum] and [nopt] are [sumN] and [optN] *)
Ltac sunf :=
  cbn [stray_ty stray_expr stray_iseg stray_ebranch stray_args stray_tentry stray_fbody stray_param stray_stmt
       stray_sbranch stray_block stray_last];
  fold stray_ty stray_expr stray_iseg stray_ebranch stray_args stray_tentry stray_fbody stray_param stray_stmt
       stray_sbranch stray_block stray_last;
  change nsum with sumN; change @nopt with @optN.

(** case split on what decides a node's own census entry: the operator (floor division), a
    [const] declaration, attributes, a Luau numeral *)
Ltac root_cases :=
  try match goal with op : binop |- _ => destruct op end;
  repeat match goal with |- context [if ?b then _ else _] => destruct b end.

Ltac cont_node :=
  intros; hnf; intros;
  lazymatch goal with E : _ = _ |- _ => rc_step E end;
  by_IH; funf; sunf; rewrite ?f_wrap_if; root_cases; cbn [u Nat.eqb]; lia.

Lemma cont_block b : measB rc_block (f_block 1) stray_block b.
Proof.
  revert b. apply (ind_block
    (meas rc_ty (f_ty 1) stray_ty) (meas rc_expr (f_expr 1) stray_expr) (meas rc_iseg (f_iseg 1) stray_iseg)
    (meas rc_ebranch (f_ebranch 1) stray_ebranch) (meas rc_args (f_args 1) stray_args)
    (meas rc_tentry (f_tentry 1) stray_tentry) (measB rc_fbody (f_fbody 1) stray_fbody)
    (meas rc_param (f_param 1) stray_param) (measB rc_stmt (f_stmt 1) stray_stmt)
    (measB rc_sbranch (f_sbranch 1) stray_sbranch) (measB rc_block (f_block 1) stray_block)
    (meas rc_last (f_last 1) (stray_last false))).
  all: try cont_node.
  intros ss last IHss IHlast ctx m b' m' c E.
  apply rc_block_inv in E as (ss' & n1 & c1 & E1 & [(id & -> & -> & ->)|(last' & E2 & -> & Hl)]); by_IH.
  - rewrite f_converted. sunf. cbn [optN stray_last]. lia.
  - sunf. rewrite Hl. funf. lia.
Qed.

Lemma sumN_map_le {A} (F G : A -> N) l : (forall x, In x l -> (F x <= G x)%N) -> (sumN (map F l) <= sumN (map G l))%N.
Proof.
  induction l as [|x l IH]; intros H; [cbn; lia|]. cbn [map]. rewrite !sumN_cons.
  pose proof (H x (or_introl eq_refl)). pose proof (IH (fun y Hy => H y (or_intror Hy))). lia.
Qed.

Lemma optN_le {A} (F G : A -> N) o : (forall x, o = Some x -> (F x <= G x)%N) -> (optN F o <= optN G o)%N.
Proof. destruct o; intros H; cbn [optN]; [apply H; reflexivity|lia]. Qed.

Lemma OptP_forall {A} (P : A -> Prop) o : OptP P o <-> forall x, o = Some x -> P x.
Proof. destruct o as [a|]; cbn [OptP]; split; intros H; [intros x [= <-]; exact H|exact (H a eq_refl)|discriminate|exact I]. Qed.

(** both sides are sums of the same shape: compare them summand by summand *)
Ltac le_node :=
  intros;
  repeat match goal with
  | IH : Forall _ _ |- _ => rewrite Forall_forall in IH
  | IH : OptP _ _ |- _ => rewrite OptP_forall in IH
  end;
  funf; sunf; root_cases; cbn [u Nat.eqb]; rewrite ?N.add_0_l;
  repeat apply N.add_le_mono; auto using N.le_0_l, sumN_map_le, optN_le.

Lemma stray_le_feature : forall b inl, (stray_block inl b <= f_block 1 b)%N.
Proof.
  apply (ind_block
    (fun t => stray_ty t <= f_ty 1 t)%N (fun e => stray_expr e <= f_expr 1 e)%N
    (fun s => stray_iseg s <= f_iseg 1 s)%N (fun b => stray_ebranch b <= f_ebranch 1 b)%N
    (fun a => stray_args a <= f_args 1 a)%N (fun t => stray_tentry t <= f_tentry 1 t)%N
    (fun f => forall inl, stray_fbody inl f <= f_fbody 1 f)%N (fun p => stray_param p <= f_param 1 p)%N
    (fun s => forall inl, stray_stmt inl s <= f_stmt 1 s)%N (fun b => forall inl, stray_sbranch inl b <= f_sbranch 1 b)%N
    (fun b => forall inl, stray_block inl b <= f_block 1 b)%N (fun l => forall inl, stray_last inl l <= f_last 1 l)%N).
  all: try solve [le_node].
  intros [|]; cbn; lia.
Qed.

Theorem remove_continue_keeps : forall j b, j < 9 -> j <> 1 ->
  feature j (remove_continue_block b) = feature j b.
Proof.
  intros j b Hj Ne. rewrite !feature_f_block by exact Hj. unfold remove_continue_block.
  destruct (rc_block None 0 b) as [[b' n] c] eqn:E. exact (keep_block j Ne b _ _ _ _ _ E).
Qed.

Theorem remove_continue_leaves_stray : forall b,
  feature 1 (remove_continue_block b) = stray_continues b.
Proof.
  intros b. rewrite feature_f_block by lia. unfold remove_continue_block, stray_continues.
  destruct (rc_block None 0 b) as [[b' n] c] eqn:E. exact (cont_block b _ _ _ _ _ E).
Qed.

(** (a) the rule removes every [continue] that is under a loop frame ... *)
Theorem removes_continue : forall b, continue_in_loops b = true ->
  feature 1 (remove_continue_block b) = 0%N.
Proof.
  intros b H. rewrite remove_continue_leaves_stray. unfold continue_in_loops in H.
  apply N.eqb_eq in H. exact H.
Qed.

(** ... and only those: the carve-out is exact *)
Theorem removes_continue_iff : forall b,
  feature 1 (remove_continue_block b) = 0%N <-> continue_in_loops b = true.
Proof.
  intros b. rewrite remove_continue_leaves_stray. unfold continue_in_loops. symmetry. apply N.eqb_eq.
Qed.

(** the unconditional statement is false for the code as it is: a [continue] outside of any
    loop (which darklua's parser accepts) survives *)
Theorem removes_continue_refuted : exists b, feature 1 (remove_continue_block b) <> 0%N.
Proof. exists (Block [] (Some LContinue)). vm_compute. discriminate. Qed.

(** the hypothesis of [removes_continue] is satisfiable by a non-trivial input: nested loops,
    [break] beside [continue], a function with its own loop inside a loop *)
Example removes_continue_example :
  let c := EIdent [99%N] in
  let b := Block [SWhile c (Block [SIf [SBranch c (Block [] (Some LContinue))] None;
                                   SNumericFor (Param [105%N] None) c c None
                                     (Block [SIf [SBranch c (Block [] (Some LBreak))] None] (Some LContinue));
                                   SLocal false [Param [103%N] None]
                                     [EFunction (FBody [] false None None None 0%N
                                        (Block [SRepeat (Block [] (Some LContinue)) c] None))]]
                                  None)] None in
  continue_in_loops b = true /\ feature 1 b = 3%N /\ feature 1 (remove_continue_block b) = 0%N /\
  remove_continue_loops b = 3%N.
Proof. vm_compute. repeat split. Qed.

Lemma no_continue_in_loops : forall b, feature 1 b = 0%N -> continue_in_loops b = true.
Proof.
  intros b H. rewrite feature_f_block in H by lia. unfold continue_in_loops, stray_continues.
  apply N.eqb_eq. pose proof (stray_le_feature b false). lia.
Qed.

(** (b) the rule introduces none of the nine constructs *)
Theorem preserves_continue : forall j b, j < 9 -> feature j b = 0%N ->
  feature j (remove_continue_block b) = 0%N.
Proof.
  intros j b Hj Z. destruct (Nat.eq_dec j 1) as [->|Ne].
  - apply removes_continue, no_continue_in_loops, Z.
  - rewrite remove_continue_keeps by assumption. exact Z.
Qed.

Theorem remove_continue_output_in_loops : forall b, continue_in_loops b = true ->
  continue_in_loops (remove_continue_block b) = true.
Proof. intros b H. apply no_continue_in_loops, removes_continue, H. Qed.
