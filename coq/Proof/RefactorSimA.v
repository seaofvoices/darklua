(** Fuel 0 for eleven functions of the interpreter.  The [_0] equations that proofs rewrite
    with (the set [fuel0]) are in [Proof/SemFacts.v]; these are instances of them. *)
From Coq Require Import ZArith NArith List Bool String Lia.
From DL Require Import Lib.Bytes Lib.F64 Lua.Syntax Lua.Sem.
From DL Require Import Proof.SemFacts.
Import ListNotations.
Open Scope N_scope.

Section Zero.
Variable d : dialect.

Lemma tostr_0 v s : tostr d 0 v s = Fuel.
Proof. exact (SemFacts.tostr_0 d v s). Qed.
Lemma arith_0 o a b s : arith d 0 o a b s = Fuel.
Proof. exact (SemFacts.arith_0 d o a b s). Qed.
Lemma concat_0 a b s : concat d 0 a b s = Fuel.
Proof. exact (SemFacts.concat_0 d a b s). Qed.
Lemma equal_0 a b s : equal d 0 a b s = Fuel.
Proof. exact (SemFacts.equal_0 d a b s). Qed.
Lemma less_0 st a b s : less d 0 st a b s = Fuel.
Proof. exact (SemFacts.less_0 d st a b s). Qed.
Lemma length_0 v s : length d 0 v s = Fuel.
Proof. exact (SemFacts.length_0 d v s). Qed.
Lemma call_builtin_0 b args s : call_builtin d 0 b args s = Fuel.
Proof. exact (SemFacts.call_builtin_0 d b args s). Qed.
Lemma assign_target_0 rho t v s : assign_target d 0 rho t v s = Fuel.
Proof. exact (SemFacts.assign_target_0 d rho t v s). Qed.
Lemma exec_repeat_0 rho va b c s : exec_repeat d 0 rho va b c s = Fuel.
Proof. exact (SemFacts.exec_repeat_0 d rho va b c s). Qed.
Lemma exec_numfor_0 rho va x i st sp b s : exec_numfor d 0 rho va x i st sp b s = Fuel.
Proof. exact (SemFacts.exec_numfor_0 d rho va x i st sp b s). Qed.
Lemma exec_genfor_0 rho va vars f s0 ctl b s : exec_genfor d 0 rho va vars f s0 ctl b s = Fuel.
Proof. exact (SemFacts.exec_genfor_0 d rho va vars f s0 ctl b s). Qed.

End Zero.
