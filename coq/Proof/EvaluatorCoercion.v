(** The evaluator's string -> number coercion ([number_coercion]: UTF-8 decode, Rust [trim],
    optional '-', darklua's number-literal reader) agrees with the reference coercion
    ([F64.str2num]) wherever both yield a number. *)
From Coq Require Import ZArith NArith List Bool String Lia.
From Coq Require Import Floats.SpecFloat.
From DL Require Import Lib.Bytes Lib.F64 Lua.Syntax Model.StringLit Model.NumberLit Model.Evaluator
  Proof.StringLitFacts Proof.EvaluatorF64.
From DL Require Import Proof.ListFacts.
Import ListNotations.
Open Scope N_scope.
Local Notation llen := List.length.

(** A pattern on a byte literal is a deep match on the bits of a [positive]; these equations
    turn such matches into boolean tests, which [destruct] and [lia] can work with. *)

Ltac lit_default c :=
  destruct c as [|?p]; [reflexivity|];
  repeat (match goal with p : positive |- _ => destruct p as [p|p|]; try reflexivity end).

Lemma match46 {A} (l : bytes) (F : bytes -> A) (G : A) :
  match l with 46 :: r => F r | _ => G end =
  match l with c :: r => if c =? 46 then F r else G | [] => G end.
Proof. destruct l as [|c r]; [reflexivity|]. lit_default c. Qed.

Lemma match45 {A} (l : bytes) (F : bytes -> A) (G : A) :
  match l with 45 :: r => F r | _ => G end =
  match l with c :: r => if c =? 45 then F r else G | [] => G end.
Proof. destruct l as [|c r]; [reflexivity|]. lit_default c. Qed.

Lemma match43 {A} (l : bytes) (F : bytes -> A) (G : A) :
  match l with 43 :: r => F r | _ => G end =
  match l with c :: r => if c =? 43 then F r else G | [] => G end.
Proof. destruct l as [|c r]; [reflexivity|]. lit_default c. Qed.

Lemma match48 {A} (l : bytes) (F : bytes -> A) (G : A) :
  match l with 48 :: r => F r | _ => G end =
  match l with c :: r => if c =? 48 then F r else G | [] => G end.
Proof. destruct l as [|c r]; [reflexivity|]. lit_default c. Qed.

Lemma match_sign {A} (l : bytes) (F1 F2 : bytes -> A) (G : A) :
  match l with 45 :: r => F1 r | 43 :: r => F2 r | _ => G end =
  match l with c :: r => if c =? 45 then F1 r else if c =? 43 then F2 r else G | [] => G end.
Proof. destruct l as [|c r]; [reflexivity|]. lit_default c. Qed.

Lemma match48_2 {A} (l : bytes) (F : N -> bytes -> A) (G : A) :
  match l with 48 :: x :: h => F x h | _ => G end =
  match l with c :: x :: h => if c =? 48 then F x h else G | _ => G end.
Proof. destruct l as [|c [|x h]]; try reflexivity; lit_default c. Qed.

Lemma forallb_impl {A} (P Q : A -> bool) s : (forall x, P x = true -> Q x = true) ->
  forallb P s = true -> forallb Q s = true.
Proof. intros PQ H. rewrite forallb_forall in *. auto. Qed.

Definition ascii (c : N) : bool := c <? 128.

Lemma ltrim_split s : exists pre, s = pre ++ ltrim s /\ forallb is_space_c pre = true.
Proof.
  induction s as [|c s (pre & E & H)]; [exists []; auto|].
  cbn [ltrim]. destruct (is_space_c c) eqn:Ec.
  - exists (c :: pre). cbn [app forallb]. rewrite Ec, H. split; [f_equal; exact E|reflexivity].
  - exists []. auto.
Qed.

Lemma trim_split s : exists pre post, s = pre ++ trim s ++ post /\
  forallb is_space_c pre = true /\ forallb is_space_c post = true.
Proof.
  destruct (ltrim_split s) as (pre & E1 & H1).
  destruct (ltrim_split (rev (ltrim s))) as (post & E2 & H2).
  exists pre, (rev post). unfold trim. split; [|split; [exact H1|]].
  - rewrite E1 at 1. f_equal. rewrite <- rev_app_distr, <- E2, rev_involutive. reflexivity.
  - rewrite forallb_forall in *. intros x Hx. apply H2. now apply in_rev.
Qed.

Lemma space_ascii c : is_space_c c = true -> ascii c = true.
Proof. unfold is_space_c, ascii. lia. Qed.

Lemma ws_ascii c : ascii c = true -> is_unicode_ws c = is_space_c c.
Proof. unfold ascii, is_unicode_ws, is_space_c. intros H. lia. Qed.

Lemma ltrim_cps_ascii s : forallb ascii s = true -> ltrim_cps s = ltrim s.
Proof.
  induction s as [|c s IH]; [reflexivity|]. cbn [forallb]. intros H. apply andb_true_iff in H as [Hc Hs].
  cbn [ltrim_cps ltrim]. rewrite (ws_ascii _ Hc). rewrite (IH Hs). reflexivity.
Qed.

Lemma ltrim_ascii s : forallb ascii s = true -> forallb ascii (ltrim s) = true.
Proof.
  intros H. destruct (ltrim_split s) as (pre & E & _). rewrite E in H. rewrite forallb_app in H.
  now apply andb_true_iff in H.
Qed.

Lemma trim_cps_ascii s : forallb ascii s = true -> trim_cps s = trim s.
Proof.
  intros H. unfold trim_cps, trim. rewrite (ltrim_cps_ascii _ H).
  rewrite ltrim_cps_ascii; [reflexivity|]. rewrite forallb_rev. now apply ltrim_ascii.
Qed.

Lemma encode_ascii s : forallb ascii s = true -> flat_map utf8_encode s = s.
Proof.
  induction s as [|c s IH]; [reflexivity|]. cbn [forallb]. intros H. apply andb_true_iff in H as [Hc Hs].
  cbn [flat_map]. unfold utf8_encode at 1. unfold ascii in Hc. rewrite Hc. cbn [app]. now rewrite IH.
Qed.

Definition coerce_trimmed (t : bytes) : option f64 :=
  match t with
  | 45 :: rest => option_map (fun n => fneg (compute_value n)) (from_str rest)
  | _ => option_map compute_value (from_str t)
  end.

Lemma trim_ascii s : forallb ascii (trim s) = true -> forallb ascii s = true.
Proof.
  destruct (trim_split s) as (pre & post & Es & Hpre & Hpost). intros Ht.
  apply (forallb_impl _ _ _ space_ascii) in Hpre, Hpost.
  rewrite Es, !forallb_app, Ht, Hpre, Hpost. reflexivity.
Qed.

Lemma number_coercion_ascii s : forallb ascii (trim s) = true ->
  number_coercion (LString s) =
  match coerce_trimmed (trim s) with Some x => LNumber x | None => LString s end.
Proof.
  intros Ht. pose proof (trim_ascii _ Ht) as H. unfold number_coercion.
  rewrite (utf8_decode_ascii s H). cbv zeta. rewrite (trim_cps_ascii _ H), (encode_ascii _ Ht). reflexivity.
Qed.

Definition dchar (c : N) : bool :=
  is_digit c || (c =? 46) || (c =? 101) || (c =? 69) || (c =? 43) || (c =? 45).

Lemma take_digits_split : forall s acc n a n' r, take_digits s acc n = (a, n', r) ->
  exists p, s = p ++ r /\ forallb is_digit p = true /\ n' = (n + Z.of_nat (llen p))%Z.
Proof.
  induction s as [|c s IH]; intros acc n a n' r H; cbn [take_digits] in H.
  - inversion H; subst. exists []. cbn. split; [reflexivity|split; [reflexivity|lia]].
  - destruct (is_digit c) eqn:Ec.
    + apply IH in H as (p & E & Hp & Hn). exists (c :: p). cbn [app forallb llen]. rewrite Ec, Hp.
      split; [f_equal; exact E|split; [reflexivity|lia]].
    + inversion H; subst. exists []. cbn. split; [reflexivity|split; [reflexivity|lia]].
Qed.

Lemma digit_dchar p : forallb is_digit p = true -> forallb dchar p = true.
Proof. apply forallb_impl. intros x H. unfold dchar. now rewrite H. Qed.

Definition head_ok (u : bytes) : Prop :=
  match u with c :: _ => is_digit c = true \/ c = 46 | [] => False end.

(** [F64.parse_decimal] and the tail of Rust's [f64::from_str] ([parse_f64] after the sign and
    the inf/nan spellings) scan a decimal literal in the same way and differ only in what they
    make of the mantissa and the exponent found: [scan_decimal u k] is the common scan. *)
Definition sign_of (r : bytes) : bool * bytes :=
  match r with 45 :: r' => (true, r') | 43 :: r' => (false, r') | _ => (false, r) end.

Definition scan_fraction (ip : Z) (r1 : bytes) : Z * Z * bytes :=
  match r1 with
  | 46 :: r => let '(m, nf, r') := take_digits r ip 0 in (m, nf, r')
  | _ => (ip, 0%Z, r1)
  end.

Definition scan_exponent {A} (r2 : bytes) (k : Z -> A) : option A :=
  match r2 with
  | [] => Some (k 0%Z)
  | c :: r3 =>
    if (c =? 101) || (c =? 69) then
      let '(neg, r4) := sign_of r3 in
      let '(ex, ne, r5) := take_digits r4 0 0 in
      if (ne =? 0)%Z then None
      else match r5 with [] => Some (k (if neg then - ex else ex)%Z) | _ => None end
    else None
  end.

Definition scan_decimal {A} (u : bytes) (k : Z -> Z -> A) : option A :=
  let '(ip, ni, r1) := take_digits u 0 0 in
  let '(mant, nf, r2) := scan_fraction ip r1 in
  if (ni + nf =? 0)%Z then None else scan_exponent r2 (fun ex => k mant (ex - nf)%Z).

Lemma parse_decimal_scan u : parse_decimal u = scan_decimal u pair.
Proof. reflexivity. Qed.

Lemma parse_f64_plus u :
  parse_f64 (43 :: u) =
  let l := lower_bytes u in
  if bytes_eqb l (of_string "inf") || bytes_eqb l (of_string "infinity") then Some (S754_infinity false)
  else if bytes_eqb l (of_string "nan") then Some S754_nan
  else scan_decimal u (of_decimal_c false).
Proof. reflexivity. Qed.

Lemma scan_exponent_map {A B} (f : A -> B) r2 k :
  scan_exponent r2 (fun ex => f (k ex)) = option_map f (scan_exponent r2 k).
Proof.
  destruct r2 as [|c r3]; [reflexivity|]. cbn [scan_exponent].
  destruct ((c =? 101) || (c =? 69)); [|reflexivity]. destruct (sign_of r3) as [neg r4].
  destruct (take_digits r4 0 0) as [[ex ne] r5]. destruct (ne =? 0)%Z; [reflexivity|].
  destruct r5; reflexivity.
Qed.

Lemma scan_decimal_map {A B} (f : A -> B) u k :
  scan_decimal u (fun m e => f (k m e)) = option_map f (scan_decimal u k).
Proof.
  unfold scan_decimal. destruct (take_digits u 0 0) as [[ip ni] r1].
  destruct (scan_fraction ip r1) as [[mant nf] r2]. destruct (ni + nf =? 0)%Z; [reflexivity|].
  apply (scan_exponent_map f r2 (fun ex => k mant (ex - nf)%Z)).
Qed.

Lemma sign_of_cases r :
  let '(neg, u) := sign_of r in
  (r = 45 :: u /\ neg = true) \/ (r = 43 :: u /\ neg = false) \/
  (r = u /\ neg = false /\ (forall r', r <> 45 :: r') /\ (forall r', r <> 43 :: r')).
Proof.
  unfold sign_of. rewrite match_sign. destruct r as [|c r]; [right; right; repeat split; discriminate|].
  destruct (c =? 45) eqn:E1; [|destruct (c =? 43) eqn:E2].
  - apply N.eqb_eq in E1. subst. auto.
  - apply N.eqb_eq in E2. subst. auto.
  - right; right. repeat split; intros r' E; injection E as -> _; discriminate.
Qed.

Lemma sign_of_split r : exists p, r = p ++ snd (sign_of r) /\ forallb dchar p = true.
Proof.
  pose proof (sign_of_cases r) as C. destruct (sign_of r) as [neg u].
  destruct C as [[-> _]|[[-> _]|[-> _]]]; [exists [45]|exists [43]|exists []]; auto.
Qed.

Lemma scan_exponent_shape {A} r2 (k : Z -> A) v : scan_exponent r2 k = Some v -> forallb dchar r2 = true.
Proof.
  destruct r2 as [|c r3]; [reflexivity|]. cbn [scan_exponent].
  destruct ((c =? 101) || (c =? 69)) eqn:Ec; [|discriminate].
  destruct (sign_of_split r3) as (p & E3 & Hp). destruct (sign_of r3) as [neg r4]. cbn [snd] in E3.
  destruct (take_digits r4 0 0) as [[ex ne] r5] eqn:E5.
  apply take_digits_split in E5 as (p3 & -> & Hp3 & _).
  destruct (ne =? 0)%Z; [discriminate|]. destruct r5; [|discriminate]. intros _.
  rewrite E3, app_nil_r. cbn [forallb]. rewrite forallb_app, Hp, (digit_dchar _ Hp3).
  unfold dchar. lia.
Qed.

Lemma scan_fraction_split ip r1 :
  exists q, r1 = q ++ snd (scan_fraction ip r1) /\ forallb dchar q = true.
Proof.
  unfold scan_fraction. rewrite match46. destruct r1 as [|c r]; [exists []; auto|].
  destruct (c =? 46) eqn:Ec; [|exists []; auto].
  destruct (take_digits r ip 0) as [[m nf] r'] eqn:E2.
  apply take_digits_split in E2 as (p2 & -> & Hp2 & _). exists (c :: p2).
  split; [reflexivity|]. cbn [forallb]. rewrite (digit_dchar _ Hp2). unfold dchar. lia.
Qed.

Lemma scan_decimal_shape {A} u (k : Z -> Z -> A) v : scan_decimal u k = Some v -> forallb dchar u = true.
Proof.
  unfold scan_decimal. destruct (take_digits u 0 0) as [[ip ni] r1] eqn:E1.
  apply take_digits_split in E1 as (p1 & -> & Hp1 & _).
  destruct (scan_fraction_split ip r1) as (q & Eq & Hq).
  destruct (scan_fraction ip r1) as [[mant nf] r2]. cbn [snd] in Eq.
  destruct (ni + nf =? 0)%Z; [discriminate|]. intros H. apply scan_exponent_shape in H.
  rewrite Eq, !forallb_app, (digit_dchar _ Hp1), Hq, H. reflexivity.
Qed.

Lemma parse_decimal_dchar u v : parse_decimal u = Some v -> forallb dchar u = true.
Proof. rewrite parse_decimal_scan. apply scan_decimal_shape. Qed.

Lemma parse_decimal_head u v : parse_decimal u = Some v -> head_ok u.
Proof.
  destruct u as [|c u]; [discriminate|]. destruct (is_digit c) eqn:Ec; [intros _; left; exact Ec|].
  destruct (c =? 46) eqn:E; [intros _; right; now apply N.eqb_eq|].
  (* no integer digit and no fraction: nothing was read *)
  rewrite parse_decimal_scan. unfold scan_decimal. cbn [take_digits]. rewrite Ec. cbv beta iota.
  cbv beta delta [scan_fraction]. rewrite match46, E. discriminate.
Qed.

Lemma lower_head u c0 w : head_ok u -> c0 = 105 \/ c0 = 110 -> bytes_eqb (lower_bytes u) (c0 :: w) = false.
Proof.
  destruct u as [|c u]; [contradiction|]. intros Hh Hc. cbn [lower_bytes map bytes_eqb].
  assert (lower c =? c0 = false) as ->; [|reflexivity].
  destruct Hh as [Hd| ->]; [|destruct Hc as [-> | ->]; reflexivity].
  unfold is_digit in Hd. unfold lower. assert ((65 <=? c) && (c <=? 90) = false) as -> by lia. lia.
Qed.

Lemma parse_f64_plus_decimal u : head_ok u ->
  parse_f64 (43 :: u) = option_map (fun '(d, X) => of_decimal_c false d X) (parse_decimal u).
Proof.
  intros Hh. rewrite parse_f64_plus. cbv zeta.
  change (of_string "inf") with (105 :: of_string "nf").
  change (of_string "infinity") with (105 :: of_string "nfinity").
  change (of_string "nan") with (110 :: of_string "an").
  rewrite !(lower_head u) by auto. cbn [orb].
  rewrite parse_decimal_scan. exact (scan_decimal_map (fun '(d, X) => of_decimal_c false d X) u pair).
Qed.

Lemma head_ok_unsigned u : head_ok u -> (forall r, u <> 45 :: r) /\ (forall r, u <> 43 :: r).
Proof. split; intros r ->; destruct H as [H|H]; discriminate. Qed.

Lemma parse_f64_unsigned s : (forall r, s <> 45 :: r) -> (forall r, s <> 43 :: r) ->
  parse_f64 s = parse_f64 (43 :: s).
Proof.
  intros H1 H2. pose proof (sign_of_cases s) as C. unfold parse_f64 at 1. fold (sign_of s).
  destruct (sign_of s) as [neg u]. destruct C as [[-> _]|[[-> _]|(-> & -> & _)]];
    [now elim (H1 u)|now elim (H2 u)|reflexivity].
Qed.

Lemma parse_f64_dec u d X : parse_decimal u = Some (d, X) ->
  parse_f64 u = Some (of_decimal_c false d X) /\ parse_f64 (43 :: u) = Some (of_decimal_c false d X).
Proof.
  intros H. pose proof (parse_decimal_head _ _ H) as Hh.
  assert (parse_f64 (43 :: u) = Some (of_decimal_c false d X)) as P.
  { rewrite (parse_f64_plus_decimal _ Hh), H. reflexivity. }
  split; [|exact P]. rewrite <- P. now apply parse_f64_unsigned; apply head_ok_unsigned.
Qed.

(** [dec_body] and [hex_body] are the decimal and the hexadecimal arm of [from_str], named so
    that [from_str_unfold] can state the dispatch between them. *)

Definition dec_body (value : bytes) : option number :=
  if prefix_b [46; 95] value then None
  else
    match (match index_of 101 value 0 with
           | Some i => Some (false, i)
           | None => match index_of 69 value 0 with
                     | Some i => Some (true, i)
                     | None => None
                     end
           end) with
    | Some (upper, i) =>
      if find_sub [95; 45] value || find_sub [95; 43] value then None
      else
        match parse_i64 (filter_underscore (skipn (S i) value)),
              parse_f64 (filter_underscore (firstn i value)),
              parse_f64 (filter_underscore value) with
        | Some ex, Some _, Some x => Some (NDec (to_bits x) (Some (ex, upper)))
        | _, _, _ => None
        end
    | None =>
      match parse_f64 (filter_underscore value) with
      | Some x => Some (NDec (to_bits x) None)
      | None => None
      end
    end.

Definition hex_body (value : bytes) (position : nat) (notation : N) : option number :=
  match (match index_of 112 value 0 with
         | Some i => Some (false, i)
         | None => match index_of 80 value 0 with
                   | Some i => Some (true, i)
                   | None => None
                   end
         end) with
  | Some (eupper, i) =>
    match parse_u32 (skipn (S i) value),
          parse_u64_radix 16 (firstn (i - S position) (skipn (S position) value)) with
    | Some ex, Some v => Some (NHex v (is_upper notation) (Some (ex, eupper)))
    | _, _ => None
    end
  | None =>
    match parse_u64_radix 16 (filter_underscore (skipn (S position) value)) with
    | Some v => Some (NHex v (is_upper notation) None)
    | None => None
    end
  end.

Lemma from_str_unfold value :
  from_str value =
  if match value with 48 :: _ => true | _ => false end then
    match nth_non_underscore value 1 0 with
    | Some (position, notation) =>
      if (notation =? 120) || (notation =? 88) then hex_body value position notation
      else if (notation =? 98) || (notation =? 66) then
        match parse_u64_radix 2 (filter_underscore (skipn (S position) value)) with
        | Some v => Some (NBin v (is_upper notation))
        | None => None
        end
      else dec_body value
    | None => dec_body value
    end
  else dec_body value.
Proof. reflexivity. Qed.

Lemma dec_body_shape value n : dec_body value = Some n ->
  exists x ex, parse_f64 (filter_underscore value) = Some x /\ n = NDec (to_bits x) ex.
Proof.
  unfold dec_body. destruct (prefix_b [46; 95] value); [discriminate|].
  destruct (match index_of 101 value 0 with
            | Some i => Some (false, i)
            | None => match index_of 69 value 0 with Some i => Some (true, i) | None => None end
            end) as [[upper i]|].
  - destruct (find_sub [95; 45] value || find_sub [95; 43] value); [discriminate|].
    destruct (parse_i64 _); [|discriminate]. destruct (parse_f64 (filter_underscore (firstn i value))); [|discriminate].
    destruct (parse_f64 (filter_underscore value)) as [x|]; [|discriminate].
    intros E; injection E as <-. eauto.
  - destruct (parse_f64 (filter_underscore value)) as [x|]; [|discriminate].
    intros E; injection E as <-. eauto.
Qed.

Lemma nth_non_underscore_in : forall s k pos p c, nth_non_underscore s k pos = Some (p, c) -> In c s.
Proof.
  induction s as [|x s IH]; intros k pos p c H; cbn [nth_non_underscore] in H; [discriminate|].
  destruct (x =? 95).
  - right. eapply IH; eauto.
  - destruct k.
    + injection H as _ <-. now left.
    + right. eapply IH; eauto.
Qed.

Lemma filter_underscore_id s : forallb (fun c => negb (c =? 95)) s = true -> filter_underscore s = s.
Proof.
  induction s as [|c s IH]; [reflexivity|]. cbn [forallb]. intros H. apply andb_true_iff in H as [Hc Hs].
  unfold filter_underscore. cbn [filter]. rewrite Hc. f_equal. now apply IH.
Qed.

Lemma dchar_no_underscore s : forallb dchar s = true -> forallb (fun c => negb (c =? 95)) s = true.
Proof. apply forallb_impl. unfold dchar, is_digit. lia. Qed.

Lemma from_str_dchar value n : forallb dchar value = true -> from_str value = Some n ->
  exists x ex, parse_f64 value = Some x /\ n = NDec (to_bits x) ex.
Proof.
  intros Hd H. rewrite from_str_unfold in H.
  assert (dec_body value = Some n) as Hb.
  { destruct (match value with 48 :: _ => true | _ => false end); [|exact H].
    destruct (nth_non_underscore value 1 0) as [[position notation]|] eqn:En; [|exact H].
    apply nth_non_underscore_in in En. rewrite forallb_forall in Hd. specialize (Hd _ En).
    assert ((notation =? 120) || (notation =? 88) = false) as E1 by (unfold dchar, is_digit in Hd; lia).
    assert ((notation =? 98) || (notation =? 66) = false) as E2 by (unfold dchar, is_digit in Hd; lia).
    rewrite E1, E2 in H. exact H. }
  apply dec_body_shape in Hb. rewrite (filter_underscore_id _ (dchar_no_underscore _ Hd)) in Hb. exact Hb.
Qed.

Lemma digit_val_hex c : is_hex_c c = true -> digit_val 16 c = Some (unhexdigit c).
Proof.
  unfold is_hex_c, digit_val, unhexdigit, lower. intros H.
  destruct ((48 <=? c) && (c <=? 57)) eqn:E1.
  { assert (c - 48 <? 16 = true) as -> by lia. reflexivity. }
  destruct ((65 <=? c) && (c <=? 90)) eqn:E2.
  { assert ((97 <=? c + 32) && (c + 32 <=? 122) = true) as -> by lia.
    assert (c + 32 - 87 <? 16 = true) as -> by lia.
    assert ((97 <=? c) && (c <=? 102) = false) as -> by lia.
    assert ((65 <=? c) && (c <=? 70) = true) as -> by lia. f_equal. lia. }
  assert ((97 <=? c) && (c <=? 102) = true) as E3 by lia. rewrite E3.
  assert ((97 <=? c) && (c <=? 122) = true) as -> by lia.
  assert (c - 87 <? 16 = true) as -> by lia. reflexivity.
Qed.

Lemma take_hex_spec : forall h acc nn v n, take_hex h acc nn = (v, n, []) -> (0 <= acc)%Z ->
  forallb is_hex_c h = true /\ (acc <= v)%Z /\ n = (nn + Z.of_nat (llen h))%Z /\
  ((v < 18446744073709551616)%Z ->
   parse_digits 16 18446744073709551615 h (Z.to_N acc) = Some (Z.to_N v)).
Proof.
  induction h as [|c h IH]; intros acc nn v n H Hacc; cbn [take_hex] in H.
  - inversion H; subst. cbn. repeat split; try lia.
  - destruct (is_hex_c c) eqn:Ec; [|discriminate].
    apply IH in H as (Hh & Hle & Hn & Hp); [|lia].
    cbn [forallb llen]. rewrite Ec, Hh. repeat split; try lia.
    intros Hv. cbn [parse_digits]. rewrite (digit_val_hex _ Ec).
    assert (Z.to_N acc * 16 + unhexdigit c = Z.to_N (acc * 16 + Z.of_N (unhexdigit c))) as -> by lia.
    assert (18446744073709551615 <? Z.to_N (acc * 16 + Z.of_N (unhexdigit c)) = false) as -> by lia.
    now apply Hp.
Qed.

Lemma hex_no_char h c0 : (is_hex_c c0 = false) -> forallb is_hex_c h = true ->
  forall k, index_of c0 h k = None.
Proof.
  intros Hc. induction h as [|c h IH]; intros H k; [reflexivity|].
  cbn [forallb] in H. apply andb_true_iff in H as [H1 H2]. cbn [index_of].
  destruct (c =? c0) eqn:E; [|now apply IH]. apply N.eqb_eq in E. subst. congruence.
Qed.

Lemma hex_no_underscore h : forallb is_hex_c h = true -> forallb (fun c => negb (c =? 95)) h = true.
Proof. apply forallb_impl. unfold is_hex_c. lia. Qed.

Lemma from_str_hex c h v n : (c = 120 \/ c = 88) -> take_hex h 0 0 = (v, n, []) -> n <> 0%Z ->
  (v < 18446744073709551616)%Z ->
  from_str (48 :: c :: h) = Some (NHex (Z.to_N v) (is_upper c) None).
Proof.
  intros Hc Ht Hn Hv. apply take_hex_spec in Ht as (Hh & Hle & Hlen & Hp); [|lia].
  specialize (Hp Hv). change (Z.to_N 0) with 0 in Hp.
  rewrite from_str_unfold.
  assert (nth_non_underscore (48 :: c :: h) 1 0 = Some (1%nat, c)) as ->.
  { destruct Hc as [-> | ->]; reflexivity. }
  assert ((c =? 120) || (c =? 88) = true) as -> by (destruct Hc as [-> | ->]; reflexivity).
  cbv iota. unfold hex_body.
  assert (index_of 112 (48 :: c :: h) 0 = None) as ->.
  { cbn [index_of]. assert (c =? 112 = false) as -> by (destruct Hc as [-> | ->]; reflexivity).
    cbn. now apply hex_no_char. }
  assert (index_of 80 (48 :: c :: h) 0 = None) as ->.
  { cbn [index_of]. assert (c =? 80 = false) as -> by (destruct Hc as [-> | ->]; reflexivity).
    cbn. now apply hex_no_char. }
  cbn [skipn]. rewrite (filter_underscore_id _ (hex_no_underscore _ Hh)).
  unfold parse_u64_radix, parse_unsigned. rewrite match43.
  destruct h as [|c0 h]; [cbn in Hlen; lia|].
  assert (c0 =? 43 = false) as ->.
  { cbn [forallb] in Hh. apply andb_true_iff in Hh as [Hc0 _]. unfold is_hex_c in Hc0. lia. }
  rewrite Hp. reflexivity.
Qed.

(** with a leading '+' the reader takes the decimal route, which rejects the 'x' *)
Lemma from_str_plus_hex c h : (c = 120 \/ c = 88) -> forallb is_hex_c h = true ->
  from_str (43 :: 48 :: c :: h) = None.
Proof.
  intros Hc Hh. rewrite from_str_unfold. cbv iota.
  destruct (dec_body (43 :: 48 :: c :: h)) as [n|] eqn:E; [|reflexivity].
  exfalso. apply dec_body_shape in E as (x & ex & E & _).
  assert (forallb (fun c => negb (c =? 95)) (43 :: 48 :: c :: h) = true) as Hu.
  { cbn [forallb]. rewrite (hex_no_underscore _ Hh). destruct Hc as [-> | ->]; reflexivity. }
  rewrite (filter_underscore_id _ Hu) in E.
  rewrite parse_f64_plus_decimal in E by (left; reflexivity).
  destruct (parse_decimal (48 :: c :: h)) as [v|] eqn:Ep; [|discriminate].
  apply parse_decimal_dchar in Ep.
  destruct Hc as [-> | ->]; discriminate Ep.
Qed.

Lemma fneg_of_decimal d X : fneg (of_decimal false d X) = of_decimal true d X.
Proof.
  unfold of_decimal. destruct d as [|p|p]; try reflexivity.
  destruct (0 <=? X)%Z.
  - apply fneg_fnorm.
  - destruct (10 ^ (- X))%Z as [|q|q]; try reflexivity.
    unfold fdiv, fneg. cbn [SFdiv xorb].
    destruct (SFdiv_core_binary prec emax (Z.pos p) 0 (Z.pos q) 0) as [[mz ez] lz]. apply bra_opp.
Qed.

Lemma dchar_ascii s : forallb dchar s = true -> forallb ascii s = true.
Proof. apply forallb_impl. unfold dchar, is_digit, ascii. lia. Qed.
Lemma hex_ascii s : forallb is_hex_c s = true -> forallb ascii s = true.
Proof. apply forallb_impl. unfold is_hex_c, ascii. lia. Qed.

Lemma dec_agrees u d X n :
  parse_decimal u = Some (d, X) ->
  (from_str u = Some n \/ from_str (43 :: u) = Some n) ->
  compute_value n = of_decimal_c false d X.
Proof.
  intros Hp H. pose proof (parse_decimal_dchar _ _ Hp) as Hd.
  destruct (parse_f64_dec _ _ _ Hp) as [P1 P2].
  destruct H as [H|H].
  - apply from_str_dchar in H as (x & ex & Hx & ->); [|exact Hd].
    rewrite P1 in Hx. injection Hx as <-. cbn [compute_value]. apply of_to_bits. apply valid_of_decimal_c.
  - apply from_str_dchar in H as (x & ex & Hx & ->); [|cbn [forallb]; rewrite Hd; reflexivity].
    rewrite P2 in Hx. injection Hx as <-. cbn [compute_value]. apply of_to_bits. apply valid_of_decimal_c.
Qed.

Lemma coerce_trimmed_other t : (forall r, t <> 45 :: r) ->
  coerce_trimmed t = option_map compute_value (from_str t).
Proof.
  intros H. unfold coerce_trimmed. rewrite match45. destruct t as [|c r]; [reflexivity|].
  destruct (c =? 45) eqn:E; [|reflexivity]. apply N.eqb_eq in E. subst. exfalso. now apply (H r).
Qed.

(** The evaluator's coercion of a string whose trimmed text is a sign followed by [u], given
    what darklua's reader makes of [u]; the reader sees the text with its '+', if any. *)
Lemma number_coercion_signed s neg u z y :
  sign_of (trim s) = (neg, u) -> forallb ascii u = true ->
  (forall r, u <> 45 :: r) ->
  (forall n, from_str u = Some n \/ from_str (43 :: u) = Some n -> compute_value n = z) ->
  number_coercion (LString s) = LNumber y ->
  y = if neg then fneg z else z.
Proof.
  intros Esign Hu Hne1 Hn Hy.
  pose proof (sign_of_cases (trim s)) as C. rewrite Esign in C.
  assert (forallb ascii (trim s) = true) as Ht.
  { destruct C as [[-> _]|[[-> _]|[-> _]]]; cbn [forallb]; rewrite Hu; reflexivity. }
  rewrite (number_coercion_ascii _ Ht) in Hy.
  destruct (coerce_trimmed (trim s)) as [y'|] eqn:Ec; [|discriminate]. injection Hy as <-.
  destruct C as [[Et ->]|[[Et ->]|(Et & -> & _)]]; rewrite Et in Ec.
  - change (coerce_trimmed (45 :: u)) with (option_map (fun n => fneg (compute_value n)) (from_str u)) in Ec.
    destruct (from_str u) as [n|] eqn:En; [|discriminate]. injection Ec as <-. f_equal. apply Hn. now left.
  - rewrite coerce_trimmed_other in Ec by (intros; discriminate).
    destruct (from_str (43 :: u)) as [n|] eqn:En; [|discriminate]. injection Ec as <-. apply Hn. now right.
  - rewrite coerce_trimmed_other in Ec by exact Hne1.
    destruct (from_str u) as [n|] eqn:En; [|discriminate]. injection Ec as <-. apply Hn. now left.
Qed.

Lemma coercion_dec s neg u d X y :
  sign_of (trim s) = (neg, u) -> parse_decimal u = Some (d, X) ->
  number_coercion (LString s) = LNumber y -> y = of_decimal_c neg d X.
Proof.
  intros Esign Hp Hy. pose proof (parse_decimal_head _ _ Hp) as Hh.
  rewrite (number_coercion_signed s neg u (of_decimal_c false d X) y Esign); auto.
  - destruct neg; [apply fneg_of_decimal|reflexivity].
  - apply dchar_ascii. eapply parse_decimal_dchar; eauto.
  - now apply head_ok_unsigned.
  - intros n Hn. eapply dec_agrees; eauto.
Qed.

Lemma coercion_hex s neg c h v n y :
  sign_of (trim s) = (neg, 48 :: c :: h) -> c = 120 \/ c = 88 ->
  take_hex h 0 0 = (v, n, []) -> n <> 0%Z -> (v < 18446744073709551616)%Z ->
  number_coercion (LString s) = LNumber y -> y = fnorm (if neg then - v else v) 0 neg.
Proof.
  intros Esign Hc Eh Hn Hv Hy.
  pose proof Eh as Eh'. apply take_hex_spec in Eh' as (Hh & Hle & _ & _); [|lia].
  rewrite (number_coercion_signed s neg (48 :: c :: h) (of_N (Z.to_N v)) y Esign); auto.
  - destruct neg.
    + rewrite fneg_of_N. rewrite Z2N.id by lia. reflexivity.
    + unfold of_N, of_Z. rewrite Z2N.id by lia. reflexivity.
  - cbn [forallb]. rewrite (hex_ascii _ Hh). destruct Hc as [-> | ->]; reflexivity.
  - intros r; discriminate.
  - intros n0 [H0|H0].
    + rewrite (from_str_hex c h v n Hc Eh) in H0 by lia. injection H0 as <-. reflexivity.
    + rewrite (from_str_plus_hex c h Hc Hh) in H0. discriminate.
Qed.

Theorem coercion_agrees : forall s x y,
  str2num s = Some x -> number_coercion (LString s) = LNumber y -> y = x /\ valid x.
Proof.
  intros s x y Hx Hy. unfold str2num in Hx. cbv zeta in Hx. fold (sign_of (trim s)) in Hx.
  destruct (sign_of (trim s)) as [neg u] eqn:Esign.
  assert (match parse_decimal u with
          | Some (d, X) => Some (of_decimal_c neg d X)
          | None => None
          end = Some x -> y = x /\ valid x) as Dec.
  { destruct (parse_decimal u) as [[d X]|] eqn:Ep; [|discriminate]. intros E; injection E as <-.
    split; [eapply coercion_dec; eauto|apply valid_of_decimal_c]. }
  rewrite match48_2 in Hx. destruct u as [|c0 [|c1 h]]; try exact (Dec Hx).
  destruct (c0 =? 48) eqn:E0; [|exact (Dec Hx)].
  destruct ((c1 =? 120) || (c1 =? 88)) eqn:E1; [|exact (Dec Hx)].
  apply N.eqb_eq in E0. subst c0.
  destruct (take_hex h 0 0) as [[v n] r] eqn:Eh. destruct r; [|discriminate].
  destruct (n =? 0)%Z eqn:En; [discriminate|].
  destruct (v <? 18446744073709551616)%Z eqn:Ev; [|discriminate]. injection Hx as <-.
  split; [|apply valid_fnorm]. eapply coercion_hex; eauto; lia.
Qed.
