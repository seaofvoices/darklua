(** C19 — the theorems of Proof/ConfigFacts.v and Proof/ConfigTop.v for darklua's own rule tables
    (Model/ConfigRules.v), the refutation of the unrestricted round trip, and examples. *)
From Coq Require Import List Bool String Ascii ZArith NArith Permutation.
From DL Require Import Model.Config Model.ConfigRules Proof.ConfigBasics Proof.ConfigFacts Proof.ConfigTop.
Import ListNotations.
Open Scope string_scope.

Lemma rule_specs_ok : specs_ok rule_specs = true.
Proof. vm_compute. reflexivity. Qed.

Lemma default_rules_ok : defaults_ok rule_specs default_rule_names = true.
Proof. vm_compute. reflexivity. Qed.

(** the properties that a rule accepts but its `serialize_to_properties` never writes *)
Definition dropped_properties (specs : list rule_spec) : list (string * string) :=
  flat_map (fun s => map (fun p => (s_name s, p_name p)) (filter (fun p => negb (p_ser p)) (s_props s))) specs.

Lemma dropped_properties_today :
  dropped_properties rule_specs =
  [("convert_require", "current"); ("convert_require", "target")].
Proof. vm_compute. reflexivity. Qed.

(** decidable carve-out: the configured rule keeps no property that its serializer drops *)
Definition writes_all (specs : list rule_spec) (r : rule_cfg) : bool :=
  forallb (fun kv => negb (existsb (fun d => String.eqb (fst d) (r_name r) && String.eqb (snd d) (fst kv))
                                   (dropped_properties specs))) (r_props r).

(** assumptions on the oracles, as one proposition *)
Definition oracles_ok (valid_ident : string -> bool) (norm_globals : list string -> list string)
           (norm_reqmode : json -> option json) : Prop :=
  (forall j j', norm_reqmode j = Some j' -> norm_reqmode j' = Some j') /\
  (forall j j', norm_reqmode j = Some j' -> exists l, j' = JObj l) /\
  (forall l, norm_globals (norm_globals l) = norm_globals l) /\
  (forall l, forallb (globals_item_ok valid_ident) l = true -> forallb (globals_item_ok valid_ident) (norm_globals l) = true).

Definition bundle_ok (norm_bundle : json -> option json) : Prop :=
  forall j j', norm_bundle j = Some j' -> norm_bundle j' = Some j' /\ j' <> JNull.

(** a property kept by a rule that was read is a property of its table, so one that the serializer drops is
    recognisable by its name *)
Lemma writes_all_complete valid_glob valid_regex valid_ident norm_globals norm_reqmode env_json_ok specs r :
  rule_inv valid_glob valid_regex valid_ident norm_globals norm_reqmode env_json_ok specs r ->
  writes_all specs r = true -> ser_complete specs r.
Proof.
  intros [s0 [Hs0 [[_ [G _]] _]]] Hw s Hs kv Hin. rewrite Hs0 in Hs. injection Hs as <-.
  rewrite Forall_forall in G. destruct (G kv Hin) as [_ [p [Hf _]]]. exists p. split; [exact Hf|].
  unfold find_spec in Hs0. apply find_some in Hs0. destruct Hs0 as [Hs_in Hs_name]. apply String.eqb_eq in Hs_name.
  unfold find_prop in Hf. apply find_some in Hf. destruct Hf as [Hp_in Hp_name]. apply String.eqb_eq in Hp_name.
  destruct (p_ser p) eqn:Hp; [reflexivity|exfalso].
  unfold writes_all in Hw. rewrite forallb_forall in Hw. specialize (Hw kv Hin). apply negb_true_iff in Hw.
  rewrite <- not_true_iff_false in Hw. apply Hw. apply existsb_exists. exists (s_name s0, p_name p). split.
  - apply in_flat_map. exists s0. split; [exact Hs_in|]. apply in_map_iff. exists p. split; [reflexivity|].
    apply filter_In. split; [exact Hp_in|]. rewrite Hp. reflexivity.
  - cbn [fst snd]. rewrite <- Hs_name, <- Hp_name, !String.eqb_refl. reflexivity.
Qed.

Section Instances.

Variable valid_glob valid_regex valid_ident : string -> bool.
Variable norm_globals : list string -> list string.
Variable norm_reqmode : json -> option json.
Variable env_json_ok : string -> bool.
Variable norm_bundle : json -> option json.

Notation de_rule := (deserialize_rule valid_glob valid_regex valid_ident norm_globals norm_reqmode env_json_ok rule_specs).
Notation se_rule := (serialize_rule rule_specs).
Notation de_config := (deserialize_config valid_glob valid_regex valid_ident norm_globals norm_reqmode env_json_ok
                                          norm_bundle rule_specs default_rule_names).
Notation se_config := (serialize_config rule_specs).

Hypothesis H_oracles : oracles_ok valid_ident norm_globals norm_reqmode.
Hypothesis H_bundle : bundle_ok norm_bundle.

Lemma read_writes_all_complete j r : de_rule j = Some r -> writes_all rule_specs r = true -> ser_complete rule_specs r.
Proof.
  destruct H_oracles as [H1 [H2 [H3 H4]]]. intros Hd. eapply writes_all_complete.
  eapply deserialize_rule_inv; eauto using rule_specs_ok.
Qed.

Theorem rule_roundtrip_darklua j r :
  de_rule j = Some r -> writes_all rule_specs r = true ->
  exists r', de_rule (se_rule r) = Some r' /\ rule_equiv r r'.
Proof using valid_glob valid_regex valid_ident norm_globals norm_reqmode env_json_ok norm_bundle H_oracles.
  destruct H_oracles as [H1 [H2 [H3 H4]]]. intros Hd Hw.
  eapply rule_roundtrip; eauto using rule_specs_ok. eapply read_writes_all_complete; eassumption.
Qed.

Theorem rule_injective_darklua j1 j2 r1 r2 :
  de_rule j1 = Some r1 -> de_rule j2 = Some r2 ->
  writes_all rule_specs r1 = true -> writes_all rule_specs r2 = true ->
  se_rule r1 = se_rule r2 -> rule_equiv r1 r2.
Proof using valid_glob valid_regex valid_ident norm_globals norm_reqmode env_json_ok norm_bundle H_oracles.
  destruct H_oracles as [H1 [H2 [H3 H4]]]. intros Hd1 Hd2 Hw1 Hw2 E.
  eapply (rule_injective valid_glob valid_regex valid_ident norm_globals norm_reqmode env_json_ok rule_specs); eauto using rule_specs_ok;
    eapply read_writes_all_complete; eassumption.
Qed.

Lemma config_writes_all_complete j c :
  de_config j = Some c -> forallb (writes_all rule_specs) (c_rules c) = true -> Forall (ser_complete rule_specs) (c_rules c).
Proof.
  destruct H_oracles as [H1 [H2 [H3 H4]]]. intros Hd Hw.
  destruct (deserialize_config_inv _ _ _ _ _ _ _ _ _ H1 H2 H3 H4 H_bundle rule_specs_ok default_rules_ok j c Hd) as [HR _].
  rewrite forallb_forall in Hw. rewrite Forall_forall in *. intros r Hin.
  eapply writes_all_complete; [apply HR; exact Hin|apply Hw; exact Hin].
Qed.

Theorem config_roundtrip_darklua j c :
  de_config j = Some c -> forallb (writes_all rule_specs) (c_rules c) = true ->
  exists c', de_config (se_config c) = Some c' /\ config_equiv c c'.
Proof.
  destruct H_oracles as [H1 [H2 [H3 H4]]]. intros Hd Hw.
  eapply config_roundtrip; eauto using rule_specs_ok, default_rules_ok. eapply config_writes_all_complete; eassumption.
Qed.

Theorem config_injective_darklua j1 j2 c1 c2 :
  de_config j1 = Some c1 -> de_config j2 = Some c2 ->
  forallb (writes_all rule_specs) (c_rules c1) = true -> forallb (writes_all rule_specs) (c_rules c2) = true ->
  se_config c1 = se_config c2 -> config_equiv c1 c2.
Proof.
  destruct H_oracles as [H1 [H2 [H3 H4]]]. intros Hd1 Hd2 Hw1 Hw2 E.
  eapply (config_injective valid_glob valid_regex valid_ident norm_globals norm_reqmode env_json_ok norm_bundle
            rule_specs default_rule_names); eauto using rule_specs_ok, default_rules_ok;
    eapply config_writes_all_complete; eassumption.
Qed.

End Instances.

(** * the unrestricted statements are false for the code as it is *)

(** an accepted rule whose written form is rejected when read back *)
Definition w_convert_require : json :=
  JObj [("rule", JStr "convert_require"); ("current", JStr "path"); ("target", JStr "roblox")].

Lemma roundtrip_refuted_unreadable :
  forall valid_glob valid_regex valid_ident norm_globals norm_reqmode env_json_ok,
  exists r, deserialize_rule valid_glob valid_regex valid_ident norm_globals norm_reqmode env_json_ok rule_specs
              w_convert_require = Some r /\
            serialize_rule rule_specs r = JStr "convert_require" /\
            deserialize_rule valid_glob valid_regex valid_ident norm_globals norm_reqmode env_json_ok rule_specs
              (serialize_rule rule_specs r) = None.
Proof. intros. eexists. split; [vm_compute; reflexivity|]. split; reflexivity. Qed.

(** two accepted rules that differ and are written identically *)
Definition w_convert_require_luau : json :=
  JObj [("rule", JStr "convert_require"); ("current", JStr "path"); ("target", JStr "luau")].

Lemma injective_refuted :
  forall valid_glob valid_regex valid_ident norm_globals norm_reqmode env_json_ok,
  exists r1 r2, deserialize_rule valid_glob valid_regex valid_ident norm_globals norm_reqmode env_json_ok rule_specs
                  w_convert_require = Some r1 /\
                deserialize_rule valid_glob valid_regex valid_ident norm_globals norm_reqmode env_json_ok rule_specs
                  w_convert_require_luau = Some r2 /\
                serialize_rule rule_specs r1 = serialize_rule rule_specs r2 /\ ~ rule_equiv r1 r2.
Proof.
  intros. eexists. eexists. split; [vm_compute; reflexivity|]. split; [vm_compute; reflexivity|]. split; [reflexivity|].
  intros [_ [P _]]. cbn [r_props] in P.
  assert (Hin : In ("target", PStr "roblox") [("current", PStr "path"); ("target", PStr "luau")]).
  { eapply Permutation_in; [exact P|]. right. left. reflexivity. }
  cbn in Hin. destruct Hin as [H|[H|[]]]; discriminate.
Qed.

(** the patterns of remove_comments / remove_attribute are written since darklua 1875b55: order and
    duplicates are kept, an empty list is the same as no list *)
Definition w_remove_comments : json :=
  JObj [("rule", JStr "remove_comments"); ("except", JArr [JStr "^ keep"; JStr "b|a"; JStr "^ keep"])].

Example ex_patterns_roundtrip :
  forall valid_glob valid_regex valid_ident norm_globals norm_reqmode env_json_ok,
  valid_regex "^ keep" = true -> valid_regex "b|a" = true ->
  exists r, deserialize_rule valid_glob valid_regex valid_ident norm_globals norm_reqmode env_json_ok rule_specs
              w_remove_comments = Some r /\
            writes_all rule_specs r = true /\ serialize_rule rule_specs r = w_remove_comments /\
            deserialize_rule valid_glob valid_regex valid_ident norm_globals norm_reqmode env_json_ok rule_specs
              (JObj [("rule", JStr "remove_attribute"); ("match", JArr [])]) =
            Some (RuleCfg "remove_attribute" [] [] []).
Proof.
  intros ? valid_regex ? ? ? ? H1 H2. eexists.
  split; [cbn; rewrite H1, H2; reflexivity|]. split; [reflexivity|]. split; reflexivity.
Qed.

(** strictness stops at the generator: the `retain_lines` object is accepted with keys nobody reads *)
Lemma generator_extra_key_accepted :
  deserialize_generator (JObj [("name", JStr "retain_lines"); ("column_span", JStr "not even a number"); ("foo", JNull)])
  = Some GRetainLines.
Proof. reflexivity. Qed.

(** * the hypotheses of the positive theorems are satisfiable by non-trivial inputs *)

Definition ex_true (_ : string) := true.
Definition ex_id (l : list string) := l.
Definition ex_none (_ : json) : option json := None.

Example ex_oracles_ok : oracles_ok ex_true ex_id ex_none /\ bundle_ok ex_none.
Proof.
  split; [|intros j j' H; discriminate]. repeat split; try (intros; discriminate); auto.
Qed.

Definition ex_rule : json :=
  JObj [("skip_files", JArr [JStr "a/**"; JStr "b.lua"]); ("value", JObj [("k", JArr [JNum (NInt 1); JNull])]);
        ("rule", JStr "inject_global_value"); ("identifier", JStr "FLAG"); ("apply_to_files", JStr "**/*.lua")].

Example ex_rule_roundtrip :
  exists r, deserialize_rule ex_true ex_true ex_true ex_id ex_none ex_true rule_specs ex_rule = Some r /\
            writes_all rule_specs r = true /\
            serialize_rule rule_specs r =
              JObj [("rule", JStr "inject_global_value"); ("apply_to_files", JStr "**/*.lua");
                    ("skip_files", JArr [JStr "a/**"; JStr "b.lua"]); ("identifier", JStr "FLAG");
                    ("value", JObj [("k", JArr [JNum (NInt 1); JNull])])].
Proof. eexists. split; [vm_compute; reflexivity|]. split; reflexivity. Qed.

Definition ex_config : json :=
  JObj [("generator", JObj [("column_span", JNum (NInt 120)); ("name", JStr "dense")]);
        ("process", JArr [JStr "remove_spaces";
                          JObj [("rule", JStr "rename_variables"); ("include_functions", JBool true); ("detect_globals", JBool true)];
                          ex_rule]);
        ("skip_files", JStr "vendor/**")].

Example ex_config_roundtrip :
  exists c, deserialize_config ex_true ex_true ex_true ex_id ex_none ex_true ex_none rule_specs default_rule_names ex_config = Some c /\
            forallb (writes_all rule_specs) (c_rules c) = true /\ List.length (c_rules c) = 3%nat /\
            c_generator c = GDense 120 /\ c_skip c = ["vendor/**"].
Proof. eexists. split; [vm_compute; reflexivity|]. repeat split; reflexivity. Qed.

(* strictness: a rule object that is rejected only because of one unknown key *)
Example ex_strict_rejects :
  deserialize_rule ex_true ex_true ex_true ex_id ex_none ex_true rule_specs
    (JObj [("rule", JStr "remove_spaces"); ("prop", JStr "something")]) = None /\
  deserialize_rule ex_true ex_true ex_true ex_id ex_none ex_true rule_specs
    (JObj [("rule", JStr "remove_spaces")]) <> None.
Proof. split; [reflexivity|discriminate]. Qed.
