(** Non-vacuity examples for the C09 theorems. *)
From Coq Require Import NArith List Bool Lia.
From DL Require Import Lib.Bytes Lua.Syntax Lua.Resolve Model.Rename Proof.RenameStream Proof.RenameInv
  Proof.ResolveFacts Proof.ResolveIdem.
Import ListNotations.
Open Scope N_scope.

Definition nm := of_string.

(** local x = 1; local function f(a) local x = a + x; return function() return x, y, f end end;
    repeat local d = f(x) until d; function t:m() return self, x end *)
Definition sample : block :=
  Block [SLocal false [Param (nm "x") None] [ENumber (NDec 1 None)];
         SLocalFunction (nm "f") (FBody [Param (nm "a") None] false None None None 0
           (Block [SLocal false [Param (nm "x") None] [EBinary BAdd (EIdent (nm "a")) (EIdent (nm "x"))]]
                  (Some (LReturn [EFunction (FBody [] false None None None 0
                     (Block [] (Some (LReturn [EIdent (nm "x"); EIdent (nm "y"); EIdent (nm "f")]))))]))));
         SRepeat (Block [SLocal false [Param (nm "d") None] [ECall (EIdent (nm "f")) None (ATuple [EIdent (nm "x")])]] None)
                 (EIdent (nm "d"));
         SFunction (nm "t") [] (Some (nm "m")) (FBody [] false None None None 0
           (Block [] (Some (LReturn [EIdent (nm "self"); EIdent (nm "x")]))))]
        None.

Definition x_to (new : name) (_ : renv) (x : name) : name := if bytes_eqb x (nm "x") then new else x.

Example rename_ok_sample :
  rename_ok (x_to (nm "q")) sample = true /\ ren_block (x_to (nm "q")) [] sample <> sample /\
  nameless (ren_block (x_to (nm "q")) [] sample) = nameless sample.
Proof.
  split; [vm_compute; reflexivity|]. split; [vm_compute; discriminate|].
  apply nameless_rename_invariant. vm_compute. reflexivity.
Qed.

(** renaming x to a captures the parameter a: rejected, and the nameless form does change *)
Example rename_capture_sample :
  rename_ok (x_to (nm "a")) sample = false /\
  nameless (ren_block (x_to (nm "a")) [] sample) <> nameless sample.
Proof. split; [vm_compute; reflexivity | vm_compute; discriminate]. Qed.

(** renaming x to the global y captures y *)
Example rename_global_capture_sample :
  rename_ok (x_to (nm "y")) sample = false /\
  nameless (ren_block (x_to (nm "y")) [] sample) <> nameless sample.
Proof. split; [vm_compute; reflexivity | vm_compute; discriminate]. Qed.

Example idempotent_sample : canon_free sample = true /\ nameless sample <> sample.
Proof. split; [vm_compute; reflexivity | vm_compute; discriminate]. Qed.

(** an always-fresh pick: '!' followed by all new names in scope *)
Definition bang_pick (env : renv) (_ : name) : name := 33 :: List.concat (map snd env).

Lemma concat_length_ge (l : list name) x : In x l -> (List.length x <= List.length (List.concat l))%nat.
Proof.
  induction l as [|y l IH]; [contradiction|]. cbn [List.concat]. rewrite app_length.
  intros [->|H]; [lia | specialize (IH H); lia].
Qed.

Example fresh_sample :
  nameless (ren_block bang_pick [] sample) = nameless sample /\ ren_block bang_pick [] sample <> sample.
Proof.
  split; [|vm_compute; discriminate].
  apply (nameless_fresh_rename_invariant bang_pick [nm "y"; nm "t"; nm "self"]).
  - intros env x H. apply concat_length_ge in H. unfold bang_pick in H. cbn [List.length] in H. lia.
  - intros env x. reflexivity.
  - intros env x. unfold bang_pick, self_name. intros K. inversion K.
  - vm_compute. reflexivity.
Qed.

(** a run of the state machine: two scopes, shadowing, reuse after pop *)
Definition sample_ops : list op :=
  [OPush; OInsert (nm "x"); OKeep (nm "f"); OPush; OInsert (nm "a"); OInsert (nm "x"); OLookup (nm "x");
   OLookup (nm "print"); OPop; OInsert (nm "y"); OInsert (nm "y"); OPush; OInsertSelf; OLookup (nm "self")].

Example sample_trace :
  map to_string (trace (init [nm "f"; nm "b"]) sample_ops)
  = [""; "a"; "f"; ""; "c"; "d"; "d"; ""; ""; "c"; "d"; ""; ""; "self"]%string.
Proof. vm_compute. reflexivity. Qed.

Example sample_keeps : incl (keeps sample_ops) [nm "f"; nm "b"] /\ pos (run [nm "f"; nm "b"] sample_ops) <= self_index.
Proof. split; [vm_compute; intros x [<-|[]]; now left | vm_compute; discriminate]. Qed.
