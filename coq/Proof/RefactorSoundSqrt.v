(** C16, convert_square_root_call: [math.sqrt(e)] -> [e ^ 0.5].

    On numbers [pow(x, 0.5)] and [sqrt(x)] agree except for [-0] ([sqrt]: [-0], [pow]: [+0]) and
    [-inf] ([sqrt]: nan, [pow]: [+inf]) - Lib/F64.v [fpow] models exactly these special cases of C's
    [pow].  [sqrt_sound_pow] holds wherever [fpow] at one half gives [fsqrt]; [sqrt_sound] is its
    instance under that carve-out, [sqrt_refuted] is the witness for [-0]
    (recorded finding: known_findings.txt convert_square_root_call:negative-zero-or-negative-infinity). *)
From Coq Require Import ZArith NArith List Bool String Lia.
From Coq Require Import Floats.SpecFloat.
From DL Require Import Lib.Bytes Lib.F64 Lua.Syntax Lua.Sem Lua.EvalSpec.
From DL Require Import Model.Removal Model.Refactor Model.DefaultRules.
From DL Require Import Proof.SemFacts Proof.EvaluatorF64 Proof.EvaluatorStore Proof.DefaultRulesSem Proof.RefactorSem.
Import ListNotations.
Open Scope N_scope.

Definition half_f : f64 := S754_finite false 4503599627370496 (-53).

Lemma half_is : half = ENumber (NDec (to_bits half_f) None).
Proof. vm_compute. reflexivity. Qed.

Lemma half_value : number_value (NDec (to_bits half_f) None) = half_f.
Proof. vm_compute. reflexivity. Qed.

Definition neg_zero : f64 := S754_zero true.
Definition neg_inf : f64 := S754_infinity true.

(** [fpow] at one half, away from the base [1] *)
Lemma fpow_half x : same_f64 x fone = false ->
  fpow x half_f = match x with
                  | S754_nan => Some S754_nan
                  | S754_zero _ => Some fzero
                  | S754_infinity _ => Some (S754_infinity false)
                  | S754_finite true _ _ => Some S754_nan
                  | _ => Some (fsqrt x)
                  end.
Proof. intros H. unfold fpow. rewrite H. destruct x; reflexivity. Qed.

Theorem fpow_half_sqrt x :
  valid x -> x <> neg_zero -> x <> neg_inf -> fpow x half_f = Some (fsqrt x).
Proof.
  intros Hv Hz Hi. destruct (same_f64 x fone) eqn:E1.
  - apply (to_bits_inj x fone Hv valid_fone) in E1. subst x. vm_compute. reflexivity.
  - rewrite (fpow_half x E1). destruct x as [sg|sg| |sg mx ex].
    + destruct sg; [elim Hz|]; reflexivity.
    + destruct sg; [elim Hi|]; reflexivity.
    + reflexivity.
    + destruct sg; reflexivity.
Qed.

Theorem fpow_half_neg_zero : fpow neg_zero half_f = Some fzero /\ fsqrt neg_zero = neg_zero.
Proof. split; reflexivity. Qed.

Theorem fpow_half_neg_inf : fpow neg_inf half_f = Some (S754_infinity false) /\ fsqrt neg_inf = S754_nan.
Proof. split; reflexivity. Qed.

(** the global [math] is the library table and its [sqrt] the builtin (the rule only checks
    that no LOCAL named [math] is in scope) *)
Definition math_pristine (s : store) : Prop :=
  exists tg am tm,
    nth_N (tables s) (N.to_nat A_globals) = Some tg /\
    raw_get (t_entries tg) (VStr nm_math) = VTable am /\
    nth_N (tables s) (N.to_nat am) = Some tm /\
    raw_get (t_entries tm) (VStr nm_sqrt) = VBuiltin B_sqrt.

Definition sqrt_call (e : expr) : expr := ECall (EField (EIdent nm_math) nm_sqrt) None (ATuple [e]).

Lemma math_pristine_initial orc : math_pristine (initial_store orc).
Proof.
  exists (nth 0 initial_tables (mkTable [] None)), A_math, (nth 1 initial_tables (mkTable [] None)).
  repeat split; reflexivity.
Qed.

Lemma rw_sqrt_call sc e : in_scope nm_math sc = false -> rw_sqrt sc (sqrt_call e) = EBinary BPow e half.
Proof. intros H. unfold rw_sqrt, sqrt_call, is_math_sqrt_call. cbn [args_len List.length Nat.eqb andb]. rewrite H. reflexivity. Qed.

Section Sqrt.
Variable d : dialect.

Lemma math_sqrt_lookup k rho va s :
  lookup rho nm_math = None -> math_pristine s -> (5 <= k)%nat ->
  eval1 d k rho va (EField (EIdent nm_math) nm_sqrt) s = Ok (VBuiltin B_sqrt) s.
Proof.
  intros Hl (tg & am & tm & Hg & Hm & Ht & Hs) L.
  assert (Hr : reads rho nm_math s (VTable am)).
  { unfold reads. rewrite Hl. exists tg. split; [exact Hg|]. rewrite Hm. split; [left; discriminate|reflexivity]. }
  assert (Hi : forall j, index d (S j) (VTable am) (VStr nm_sqrt) s = Ok (VBuiltin B_sqrt) s).
  { intros j. rewrite (index_raw_hit d _ am (VStr nm_sqrt) s tm Ht); cbn [norm_key]; rewrite Hs; [reflexivity|discriminate]. }
  destruct k as [|[|[|k]]]; try lia.
  rewrite eval1_S. eapply bind_ok_intro.
  { rewrite eval_S_field. eapply bind_ok_intro; [apply (reads_eval1 d _ _ _ _ _ _ Hr); lia|].
    eapply bind_ok_intro; [apply Hi|reflexivity]. }
  reflexivity.
Qed.

(** [math.sqrt(e)] -> [e ^ 0.5]: same values, same store, whenever the original runs without
    error and [pow] at one half agrees with [sqrt] on its argument *)
Theorem sqrt_sound_pow n rho va e s r s' :
  lookup rho nm_math = None -> math_pristine s ->
  eval d n rho va (sqrt_call e) s = Ok r s' ->
  (forall k vs s1 x, eval d k rho va e s = Ok vs s1 -> tonum (first vs) = Some x ->
                     fpow x half_f = Some (fsqrt x)) ->
  forall k, (n + 4 <= k)%nat -> eval d k rho va (EBinary BPow e half) s = Ok r s'.
Proof.
  intros Hl Hm H Hx k L.
  fuel_S n H. unfold sqrt_call in H. rewrite eval_S_call in H.
  apply bind_ok in H as (f & s0 & Hf & H). apply bind_ok in H as (args & s1 & Hargs & Hcall).
  (* the callee is the builtin, found without effect *)
  apply (eval1_up d _ (n + 5)) in Hf; [|lia].
  rewrite (math_sqrt_lookup (n + 5) rho va s Hl Hm ltac:(lia)) in Hf. injection Hf as <- <-.
  fuel_S n Hargs. rewrite eval_args_S_tuple in Hargs. fuel_S n Hargs. rewrite eval_list_S_one in Hargs.
  rewrite call_S_builtin, call_builtin_S_sqrt in Hcall.
  replace (arg args 0) with (first args) in Hcall by (destruct args; reflexivity).
  destruct (tonum (first args)) as [x|] eqn:Ex; [|discriminate Hcall].
  apply ret_ok in Hcall as [-> ->].
  (* the power, on the same argument *)
  destruct k as [|[|[|k]]]; try lia.
  rewrite eval_S_binop by reflexivity.
  eapply bind_ok_intro.
  { rewrite eval1_S. eapply bind_ok_intro; [eapply eval_up; [exact Hargs|lia]|reflexivity]. }
  eapply bind_ok_intro.
  { rewrite half_is, eval1_S, eval_S_number. reflexivity. }
  cbn [first]. unfold binop_sem. eapply bind_ok_intro; [|reflexivity].
  rewrite arith_S, Ex, half_value. cbn [tonum arith_num]. rewrite (Hx _ _ _ _ Hargs Ex). reflexivity.
Qed.

(** which is so when the argument is not [-0] / [-inf] *)
Theorem sqrt_sound n rho va e s r s' :
  lookup rho nm_math = None -> math_pristine s ->
  eval d n rho va (sqrt_call e) s = Ok r s' ->
  (forall k vs s1 x, eval d k rho va e s = Ok vs s1 -> tonum (first vs) = Some x ->
                     valid x /\ x <> neg_zero /\ x <> neg_inf) ->
  forall k, (n + 4 <= k)%nat -> eval d k rho va (EBinary BPow e half) s = Ok r s'.
Proof.
  intros Hl Hm H Hx. apply (sqrt_sound_pow n rho va e s r s' Hl Hm H).
  intros k vs s1 x He Ex. destruct (Hx k vs s1 x He Ex) as (Hv & Hz & Hi). now apply fpow_half_sqrt.
Qed.

End Sqrt.

(** satisfiable hypotheses: [math.sqrt(4)] in the initial store *)
Definition four : expr := ENumber (NDec (to_bits (of_Z 4)) None).

Example sqrt_example :
  math_pristine (initial_store []) /\
  eval L51 9 [] [] (sqrt_call four) (initial_store []) = Ok [VNum (of_Z 2)] (initial_store []) /\
  eval L51 13 [] [] (EBinary BPow four half) (initial_store []) = Ok [VNum (of_Z 2)] (initial_store []).
Proof.
  split; [apply math_pristine_initial|]. split; vm_compute; reflexivity.
Qed.

(** the carve-out is necessary: [math.sqrt(-0)] is [-0], [(-0) ^ 0.5] is [+0] *)
Definition minus_zero_lit : expr := ENumber (NDec (to_bits neg_zero) None).

Theorem sqrt_refuted : exists dl e rho va s r1 r2 s1 s2,
  lookup rho nm_math = None /\ math_pristine s /\
  rw_sqrt [] (sqrt_call e) = EBinary BPow e half /\
  eval dl 9 rho va (sqrt_call e) s = Ok r1 s1 /\
  eval dl 13 rho va (EBinary BPow e half) s = Ok r2 s2 /\
  r1 = [VNum neg_zero] /\ r2 = [VNum fzero] /\ r1 <> r2.
Proof.
  exists L51, minus_zero_lit, [], [], (initial_store []), [VNum neg_zero], [VNum fzero],
         (initial_store []), (initial_store []).
  split; [reflexivity|]. split; [apply math_pristine_initial|].
  split; [reflexivity|]. split; [vm_compute; reflexivity|]. split; [vm_compute; reflexivity|].
  split; [reflexivity|]. split; [reflexivity|]. discriminate.
Qed.
