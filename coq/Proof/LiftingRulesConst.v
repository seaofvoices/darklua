(** C01, LIFTING - the rules that consult the static evaluator, with the evaluator's answers
    abstracted as ORACLES: convert_index_to_field ([ck]: the field name of a key),
    remove_unused_while ([keepc]: is the loop kept), compute_expression ([ev]: static value,
    [tr]: truthiness of an [and]/[or] operand, [hs]: side effects); remove_unused_if_branch is
    Proof/LiftingRulesIf.v.  Each rule's code is restated with the oracle as a parameter
    ([*_g]; [*_agrees]: with the rule's own oracle the hooks are the rule's hooks, pointwise) and
    proved whole-program sound for every oracle that only answers on expressions that
    evaluate, in every store, to the announced constant without touching the store.

    Instances: the closed constant expressions of Proof/LiftingConst.v ([..._const]; the
    literals of the [..._literal] theorems are the simplest case).  The rules' own oracle (the
    static evaluator of C08) is sound only under the store invariant [env_plain] and up to the
    fresh allocations of the dropped expression, hence the general rules are not covered:
    PARTIAL.  compute_expression: the [and]/[or] operand selection is left out altogether
    ([tr] answers [None]): it is unsound where the kept operand may yield several values
    (recorded finding, [compute_multivalue_refuted]); and a result of minus infinity is not
    folded ([5 - 1e309] needs 3 units of fuel, its literal [(-1)/0] needs 5, so a same-fuel
    statement is false for it). *)
From Coq Require Import ZArith NArith List Bool String Lia.
From Coq Require Import Floats.SpecFloat.
From DL Require Import Lib.Bytes Lib.F64 Lua.Syntax Lua.Sem Model.Evaluator Model.DefaultRules.
From DL Require Model.Serializer.
From DL Require Import Proof.LoweringFuel.
From DL Require Import Proof.ListFacts Proof.SemFacts Proof.DefaultRulesSem Proof.RefactorSem.
From DL Require Import Proof.EvaluatorF64 Proof.EvaluatorInv Proof.DefaultRulesSoundExpr.
From DL Require Import Proof.LiftingDefs Proof.LiftingSim Proof.LiftingVisit Proof.LiftingRulesExpr
  Proof.LiftingRulesBlock Proof.LiftingRulesIf Proof.LiftingConst.
Import ListNotations.
Open Scope N_scope.

Definition rw_index_to_field_g (ck : expr -> option name) (e : expr) : expr :=
  match e with
  | EIndex p k => match ck k with Some f => EField p f | None => e end
  | _ => e
  end.
Definition rw_index_entry_g (ck : expr -> option name) (en : tentry) : tentry :=
  match en with
  | TIndex k v => match ck k with Some f => TField f v | None => en end
  | _ => en
  end.
Definition hooks_index_to_field_g (ck : expr -> option name) : hooks :=
  mkHooks (fun b => b) (fun s => s) (rw_index_to_field_g ck) (rw_index_to_field_g ck) (rw_index_to_field_g ck)
          (fun e => e) (map (rw_index_entry_g ck)).

Theorem index_to_field_g_agrees :
  (forall e, h_expr hooks_index_to_field e = h_expr (hooks_index_to_field_g convert_to_field) e) /\
  (forall e, h_prefix hooks_index_to_field e = h_prefix (hooks_index_to_field_g convert_to_field) e) /\
  (forall e, h_var hooks_index_to_field e = h_var (hooks_index_to_field_g convert_to_field) e) /\
  (forall t, h_table hooks_index_to_field t = h_table (hooks_index_to_field_g convert_to_field) t).
Proof. repeat split. Qed.

Definition ck_ok (d : dialect) (ck : expr -> option name) : Prop :=
  forall k f, ck k = Some f -> forall n rho va, refines (eval1 d n rho va k) (ret (VStr f)).

Section IndexG.
Variable d : dialect.
Variable ck : expr -> option name.
Hypothesis Hck : ck_ok d ck.

Lemma index_g_ref e : index_ref d e (rw_index_to_field_g ck e).
Proof.
  destruct e; try apply ir_same. cbn [rw_index_to_field_g].
  destruct (ck e2) as [f|] eqn:Ek; [|apply ir_same]. apply ir_field. exact (Hck _ _ Ek).
Qed.

Lemma entries_g_refines ens : ref_entries d ens (map (rw_index_entry_g ck) ens).
Proof.
  apply entries_refines, Forall2_map_r. intros [f v|k v|v]; try apply er_same. cbn [rw_index_entry_g].
  destruct (ck k) as [f|] eqn:Ek; [|apply er_same]. apply er_field. exact (Hck _ _ Ek).
Qed.

Theorem lifting_index_to_field_g : forall n orc b out,
  run_chunk d n orc b = out -> out <> OutFuel ->
  run_chunk d n orc (apply_hooks (hooks_index_to_field_g ck) b) = out.
Proof.
  apply (lifting_refining_hooks d (hooks_index_to_field_g ck)).
  - intros e. apply index_ref_expr, index_g_ref.
  - intros e. apply index_ref_expr, index_g_ref.
  - intros e. apply index_ref_var, index_g_ref.
  - exact (ref_expr_refl d).
  - exact entries_g_refines.
  - exact (ref_stmt_refl d).
  - exact (ref_block_refl d).
Qed.

End IndexG.

Definition while_kept_g (keepc : expr -> bool) (st : stmt) : bool :=
  match st with
  | SWhile c _ => keepc c
  | _ => true
  end.
Definition rw_while_g (keepc : expr -> bool) (b : block) : block :=
  match b with Block ss last => Block (filter (while_kept_g keepc) ss) last end.
Definition hooks_while_g (keepc : expr -> bool) : hooks :=
  mkHooks (rw_while_g keepc) (fun s => s) (fun e => e) (fun e => e) (fun e => e) (fun e => e) (fun t => t).

Definition keepc_static (c : expr) : bool :=
  hse c || match is_truthy (evaluate c) with Some b => b | None => true end.

Theorem while_g_agrees : forall b, h_block hooks_while b = h_block (hooks_while_g keepc_static) b.
Proof. intros [ss last]. reflexivity. Qed.

Definition keepc_ok (d : dialect) (keepc : expr -> bool) : Prop :=
  forall c, keepc c = false ->
    exists v, truthy v = false /\ forall n rho va, refines (eval1 d n rho va c) (ret v).

Section WhileG.
Variable d : dialect.
Variable keepc : expr -> bool.
Hypothesis Hk : keepc_ok d keepc.

Lemma while_g_noop st : while_kept_g keepc st = false -> noop d st.
Proof.
  intros Hw. destruct st; try discriminate Hw. cbn [while_kept_g] in Hw.
  destruct (Hk _ Hw) as (v & Hv & Hc). exact (while_false_noop d _ _ v Hv Hc).
Qed.

Theorem lifting_while_g : forall n orc b out,
  run_chunk d n orc b = out -> out <> OutFuel ->
  run_chunk d n orc (apply_hooks (hooks_while_g keepc) b) = out.
Proof.
  apply (lifting_block_hook d (rw_while_g keepc)). intros [ss last].
  apply stmts_ref_block, filter_noop, while_g_noop.
Qed.

End WhileG.

Section ComputeG.
Variable ev : expr -> lv.
Variable tr : expr -> option bool.
Variable hs : expr -> bool.

Fixpoint rw_compute_g (e : expr) : expr :=
  match e with
  | EUnary _ _ | EIf _ _ =>
    if hs e then e else match lit_of_lv (ev e) with Some l => l | None => e end
  | EBinary op l r =>
    if hs e then
      match op with
      | BAnd =>
        if hs l then e
        else match tr l with
             | Some true => r
             | Some false => l
             | None => e
             end
      | BOr =>
        if hs l then e
        else match tr l with
             | Some true => l
             | Some false => r
             | None => e
             end
      | _ => e
      end
    else
      match lit_of_lv (ev e) with
      | Some lit => lit
      | None =>
        match op with
        | BAnd =>
          match tr l with
          | Some true => rw_compute_g r
          | Some false => rw_compute_g l
          | None => e
          end
        | BOr =>
          match tr l with
          | Some true => rw_compute_g l
          | Some false => rw_compute_g r
          | None => e
          end
        | _ => e
        end
      end
  | _ => e
  end.

Definition hooks_compute_g : hooks :=
  mkHooks (fun b => b) (fun s => s) rw_compute_g (fun e => e) (fun e => e) (fun e => e) (fun t => t).
End ComputeG.

Theorem compute_g_agrees : forall e, h_expr hooks_compute e = h_expr (hooks_compute_g evaluate tr_static hse) e.
Proof. intros e. reflexivity. Qed.

Definition ev_ok (d : dialect) (ev : expr -> lv) (hs : expr -> bool) : Prop :=
  forall e lit, computable_shape e = true -> hs e = false -> lit_of_lv (ev e) = Some lit ->
    forall n rho va, refines (eval d n rho va e) (eval d n rho va lit).

Section ComputeSound.
Variable d : dialect.
Variable ev : expr -> lv.
Variable hs : expr -> bool.
Hypothesis Hev : ev_ok d ev hs.
Let tr : expr -> option bool := fun _ => None.

Lemma compute_g_refines e : ref_expr d e (rw_compute_g ev tr hs e).
Proof.
  intros n rho va. destruct e; try apply refines_refl; cbn [rw_compute_g].
  - destruct (hs (EIf branches e)) eqn:Eh; [apply refines_refl|].
    destruct (lit_of_lv (ev (EIf branches e))) as [lit|] eqn:El; [|apply refines_refl].
    now apply Hev.
  - destruct (hs (EUnary op e)) eqn:Eh; [apply refines_refl|].
    destruct (lit_of_lv (ev (EUnary op e))) as [lit|] eqn:El; [|apply refines_refl].
    now apply Hev.
  - destruct (hs (EBinary op e1 e2)) eqn:Eh.
    + destruct op; try apply refines_refl; destruct (hs e1); apply refines_refl.
    + destruct (lit_of_lv (ev (EBinary op e1 e2))) as [lit|] eqn:El; [now apply Hev|].
      destruct op; apply refines_refl.
Qed.

Theorem lifting_compute_g : forall n orc b out,
  run_chunk d n orc b = out -> out <> OutFuel ->
  run_chunk d n orc (apply_hooks (hooks_compute_g ev (fun _ => None) hs) b) = out.
Proof.
  apply (lifting_refining_hooks d (hooks_compute_g ev tr hs)).
  - exact compute_g_refines.
  - exact (ref_expr_refl d).
  - exact (ref_var_refl d).
  - exact (ref_expr_refl d).
  - exact (ref_entries_refl d).
  - exact (ref_stmt_refl d).
  - exact (ref_block_refl d).
Qed.

End ComputeSound.

Definition ck_const (k : expr) : option name :=
  match cval k with
  | Some (VStr s) => if Serializer.is_valid_identifier s then Some s else None
  | _ => None
  end.
Lemma ck_const_ok d : ck_ok d ck_const.
Proof.
  intros k f H n rho va. unfold ck_const in H.
  destruct (cval k) as [[| | |s| | | |]|] eqn:E; try discriminate H.
  destruct (Serializer.is_valid_identifier s); inversion H; subst. now apply cval_sound1.
Qed.

Definition keepc_const (c : expr) : bool :=
  match cval c with Some v => truthy v | None => true end.
Lemma keepc_const_ok d : keepc_ok d keepc_const.
Proof.
  intros c H. unfold keepc_const in H. destruct (cval c) as [v|] eqn:E; [|discriminate H].
  exists v. split; [exact H|]. intros; now apply cval_sound1.
Qed.

Definition tr_const (c : expr) : option bool := option_map truthy (cval c).
Lemma tr_const_ok d : tr_ok d tr_const (fun _ => false).
Proof.
  intros c b H. split; [reflexivity|]. unfold tr_const in H.
  destruct (cval c) as [v|] eqn:E; [|discriminate H]. cbn in H. inversion H; subst.
  exists v. split; [reflexivity|]. intros; now apply cval_sound1.
Qed.

(** a folded constant: minus infinity is left alone (its literal needs more fuel) *)
Definition lv_of_value (v : value) : lv :=
  match v with
  | VNil => LNil
  | VBool true => LTrue
  | VBool false => LFalse
  | VNum (S754_infinity true) => LUnknown
  | VNum x => LNumber x
  | VStr s => LString s
  | _ => LUnknown
  end.
Definition ev_const (e : expr) : lv :=
  match cval e with Some v => lv_of_value v | None => LUnknown end.

Lemma arith_nomod_valid op x y r : valid x -> valid y -> arith_nomod op x y = Some r -> valid r.
Proof.
  intros Hx Hy H. destruct op; cbn in H; try discriminate H; try (inversion H; subst).
  - now apply valid_fadd.
  - now apply valid_fsub.
  - now apply valid_fmul.
  - now apply valid_fdiv.
  - apply valid_ffloor. now apply valid_fdiv.
  - exact (valid_fpow x y r Hx H).
Qed.

Definition value_valid (v : value) : Prop := match v with VNum x => valid x | _ => True end.

Lemma cbin_valid op a b v : value_valid a -> value_valid b -> cbin op a b = Some v -> value_valid v.
Proof.
  intros Ha Hb H.
  assert (Harith : match a, b with VNum x, VNum y => option_map VNum (arith_nomod op x y) | _, _ => None end = Some v ->
                   value_valid v).
  { intros H'. destruct (cbin_arith_inv _ _ _ _ H') as (x & y & r & -> & -> & Hr & ->).
    exact (arith_nomod_valid op x y r Ha Hb Hr). }
  (* every other operator yields a boolean or a string *)
  destruct op; cbn [cbin] in H; try discriminate H; try (exact (Harith H));
    destruct a; try discriminate H; try (inversion H; exact I);
    destruct b; try discriminate H; inversion H; exact I.
Qed.

Lemma cval_valid e v : cval e = Some v -> value_valid v.
Proof.
  intros H. apply cval_graph in H. induction H; try exact I; try assumption.
  - cbn. destruct (compute_number_value x) as [E Hv]. rewrite <- E. exact Hv.
  - cbn. now apply valid_fneg.
  - eapply cbin_valid; [| |eassumption]; assumption.
Qed.

Lemma lit_of_f64_eval3 d rho va x n s : valid x -> x <> S754_infinity true ->
  eval d (S (S (S n))) rho va (lit_of_f64 x) s = Ok [VNum x] s.
Proof.
  intros Hv Hn. destruct x as [sg|sg| |sg m e]; cbn [lit_of_f64].
  - apply eval_dec. exact Hv.
  - destruct sg; [congruence|].
    rewrite (eval_div d rho va _ _ _ fone fzero); [reflexivity| |]; apply eval1_dec; (apply valid_fone || apply valid_fzero).
  - rewrite (eval_div d rho va _ _ _ fzero fzero); [reflexivity| |]; apply eval1_dec; apply valid_fzero.
  - destruct sg.
    + rewrite eval_neg_dec; [reflexivity|exact Hv].
    + apply eval_dec. exact Hv.
Qed.

Lemma lit_of_value_eval3 d rho va v lit n s : value_valid v ->
  lit_of_lv (lv_of_value v) = Some lit -> eval d (S (S (S n))) rho va lit s = Ok [v] s.
Proof.
  intros Hv Hl. destruct v as [|b|x|str| | | |]; cbn [lv_of_value] in Hl; try discriminate Hl.
  - inversion Hl; subst. reflexivity.
  - destruct b; inversion Hl; subst; reflexivity.
  - assert (x <> S754_infinity true) as Hn by (intros ->; discriminate Hl).
    assert (lit = lit_of_f64 x) as ->.
    { destruct x as [sg|sg| |sg m e]; try (inversion Hl; reflexivity). destruct sg; [congruence|inversion Hl; reflexivity]. }
    now apply lit_of_f64_eval3.
  - inversion Hl; subst. reflexivity.
Qed.

Lemma computable_fuel d e n rho va s : computable_shape e = true -> eval d n rho va e s <> Fuel -> (3 <= n)%nat.
Proof.
  intros Hc Hf. destruct n as [|[|[|n]]]; try lia; exfalso; apply Hf; destruct e; try discriminate Hc.
  - reflexivity.
  - reflexivity.
  - reflexivity.
  - rewrite eval_S_if. destruct branches as [|[c r] rest]; reflexivity.
  - rewrite eval_S_unary. reflexivity.
  - destruct (is_andor op) eqn:Eo.
    + destruct op; try discriminate Eo; reflexivity.
    + rewrite eval_S_binop by exact Eo. reflexivity.
  - rewrite eval_S_if. destruct branches as [|[c r] rest]; [rewrite if_go_nil|rewrite if_go_cons]; reflexivity.
  - rewrite eval_S_unary. reflexivity.
  - destruct (is_andor op) eqn:Eo.
    + destruct op; try discriminate Eo; reflexivity.
    + rewrite eval_S_binop by exact Eo. reflexivity.
Qed.

Lemma ev_const_ok d : ev_ok d ev_const (fun _ => false).
Proof.
  intros e lit Hc _ Hl n rho va s Hf. unfold ev_const in Hl.
  destruct (cval e) as [v|] eqn:E; [|discriminate Hl].
  pose proof (computable_fuel d e n rho va s Hc Hf) as Hn.
  rewrite <- (cval_sound d rho va e v E n s Hf). cbn [ret].
  do 3 (destruct n as [|n]; [lia|]).
  apply lit_of_value_eval3; [exact (cval_valid e v E)|exact Hl].
Qed.

Definition rule_convert_index_to_field_const : block -> block :=
  apply_hooks (hooks_index_to_field_g ck_const).
Definition rule_remove_unused_while_const : block -> block :=
  apply_hooks (hooks_while_g keepc_const).
Definition rule_remove_unused_if_branch_const : block -> block :=
  apply_hooks (hooks_if_g tr_const (fun _ => false)).
Definition rule_compute_expression_const : block -> block :=
  apply_hooks (hooks_compute_g ev_const (fun _ => None) (fun _ => false)).

Theorem lifting_convert_index_to_field_const : forall d n orc b out,
  run_chunk d n orc b = out -> out <> OutFuel ->
  run_chunk d n orc (rule_convert_index_to_field_const b) = out.
Proof. intros d. apply (lifting_index_to_field_g d ck_const (ck_const_ok d)). Qed.

Theorem lifting_remove_unused_while_const : forall d n orc b out,
  run_chunk d n orc b = out -> out <> OutFuel ->
  run_chunk d n orc (rule_remove_unused_while_const b) = out.
Proof. intros d. apply (lifting_while_g d keepc_const (keepc_const_ok d)). Qed.

Theorem lifting_remove_unused_if_branch_const : forall d n orc b out,
  run_chunk d n orc b = out -> out <> OutFuel ->
  run_chunk d n orc (rule_remove_unused_if_branch_const b) = out.
Proof. intros d. apply (lifting_if_g d tr_const (fun _ => false) (tr_const_ok d)). Qed.

Theorem lifting_compute_expression_const : forall d n orc b out,
  run_chunk d n orc b = out -> out <> OutFuel ->
  run_chunk d n orc (rule_compute_expression_const b) = out.
Proof. intros d. apply (lifting_compute_g d ev_const (fun _ => false) (ev_const_ok d)). Qed.

(** the rules themselves, on programs on which they do nothing but what their constant
    restriction does *)
Theorem lifting_convert_index_to_field_const_partial : forall d n orc b out,
  rule_convert_index_to_field b = rule_convert_index_to_field_const b ->
  run_chunk d n orc b = out -> out <> OutFuel ->
  run_chunk d n orc (rule_convert_index_to_field b) = out.
Proof. intros d n orc b out ->. apply lifting_convert_index_to_field_const. Qed.

Theorem lifting_remove_unused_while_const_partial : forall d n orc b out,
  rule_remove_unused_while b = rule_remove_unused_while_const b ->
  run_chunk d n orc b = out -> out <> OutFuel ->
  run_chunk d n orc (rule_remove_unused_while b) = out.
Proof. intros d n orc b out ->. apply lifting_remove_unused_while_const. Qed.

Theorem lifting_remove_unused_if_branch_const_partial : forall d n orc b out,
  rule_remove_unused_if_branch b = rule_remove_unused_if_branch_const b ->
  run_chunk d n orc b = out -> out <> OutFuel ->
  run_chunk d n orc (rule_remove_unused_if_branch b) = out.
Proof. intros d n orc b out ->. apply lifting_remove_unused_if_branch_const. Qed.

Theorem lifting_compute_expression_const_partial : forall d n orc b out,
  rule_compute_expression b = rule_compute_expression_const b ->
  run_chunk d n orc b = out -> out <> OutFuel ->
  run_chunk d n orc (rule_compute_expression b) = out.
Proof. intros d n orc b out ->. apply lifting_compute_expression_const. Qed.
