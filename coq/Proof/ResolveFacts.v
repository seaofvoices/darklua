(** Facts about the scoping specification Lua/Resolve.v.

    [nameless_after_ren]: rename the local binders of a tree with ANY choice of new names [pick]
    (a function of the binders in scope - old and new names - and of the old name).  If at every
    identifier occurrence a predicate [p] holds that, on the environments the traversal can
    reach (an invariant [I] kept by the two ways an environment grows), implies [occ_ok] - the new
    name resolves among the new names in scope to the binder the old name resolved to among the
    old ones, and a free name stays free - then the renamed tree has the same nameless form.

    [nameless_rename_invariant] is the case [p := occ_ok]; Proof/ResolveIdem.v has the cases of
    the normaliser itself and of a renamer that always picks fresh names. *)
From Coq Require Import Arith PeanoNat NArith List Bool Lia.
From DL Require Import Lib.Bytes Lua.Syntax Lua.Resolve Proof.ResolveInd.
Import ListNotations.

(** three environments walking together: the renaming (old, new), the normaliser on the source
    (old, canonical), the normaliser on the renamed tree (new, canonical) *)
Inductive R : renv -> renv -> renv -> Prop :=
| R_nil : R [] [] []
| R_cons : forall o n c env e0 e1, R env e0 e1 -> R ((o, n) :: env) ((o, c) :: e0) ((n, c) :: e1).

Lemma R_length env e0 e1 : R env e0 e1 -> List.length e0 = List.length env /\ List.length e1 = List.length env.
Proof. induction 1; cbn; lia. Qed.

Notation cp := canon_pick.

Lemma cp_len env e0 e1 : R env e0 e1 -> forall a b, cp e1 a = cp e0 b.
Proof. intros H a b. unfold canon_pick. now destruct (R_length _ _ _ H) as [-> ->]. Qed.

Lemma R_bind pick env e0 e1 x :
  R env e0 e1 -> R (bind pick env x) (bind cp e0 x) (bind cp e1 (pick env x)).
Proof.
  intros H. unfold bind, canon_pick. destruct (R_length _ _ _ H) as [-> ->]. now constructor.
Qed.

Lemma R_self env e0 e1 : R env e0 e1 -> R (bind_self env) (bind_self e0) (bind_self e1).
Proof. intros H. unfold bind_self. now constructor. Qed.

Lemma lookup_none env x : find_fst env x = None <-> lookup env x = None.
Proof.
  induction env as [|[o n] env IH]; [now split|].
  cbn [lookup find_fst]. destruct (bytes_eqb o x); [split; discriminate|].
  rewrite <- IH. destruct (find_fst env x); split; (discriminate || reflexivity).
Qed.

Lemma find_snd_nth env i :
  (i < List.length env)%nat -> forall j, find_snd env (nth i (map snd env) []) = Some j -> (j <= i)%nat.
Proof.
  revert i. induction env as [|[o n] env IH]; intros i Hi j H; [cbn in Hi; lia|].
  cbn [find_snd map snd] in H. destruct i as [|i].
  - cbn [nth] in H. rewrite bytes_eqb_refl in H. inversion H. lia.
  - cbn [nth] in H. destruct (bytes_eqb n (nth i (map snd env) [])); [inversion H; lia|].
    destruct (find_snd env (nth i (map snd env) [])) as [j'|] eqn:E; [|discriminate].
    cbn in H. inversion H; subst. cbn in Hi. specialize (IH i ltac:(lia) j' E). lia.
Qed.

Lemma opt_nat_eqb_eq a b : opt_nat_eqb a b = true -> a = b.
Proof.
  destruct a, b; cbn; intros H; try discriminate; [|reflexivity].
  apply Nat.eqb_eq in H. now subst.
Qed.

(** the heart: at an occurrence that passes [occ_ok], normalising after renaming is normalising.
    Under an entry (o, n) that does not bind x, [occ_ok] says that n is not the new name of x
    either, so the three lookups all pass to the rest. *)
Lemma R_occ env e0 e1 x : R env e0 e1 -> occ_ok env x = true -> occ e1 (occ env x) = occ e0 x.
Proof.
  unfold occ_ok. induction 1 as [|o n c env e0 e1 HR IH]; intros H; [reflexivity|].
  apply opt_nat_eqb_eq in H. revert H. unfold occ in *. cbn [lookup find_fst find_snd].
  destruct (bytes_eqb o x); [now rewrite bytes_eqb_refl|].
  destruct (bytes_eqb n _); [destruct (find_fst env x); discriminate|].
  intros H. apply IH. destruct (find_snd env _), (find_fst env x); try discriminate; [|reflexivity].
  injection H as ->. cbn. apply Nat.eqb_refl.
Qed.

Fixpoint ren_names (pick : renv -> name -> name) (env : renv) (xs : list name) : list name :=
  match xs with
  | [] => []
  | x :: r => pick env x :: ren_names pick (bind pick env x) r
  end.

Lemma ren_params_names pick fty ps : forall env,
  map param_name (ren_params pick fty env ps) = ren_names pick env (map param_name ps).
Proof.
  induction ps as [|[x t] ps IH]; intros env; [reflexivity|].
  cbn [ren_params map param_name ren_names]. now rewrite IH.
Qed.

(** the environment in which the condition of [repeat b until c] is resolved *)
Definition block_env (pk : renv -> name -> name) (env : renv) (b : block) : renv :=
  match b with Block ss _ => seq_env (stmt_env pk) env ss end.

Lemma ren_repeat pk env b c :
  ren_stmt pk env (SRepeat b c) = SRepeat (ren_block pk env b) (ren_expr pk (block_env pk env b) c).
Proof. destruct b. reflexivity. Qed.

Lemma ao_repeat pk p env b c :
  ao_stmt pk p env (SRepeat b c) = ao_block pk p env b && ao_expr pk p (block_env pk env b) c.
Proof. destruct b. reflexivity. Qed.

Section Main.
Variable pick : renv -> name -> name.
Variable p : renv -> name -> bool.
Variable I : renv -> Prop.
Hypothesis I_bind : forall env x, I env -> I (bind pick env x).
Hypothesis I_self : forall env, I env -> I (bind_self env).
Hypothesis p_occ_ok : forall env x, I env -> p env x = true -> occ_ok env x = true.

Definition W (env e0 e1 : renv) : Prop := I env /\ R env e0 e1.

Lemma W_bind env e0 e1 x : W env e0 e1 -> W (bind pick env x) (bind cp e0 x) (bind cp e1 (pick env x)).
Proof. intros [HI HR]. split; [now apply I_bind | now apply R_bind]. Qed.

Lemma W_self (ws : bool) env e0 e1 : W env e0 e1 ->
  W (if ws then bind_self env else env) (if ws then bind_self e0 else e0) (if ws then bind_self e1 else e1).
Proof. intros [HI HR]. destruct ws; [|now split]. split; [now apply I_self | now apply R_self]. Qed.

Lemma W_bind_all xs : forall env e0 e1,
  W env e0 e1 -> W (bind_all pick env xs) (bind_all cp e0 xs) (bind_all cp e1 (ren_names pick env xs)).
Proof.
  induction xs as [|x xs IH]; intros env e0 e1 H; [exact H|].
  cbn [ren_names]. unfold bind_all in *. cbn [fold_left]. apply IH. now apply W_bind.
Qed.

Lemma W_occ env e0 e1 x : W env e0 e1 -> p env x = true -> occ e1 (occ env x) = occ e0 x.
Proof. intros [HI HR] H. apply (R_occ _ _ _ _ HR). now apply p_occ_ok. Qed.

Lemma W_cp env e0 e1 x : W env e0 e1 -> cp e1 (pick env x) = cp e0 x.
Proof. intros [_ HR]. now apply (cp_len _ _ _ HR). Qed.

Definition Q {A} (ao : renv -> A -> bool) (f : (renv -> name -> name) -> renv -> A -> A) (a : A) : Prop :=
  forall env e0 e1, W env e0 e1 -> ao env a = true -> f cp e1 (f pick env a) = f cp e0 a.

Definition Pty := Q (ao_ty pick p) ren_ty.
Definition Pexpr := Q (ao_expr pick p) ren_expr.
Definition Piseg := Q (ao_iseg pick p) ren_iseg.
Definition Pebranch := Q (ao_ebranch pick p) ren_ebranch.
Definition Pargs := Q (ao_args pick p) ren_args.
Definition Ptentry := Q (ao_tentry pick p) ren_tentry.
Definition Pfbody (f : fbody) : Prop :=
  forall ws, Q (fun env => ao_fbody pick p env ws) (fun pk env => ren_fbody pk env ws) f.
Definition Pparam (x : param) : Prop := match x with Param _ t => OptP Pty t end.
Definition Pstmt := Q (ao_stmt pick p) ren_stmt.
Definition Psbranch := Q (ao_sbranch pick p) ren_sbranch.
Definition Pblock := Q (ao_block pick p) ren_block.
Definition Plast := Q (ao_last pick p) ren_last.

Lemma map_lift {A} (ao : renv -> A -> bool) (f : (renv -> name -> name) -> renv -> A -> A) l :
  Forall (Q ao f) l -> forall env e0 e1, W env e0 e1 -> forallb (ao env) l = true ->
  map (f cp e1) (map (f pick env) l) = map (f cp e0) l.
Proof.
  intros F env e0 e1 HW. induction F as [|a l Ha F IH]; intros H; [reflexivity|].
  cbn [forallb] in H. apply andb_true_iff in H as [H1 H2]. cbn [map].
  now rewrite (Ha _ _ _ HW H1), (IH H2).
Qed.

Lemma opt_lift {A} (ao : renv -> A -> bool) (f : (renv -> name -> name) -> renv -> A -> A) o :
  OptP (Q ao f) o -> forall env e0 e1, W env e0 e1 -> optb (ao env) o = true ->
  option_map (f cp e1) (option_map (f pick env) o) = option_map (f cp e0) o.
Proof.
  intros F env e0 e1 HW H. destruct o as [a|]; [|reflexivity].
  cbn in *. now rewrite (F _ _ _ HW H).
Qed.

(** binder groups: names follow the growing environments, annotations the outer ones *)
Lemma params_lift ps : Forall Pparam ps ->
  forall envo e0o e1o, W envo e0o e1o ->
  forall env e0 e1, W env e0 e1 -> ao_params (ao_ty pick p envo) ps = true ->
  ren_params cp (ren_ty cp e1o) e1 (ren_params pick (ren_ty pick envo) env ps)
  = ren_params cp (ren_ty cp e0o) e0 ps.
Proof.
  intros F envo e0o e1o HWo. induction F as [|[x t] ps Ht F IH]; intros env e0 e1 HW H; [reflexivity|].
  unfold ao_params in H. cbn [forallb] in H. apply andb_true_iff in H as [H1 H2].
  cbn [ren_params].
  now rewrite (W_cp _ _ _ x HW), (opt_lift _ _ _ Ht _ _ _ HWo H1), (IH _ _ _ (W_bind _ _ _ x HW) H2).
Qed.

Lemma stmt_env_W s env e0 e1 :
  W env e0 e1 -> W (stmt_env pick env s) (stmt_env cp e0 s) (stmt_env cp e1 (ren_stmt pick env s)).
Proof.
  intros HW. destruct s; try exact HW.
  - cbn [stmt_env ren_stmt]. rewrite ren_params_names. now apply W_bind_all.
  - cbn [stmt_env ren_stmt]. now apply W_bind.
  - destruct var. exact HW.
  - rewrite ren_repeat. exact HW.
Qed.

Lemma seq_env_W ss : forall env e0 e1, W env e0 e1 ->
  W (seq_env (stmt_env pick) env ss) (seq_env (stmt_env cp) e0 ss)
    (seq_env (stmt_env cp) e1 (seq_map (stmt_env pick) (ren_stmt pick) env ss)).
Proof.
  unfold seq_env. induction ss as [|s ss IH]; intros env e0 e1 HW; [exact HW|].
  cbn [seq_map fold_left]. apply IH. now apply stmt_env_W.
Qed.

Lemma block_env_W b env e0 e1 :
  W env e0 e1 -> W (block_env pick env b) (block_env cp e0 b) (block_env cp e1 (ren_block pick env b)).
Proof. destruct b as [ss last]. apply seq_env_W. Qed.

Lemma seq_lift ss : Forall Pstmt ss -> forall env e0 e1, W env e0 e1 ->
  seq_forallb (stmt_env pick) (ao_stmt pick p) env ss = true ->
  seq_map (stmt_env cp) (ren_stmt cp) e1 (seq_map (stmt_env pick) (ren_stmt pick) env ss)
  = seq_map (stmt_env cp) (ren_stmt cp) e0 ss.
Proof.
  intros F. induction F as [|s ss Hs F IH]; intros env e0 e1 HW H; [reflexivity|].
  cbn [seq_forallb] in H. apply andb_true_iff in H as [H1 H2]. cbn [seq_map].
  now rewrite (Hs _ _ _ HW H1), (IH _ _ _ (stmt_env_W s _ _ _ HW) H2).
Qed.

(** One step of the traversals.  [cbn] leaves the bodies of the mutual fixpoints where they are
    passed to [map], hence the [fold]s; the result is computed first and installed by a single
    [change], so that the unfolded bodies never enter the proof term. *)
Ltac ren_step t :=
  let t := eval cbn [ren_ty ren_expr ren_iseg ren_ebranch ren_args ren_tentry ren_fbody ren_stmt ren_sbranch
                     ren_block ren_last] in t in
  let t := eval cbv zeta in t in
  let t := eval fold (ren_ty cp) (ren_expr cp) (ren_iseg cp) (ren_ebranch cp) (ren_args cp) (ren_tentry cp)
                     (ren_fbody cp) (ren_stmt cp) (ren_sbranch cp) (ren_block cp) (ren_last cp) in t in
  eval fold (ren_ty pick) (ren_expr pick) (ren_iseg pick) (ren_ebranch pick) (ren_args pick) (ren_tentry pick)
            (ren_fbody pick) (ren_stmt pick) (ren_sbranch pick) (ren_block pick) (ren_last pick) in t.
Ltac unfren := match goal with |- ?G => let G' := ren_step G in change G' end.
Ltac ao_step t :=
  let t := eval cbn [ao_ty ao_expr ao_iseg ao_ebranch ao_args ao_tentry ao_fbody ao_stmt ao_sbranch ao_block
                     ao_last] in t in
  let t := eval cbv zeta in t in
  eval fold (ao_ty pick p) (ao_expr pick p) (ao_iseg pick p) (ao_ebranch pick p) (ao_args pick p)
            (ao_tentry pick p) (ao_fbody pick p) (ao_stmt pick p) (ao_sbranch pick p) (ao_block pick p)
            (ao_last pick p) in t.
Ltac unfao H := match type of H with ?T => let T' := ao_step T in change T' in H end.
Ltac split_ands :=
  repeat match goal with
         | H : _ && _ = true |- _ => apply andb_true_iff in H; destruct H
         end.
(** [open H]: unfold both traversals at the node, H : ao .. = true becomes one fact per child *)
Ltac open H := unfao H; split_ands; unfren.

(** [congr] proves [P_x (C ..)] (given the [P] of the children of [C] as hypotheses) for a
    node whose children are all traversed in the node's own environment: after [open], each
    child's equation is its induction hypothesis, in the same three environments ([child]).  A
    leaf is left as it is by every traversal ([reflexivity]). *)
Local Ltac child :=
  first [ eapply map_lift; eassumption
        | eapply opt_lift; eassumption
        | match goal with IH : _ |- _ => eapply IH; eassumption end ].
Local Ltac congr := intros; intros env e0 e1 HW Hao; first [ reflexivity | open Hao; f_equal; child ].

(** the nodes at which an identifier is resolved or the environment changes *)
Lemma c_EIdent x : Pexpr (EIdent x).
Proof. intros env e0 e1 HW H. open H. f_equal. now apply W_occ. Qed.

Lemma c_FBody ps va vt rt gen attrs body :
  Forall Pparam ps -> OptP Pty vt -> OptP Pty rt -> OptP Pty gen -> Pblock body ->
  Pfbody (FBody ps va vt rt gen attrs body).
Proof.
  intros Fp Hvt Hrt Hgen Hb ws env e0 e1 HW H. open H.
  pose proof (W_self ws _ _ _ HW) as HW0.
  rewrite (params_lift ps Fp _ _ _ HW _ _ _ HW0) by assumption.
  rewrite ren_params_names, (Hb _ _ _ (W_bind_all (map param_name ps) _ _ _ HW0)) by assumption.
  f_equal; child.
Qed.

Lemma c_SFunction base fields method f : Pfbody f -> Pstmt (SFunction base fields method f).
Proof.
  intros Hf env e0 e1 HW H. open H. f_equal; [now apply W_occ | now apply Hf].
Qed.

Lemma c_SGenericFor vars es b : Forall Pparam vars -> Forall Pexpr es -> Pblock b -> Pstmt (SGenericFor vars es b).
Proof.
  intros Fp Fe Hb env e0 e1 HW H. open H.
  rewrite (params_lift vars Fp _ _ _ HW _ _ _ HW) by assumption.
  rewrite ren_params_names, (Hb _ _ _ (W_bind_all (map param_name vars) _ _ _ HW)) by assumption.
  f_equal; child.
Qed.

Lemma c_SLocal c vars vals : Forall Pparam vars -> Forall Pexpr vals -> Pstmt (SLocal c vars vals).
Proof.
  intros Fp Fe env e0 e1 HW H. open H.
  rewrite (params_lift vars Fp _ _ _ HW _ _ _ HW) by assumption. f_equal; child.
Qed.

Lemma c_SLocalFunction x f : Pfbody f -> Pstmt (SLocalFunction x f).
Proof.
  intros Hf env e0 e1 HW H. open H.
  now rewrite (W_cp _ _ _ x HW), (Hf _ _ _ _ (W_bind _ _ _ x HW) H).
Qed.

Lemma c_SNumericFor var a b step body :
  Pparam var -> Pexpr a -> Pexpr b -> OptP Pexpr step -> Pblock body -> Pstmt (SNumericFor var a b step body).
Proof.
  intros Hv Ha Hb Hs Hbody env e0 e1 HW H. destruct var as [x t]. open H.
  rewrite (W_cp _ _ _ x HW), (Hbody _ _ _ (W_bind _ _ _ x HW)) by assumption.
  f_equal; [f_equal|..]; child.
Qed.

Lemma c_SRepeat b c : Pblock b -> Pexpr c -> Pstmt (SRepeat b c).
Proof.
  intros Hb Hc env e0 e1 HW H. rewrite ao_repeat in H. apply andb_true_iff in H as [H1 H2].
  rewrite !ren_repeat, (Hb _ _ _ HW H1), (Hc _ _ _ (block_env_W b _ _ _ HW) H2). reflexivity.
Qed.

Lemma c_Block ss last : Forall Pstmt ss -> OptP Plast last -> Pblock (Block ss last).
Proof.
  intros F Hl env e0 e1 HW H. open H.
  rewrite (seq_lift ss F _ _ _ HW) by assumption.
  now rewrite (opt_lift _ _ _ Hl _ _ _ (seq_env_W ss _ _ _ HW)).
Qed.

Lemma c_Param x t : OptP Pty t -> Pparam (Param x t).
Proof. intros Ht. exact Ht. Qed.

Lemma main_block : forall b, Pblock b.
Proof.
  apply (ind_block Pty Pexpr Piseg Pebranch Pargs Ptentry Pfbody Pparam Pstmt Psbranch Pblock Plast);
    first [ exact c_EIdent | exact c_FBody | exact c_Param | exact c_SFunction | exact c_SGenericFor
          | exact c_SLocal | exact c_SLocalFunction | exact c_SNumericFor | exact c_SRepeat | exact c_Block
          | congr ].
Qed.

Theorem nameless_after_ren : forall b,
  I [] -> ao_block pick p [] b = true -> nameless (ren_block pick [] b) = nameless b.
Proof. intros b HI H. exact (main_block b [] [] [] (conj HI R_nil) H). Qed.
End Main.

(** Renaming the binders of a program in ANY capture-free way does not change its nameless form. *)
Theorem nameless_rename_invariant : forall (pick : renv -> name -> name) (b : block),
  rename_ok pick b = true -> nameless (ren_block pick [] b) = nameless b.
Proof.
  intros pick b H. now apply (nameless_after_ren pick occ_ok (fun _ => True)).
Qed.
