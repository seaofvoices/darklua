(** The semantic invariant [inv] of the worker model: every finished item that no unreported
    change touches is [good], i.e. its status, registered dependencies and output file are
    those of [xform] on the current files.  Its preservation by every event except [Process]
    (which is in [Proof/WorkerProcess.v]). *)
From Coq Require Import Arith PeanoNat Lia.
From DL Require Import Lib.Bytes Model.WorkerFs Model.Worker Proof.WorkerBasics Proof.WorkerInv.
Open Scope N_scope.

Lemma drop_In p q l : In q (drop p l) <-> In q l /\ q <> p.
Proof. unfold drop. rewrite filter_In, negb_true_iff, path_eqb_neq. tauto. Qed.

Lemma covered_spec l p : covered l p = true <-> exists r, In r l /\ starts_with r p = true.
Proof. unfold covered. apply existsb_exists. Qed.

Lemma covered_false l p : covered l p = false <-> forall r, In r l -> starts_with r p = false.
Proof.
  rewrite <- not_true_iff_false, covered_spec. split.
  - intros H r Hr. apply not_true_iff_false. intros Hs. apply H. eauto.
  - intros H [r [Hr Hs]]. rewrite (H r Hr) in Hs. discriminate.
Qed.

Lemma covered_cons r l p : covered (r :: l) p = false <-> starts_with r p = false /\ covered l p = false.
Proof. apply orb_false_iff. Qed.

Lemma covered_undrop r l p :
  covered (drop r l) p = false -> starts_with r p = false -> covered l p = false.
Proof.
  rewrite !covered_false. intros H Hr x Hx.
  destruct (path_eq_dec x r) as [->|Hne]; [exact Hr|]. apply H, drop_In. auto.
Qed.

Section Step.
  Variable cfg : Type.
  Variable hash : cfg -> N.
  Variable xform : cfg -> path -> content -> fs -> option content * list path.
  Variable inp outp : path.

  Hypothesis io_disjoint1 : starts_with inp outp = false.
  Hypothesis io_disjoint2 : starts_with outp inp = false.
  (** a successful transformation only depends on the source text and the files it registered *)
  Hypothesis xform_frame : forall c q t f f',
      fst (xform c q t f) <> None ->
      (forall d, In d (snd (xform c q t f)) -> fs_get f' d = fs_get f d) ->
      xform c q t f' = xform c q t f.
  (** the dependencies registered by a successful transformation are files that were read,
      outside the output folder *)
  Hypothesis deps_exist : forall c q t f d,
      fst (xform c q t f) <> None -> In d (snd (xform c q t f)) -> fs_get f d <> None.
  Hypothesis deps_outside : forall c q t f d,
      fst (xform c q t f) <> None -> In d (snd (xform c q t f)) -> starts_with outp d = false.

  Notation out_of := (out_of inp outp).
  Notation is_source := (is_source inp).

  (** the files before the first event, and every path that is ever a user file *)
  Variable f0 : fs.
  Variable E : list path.
  Hypothesis E_nonest : forall a b, In a E -> In b E -> starts_with a b = true -> a = b.

  Notation wf := (wf inp outp E).

  Definition good (c : cfg) (f : fs) (it : item) : Prop :=
    exists txt o, fs_get f (i_src it) = Some txt /\
      fst (xform c (i_src it) txt f) = Some o /\
      (forall x, In x (i_deps it) <-> In x (snd (xform c (i_src it) txt f))) /\
      i_st it = DoneOk /\ fs_get f (i_out it) = Some o.

  Definition clean_item (d : dirty) (it : item) : Prop :=
    ~ In (i_src it) (dC d) /\ covered (dR d) (i_src it) = false /\
    forall x, In x (i_deps it) -> ~ In x (dC d).

  (** [c0]: the configuration the finished items were made with; [d]: the changes not yet
      reported; [u]: the user's files, which the worker's files extend under the output folder *)
  Record inv (c0 : cfg) (d : dirty) (u : fs) (w : world cfg) : Prop := mkInv {
    inv_wf : wf (w_tree w);
    inv_hash : forall i it, get_slot (slots (w_tree w)) i = Some it -> is_done (i_st it) = true ->
                            last_hash (w_tree w) = Some (hash c0);
    inv_good : forall i it, get_slot (slots (w_tree w)) i = Some it -> is_done (i_st it) = true ->
                            clean_item d it -> good c0 (w_fs w) it;
    inv_exists : forall i it, get_slot (slots (w_tree w)) i = Some it ->
                              covered (dR d) (i_src it) = false -> fs_get (w_fs w) (i_src it) <> None;
    inv_hasitem : forall q, is_source q = true -> fs_get (w_fs w) q <> None -> ~ In q (dN d) ->
                            node_of (w_tree w) q <> None;
    inv_out : forall p, starts_with outp p = true ->
                        (exists i it, get_slot (slots (w_tree w)) i = Some it /\ i_out it = p)
                        \/ In p (rmf (w_tree w)) \/ fs_get (w_fs w) p = fs_get f0 p;
    inv_user : forall p, starts_with outp p = false -> fs_get (w_fs w) p = fs_get u p;
    inv_ufs_E : forall p, fs_get u p <> None -> In p E;
    inv_ufs_out : forall p, starts_with outp p = true -> fs_get u p = fs_get f0 p
  }.

  Arguments inv_wf {c0 d u w}.
  Arguments inv_hash {c0 d u w}.
  Arguments inv_good {c0 d u w}.
  Arguments inv_exists {c0 d u w}.
  Arguments inv_hasitem {c0 d u w}.
  Arguments inv_out {c0 d u w}.
  Arguments inv_user {c0 d u w}.
  Arguments inv_ufs_E {c0 d u w}.
  Arguments inv_ufs_out {c0 d u w}.

  Lemma good_frame c f f' it :
    good c f it ->
    fs_get f' (i_src it) = fs_get f (i_src it) ->
    (forall x, In x (i_deps it) -> fs_get f' x = fs_get f x) ->
    fs_get f' (i_out it) = fs_get f (i_out it) ->
    good c f' it.
  Proof.
    intros [txt [o [Hs [Hok [Hd [Hst Ho]]]]]] Hsrc Hdeps Hout. exists txt, o.
    assert (Hx : xform c (i_src it) txt f' = xform c (i_src it) txt f).
    { apply xform_frame; [congruence|]. intros x Hx. apply Hdeps. apply Hd. exact Hx. }
    rewrite Hx, Hsrc, Hout. auto.
  Qed.

  Lemma good_deps_outside c f it x : good c f it -> In x (i_deps it) -> starts_with outp x = false.
  Proof.
    intros [txt [o [_ [Hok [Hdeps _]]]]] Hx. apply Hdeps in Hx. eapply deps_outside; [|exact Hx]. congruence.
  Qed.

  Lemma touches_out_false p : touches_out outp p = false ->
                              starts_with outp p = false /\ starts_with p outp = false.
  Proof. unfold touches_out. intros H. apply orb_false_iff in H. exact H. Qed.

  Lemma under_out_not_under dd p :
    touches_out outp dd = false -> starts_with outp p = true -> starts_with dd p = false.
  Proof.
    intros H Ho. apply touches_out_false in H as [H1 H2].
    destruct (starts_with dd p) eqn:Ed; [|reflexivity].
    destruct (prefixes_comparable _ _ _ Ho Ed); congruence.
  Qed.

  (** The user's events: the paths selected by [hit] get the content [v], in the user's files
      and in the worker's; nothing under the output folder is hit.  An item stays good because
      neither its source nor a dependency is hit: they are existing files, so a hit one was
      reported as changed. *)

  Lemma inv_fs_change c0 d d' u u' w f' (hit : path -> bool) (v : option content) :
    inv c0 d u w ->
    (forall q, fs_get f' q = if hit q then v else fs_get (w_fs w) q) ->
    (forall q, fs_get u' q = if hit q then v else fs_get u q) ->
    (forall q, starts_with outp q = true -> hit q = false) ->
    (forall q, hit q = true -> v <> None -> In q E) ->
    (forall j it, get_slot (slots (w_tree w)) j = Some it -> clean_item d' it ->
        clean_item d it /\
        forall x, x = i_src it \/ In x (i_deps it) -> hit x = true -> fs_get u x = None) ->
    (forall j it, get_slot (slots (w_tree w)) j = Some it -> covered (dR d') (i_src it) = false ->
        covered (dR d) (i_src it) = false /\ (hit (i_src it) = true -> v <> None)) ->
    (forall q, is_source q = true -> fs_get u' q <> None -> ~ In q (dN d') ->
        ~ In q (dN d) /\ fs_get u q <> None) ->
    inv c0 d' u' (mkWorld f' (w_cfg w) (w_tree w)).
  Proof.
    intros I Hf Hu Hout HE Hclean Hcov Hnew. pose proof (inv_wf I) as W.
    assert (Hkeep : forall q, starts_with outp q = true -> fs_get f' q = fs_get (w_fs w) q)
      by (intros q Hq; rewrite Hf, (Hout q Hq); reflexivity).
    constructor; cbn [w_tree w_fs].
    - exact W.
    - apply (inv_hash I).
    - intros i it Hi Hd Hc. destruct (Hclean i it Hi Hc) as [Hc0 Hhit].
      pose proof (inv_good I i it Hi Hd Hc0) as G.
      assert (Hno : forall x, x = i_src it \/ In x (i_deps it) -> hit x = false).
      { intros x Hx. destruct (hit x) eqn:Eh; [|reflexivity]. exfalso.
        assert (Hxo : starts_with outp x = false).
        { destruct (starts_with outp x) eqn:Eo; [|reflexivity]. rewrite (Hout x Eo) in Eh. discriminate. }
        pose proof (Hhit x Hx Eh) as Hnone. rewrite <- (inv_user I x Hxo) in Hnone.
        destruct G as [txt [o [Hs [Hok [Hdeps _]]]]]. destruct Hx as [->|Hx]; [congruence|].
        apply Hdeps, deps_exist in Hx; [contradiction|congruence]. }
      apply (good_frame _ (w_fs w)); [exact G| | |].
      + rewrite Hf, Hno; auto.
      + intros x Hx. rewrite Hf, Hno; auto.
      + apply Hkeep. eapply item_out_under; eassumption.
    - intros i it Hi Hc. destruct (Hcov i it Hi Hc) as [Hc0 Hv]. rewrite Hf.
      destruct (hit (i_src it)); [auto|]. apply (inv_exists I i it Hi Hc0).
    - intros q Hq Hex Hn.
      assert (Hqo : starts_with outp q = false) by (eapply source_not_out; eassumption).
      assert (Heq : fs_get f' q = fs_get u' q) by (rewrite Hf, Hu, (inv_user I q Hqo); reflexivity).
      rewrite Heq in Hex. destruct (Hnew q Hq Hex Hn) as [Hn0 Hex0].
      apply (inv_hasitem I q Hq); [rewrite (inv_user I q Hqo); exact Hex0|exact Hn0].
    - intros p Hp. rewrite (Hkeep p Hp). apply (inv_out I p Hp).
    - intros p Hp. rewrite Hf, Hu, (inv_user I p Hp). reflexivity.
    - intros p. rewrite Hu. destruct (hit p) eqn:Eh; [intros Hv; apply HE; assumption|apply (inv_ufs_E I)].
    - intros p Hp. rewrite Hu, (Hout p Hp). apply (inv_ufs_out I p Hp).
  Qed.

  Lemma clean_item_reported p d ns rs it :
    incl (dR d) rs -> clean_item (mkDirty (p :: dC d) ns rs) it ->
    clean_item d it /\ forall x, x = i_src it \/ In x (i_deps it) -> path_eqb p x = true -> False.
  Proof.
    intros HR [Hc1 [Hc2 Hc3]]. cbn [dC dR] in *. split.
    - split; [intros H; apply Hc1; right; exact H|]. split.
      + rewrite covered_false in *. auto.
      + intros x Hx H. apply (Hc3 x Hx). right. exact H.
    - intros x Hx Hh. apply path_eqb_eq in Hh. subst x.
      destruct Hx as [->|Hx]; [apply Hc1|apply (Hc3 _ Hx)]; left; reflexivity.
  Qed.

  Lemma step_FsWrite c0 d u w p c :
    inv c0 d u w -> touches_out outp p = false -> In p E ->
    inv c0 (track cfg inp u d (FsWrite p c)) (fs_write u p c)
        (mkWorld (fs_write (w_fs w) p c) (w_cfg w) (w_tree w)).
  Proof.
    intros I Ht HE. apply touches_out_false in Ht as [Hpo _].
    apply inv_fs_change with (d := d) (u := u) (hit := path_eqb p) (v := Some c); try assumption.
    - intros q. apply fs_get_write.
    - intros q. apply fs_get_write.
    - intros q Hq. apply path_eqb_neq. intros ->. congruence.
    - intros q Hq _. apply path_eqb_eq in Hq. subst q. exact HE.
    - intros j it Hj Hc. unfold track in Hc. destruct (fs_is_file u p) eqn:Ef.
      + (* the file existed: [p] is reported as changed *)
        destruct (clean_item_reported p d _ _ it (incl_refl _) Hc) as [Hc0 Hne].
        split; [exact Hc0|]. intros x Hx Hh. destruct (Hne x Hx Hh).
      + split; [destruct (is_source p); exact Hc|].
        intros x _ Hh. apply path_eqb_eq in Hh. subst x.
        unfold fs_is_file in Ef. destruct (fs_get u p); [discriminate|reflexivity].
    - intros j it Hj Hc. split; [|intros _; discriminate].
      unfold track in Hc. destruct (fs_is_file u p); [exact Hc|destruct (is_source p); exact Hc].
    - intros q Hq Hex Hn. rewrite fs_get_write in Hex. unfold track, fs_is_file in Hn.
      destruct (path_eqb p q) eqn:Ep.
      + apply path_eqb_eq in Ep. subst q. destruct (fs_get u p); [split; [exact Hn|discriminate]|].
        rewrite Hq in Hn. exfalso. apply Hn. left. reflexivity.
      + split; [|exact Hex]. intros Hin. apply Hn.
        destruct (fs_get u p); [exact Hin|destruct (is_source p); [right|]; exact Hin].
  Qed.

  Lemma step_FsRemove c0 d u w p :
    inv c0 d u w -> touches_out outp p = false ->
    inv c0 (track cfg inp u d (FsRemove p)) (fs_del u p)
        (mkWorld (fs_del (w_fs w) p) (w_cfg w) (w_tree w)).
  Proof.
    intros I Ht. apply touches_out_false in Ht as [Hpo _].
    apply inv_fs_change with (d := d) (u := u) (hit := path_eqb p) (v := None); try assumption.
    - intros q. apply fs_get_del.
    - intros q. apply fs_get_del.
    - intros q Hq. apply path_eqb_neq. intros ->. congruence.
    - intros q _ Hv. congruence.
    - intros j it Hj Hc. destruct (clean_item_reported p d _ _ it (incl_tl _ (incl_refl _)) Hc) as [Hc0 Hne].
      split; [exact Hc0|]. intros x Hx Hh. destruct (Hne x Hx Hh).
    - intros j it Hj Hc. cbn [track dR] in Hc. apply covered_cons in Hc as [Hc1 Hc2].
      split; [exact Hc2|]. intros Hh. apply path_eqb_eq in Hh. rewrite <- Hh, starts_with_refl in Hc1. discriminate.
    - intros q Hq Hex Hn. rewrite fs_get_del in Hex. destruct (path_eqb p q); [congruence|auto].
  Qed.

  Lemma step_FsRemoveDir c0 d u w dd :
    inv c0 d u w -> touches_out outp dd = false ->
    dir_event_ok cfg (w_tree w) (FsRemoveDir dd) = true ->
    inv c0 (track cfg inp u d (FsRemoveDir dd)) (fs_del_under u dd)
        (mkWorld (fs_del_under (w_fs w) dd) (w_cfg w) (w_tree w)).
  Proof.
    intros I Ht Hok.
    apply inv_fs_change with (d := d) (u := u) (hit := starts_with dd) (v := None); try assumption.
    - intros q. apply fs_get_del_under.
    - intros q. apply fs_get_del_under.
    - intros q Hq. eapply under_out_not_under; eassumption.
    - intros q _ Hv. congruence.
    - intros j it Hj [Hc1 [Hc2 Hc3]]. cbn [track dC dR] in *. apply covered_cons in Hc2 as [Hc2a Hc2].
      split; [exact (conj Hc1 (conj Hc2 Hc3))|]. intros x [->|Hx] Hh; exfalso; [congruence|].
      (* no registered dependency is below the directory *)
      cbn [dir_event_ok] in Hok. rewrite forallb_forall in Hok.
      assert (Hin : In it (all_items (w_tree w))) by (apply all_items_spec; eauto).
      specialize (Hok _ Hin). rewrite forallb_forall in Hok. specialize (Hok _ Hx).
      rewrite Hh in Hok. discriminate.
    - intros j it Hj Hc. cbn [track dR] in Hc. apply covered_cons in Hc as [Hc1 Hc2].
      split; [exact Hc2|congruence].
    - intros q Hq Hex Hn. rewrite fs_get_del_under in Hex. destruct (starts_with dd q); [congruence|auto].
  Qed.

  (** [WorkerInv] says what the tree is after each operation; the semantic part of every
      change of the tree goes through this lemma. *)

  Lemma inv_tree_change c0 d d' u w t' :
    inv c0 d u w -> wf t' ->
    last_hash t' = last_hash (w_tree w) ->
    (forall j it, get_slot (slots t') j = Some it -> is_done (i_st it) = true ->
                  get_slot (slots (w_tree w)) j = Some it) ->
    (forall j it, get_slot (slots t') j = Some it -> is_done (i_st it) = true ->
                  clean_item d' it -> clean_item d it) ->
    (forall j it, get_slot (slots t') j = Some it -> covered (dR d') (i_src it) = false ->
                  fs_get (w_fs w) (i_src it) <> None) ->
    (forall q, is_source q = true -> fs_get (w_fs w) q <> None -> ~ In q (dN d') -> node_of t' q <> None) ->
    (forall j it, get_slot (slots (w_tree w)) j = Some it ->
                  (exists k it', get_slot (slots t') k = Some it' /\ i_out it' = i_out it)
                  \/ In (i_out it) (rmf t')) ->
    incl (rmf (w_tree w)) (rmf t') ->
    inv c0 d' u (mkWorld (w_fs w) (w_cfg w) t').
  Proof.
    intros I W' Hh H1 H2 H3 H4 H5 H6. constructor; cbn [w_tree w_fs].
    - exact W'.
    - intros i it Hi Hd. rewrite Hh. eapply (inv_hash I); [apply H1; eassumption|exact Hd].
    - intros i it Hi Hd Hc. eapply (inv_good I); [apply H1; eassumption|exact Hd|eapply H2; eassumption].
    - exact H3.
    - exact H4.
    - intros p Hp. destruct (inv_out I p Hp) as [[i [it [Hi Ho]]]|[Hr|Hf]].
      + destruct (H5 _ _ Hi) as [[k [it' [Hk Ho']]]|Hr].
        * left. exists k, it'. split; [exact Hk|congruence].
        * right. left. congruence.
      + right. left. apply H6. exact Hr.
      + right. right. exact Hf.
    - apply (inv_user I).
    - apply (inv_ufs_E I).
    - apply (inv_ufs_out I).
  Qed.

  Lemma inv_dirt c0 d d' u w :
    inv c0 d u w ->
    (forall j it, get_slot (slots (w_tree w)) j = Some it -> is_done (i_st it) = true ->
                  clean_item d' it -> clean_item d it) ->
    (forall j it, get_slot (slots (w_tree w)) j = Some it -> covered (dR d') (i_src it) = false ->
                  covered (dR d) (i_src it) = false) ->
    (forall q, is_source q = true -> fs_get (w_fs w) q <> None -> ~ In q (dN d') ->
               ~ In q (dN d) \/ node_of (w_tree w) q <> None) ->
    inv c0 d' u w.
  Proof.
    intros I H2 H3 H4. destruct w as [f cf t]; cbn [w_tree w_fs] in *.
    apply (inv_tree_change c0 d d' u (mkWorld f cf t) t I (inv_wf I) eq_refl); cbn [w_tree w_fs].
    - auto.
    - exact H2.
    - intros j it Hj Hc. apply (inv_exists I j it Hj), (H3 j it Hj Hc).
    - intros q Hq Hex Hn. destruct (H4 q Hq Hex Hn) as [H|H]; [apply (inv_hasitem I q Hq Hex H)|exact H].
    - intros j it Hj. left. eauto.
    - apply incl_refl.
  Qed.

  Lemma clean_item_undrop d d' p it :
    dC d' = drop p (dC d) ->
    (covered (dR d') (i_src it) = false -> covered (dR d) (i_src it) = false) ->
    i_src it <> p -> ~ In p (i_deps it) -> clean_item d' it -> clean_item d it.
  Proof.
    intros HC HR Hs Hd [Hc1 [Hc2 Hc3]]. rewrite HC in Hc1, Hc3. split; [|split; [auto|]].
    - intros Hin. apply Hc1, drop_In. auto.
    - intros x Hx Hin. apply (Hc3 x Hx), drop_In. split; [exact Hin|]. intros ->. contradiction.
  Qed.

  Lemma inv_reported c0 d u w p ns rs :
    inv c0 d u w ->
    (forall j it, get_slot (slots (w_tree w)) j = Some it -> is_done (i_st it) = true ->
                  i_src it <> p /\ ~ In p (i_deps it)) ->
    (forall j it, get_slot (slots (w_tree w)) j = Some it -> covered rs (i_src it) = false ->
                  covered (dR d) (i_src it) = false) ->
    (forall q, In q (dN d) -> In q ns \/ node_of (w_tree w) q <> None) ->
    inv c0 (mkDirty (drop p (dC d)) ns rs) u w.
  Proof.
    intros I Hp Hrs Hns. apply inv_dirt with (d := d); [exact I| |exact Hrs|].
    - intros j it Hj Hd. destruct (Hp j it Hj Hd). apply clean_item_undrop with (p := p); auto.
      apply (Hrs j it Hj).
    - intros q _ _ Hn. destruct (in_dec path_eq_dec q (dN d)) as [Hin|Hout]; [|left; exact Hout].
      destruct (Hns q Hin) as [H|H]; [destruct (Hn H)|right; exact H].
  Qed.

  Lemma inv_restart c0 d u w t' :
    inv c0 d u w -> wf t' -> rmf t' = rmf (w_tree w) -> last_hash t' = last_hash (w_tree w) ->
    restarted (w_tree w) t' ->
    inv c0 d u (mkWorld (w_fs w) (w_cfg w) t').
  Proof.
    intros I W' Hr Hh Hg. apply inv_tree_change with (d := d); try assumption.
    - intros j it' Hj Hd. destruct (restarted_back _ _ _ _ Hg Hj) as [b [it [Hs ->]]].
      apply reset_if_done in Hd as [-> _]. exact Hs.
    - auto.
    - intros j it' Hj Hc. destruct (restarted_back _ _ _ _ Hg Hj) as [b [it [Hs ->]]].
      rewrite reset_if_src in *. apply (inv_exists I j it Hs Hc).
    - intros q Hq Hex Hn. destruct (node_of_ne_none _ _ (inv_hasitem I q Hq Hex Hn)) as [i [it [Hi Hs]]].
      destruct (restarted_fwd _ _ _ _ Hg Hi) as [b Hb].
      eapply node_of_exists; [exact Hb|rewrite reset_if_src; exact Hs].
    - intros j it Hj. left. destruct (restarted_fwd _ _ _ _ Hg Hj) as [b Hb].
      exists j, (reset_if b it). split; [exact Hb|apply reset_if_out].
    - rewrite Hr. apply incl_refl.
  Qed.

  Lemma inv_insert c0 d u w p :
    inv c0 d u w -> node_of (w_tree w) p = None -> is_source p = true -> fs_get u p <> None ->
    let t' := insert_source (w_tree w) p (out_of p) in
    inv c0 d u (mkWorld (w_fs w) (w_cfg w) t') /\ node_of t' p <> None /\
    (forall q, node_of (w_tree w) q <> None -> node_of t' q <> None) /\
    (forall j it, get_slot (slots t') j = Some it -> is_done (i_st it) = true ->
                  get_slot (slots (w_tree w)) j = Some it).
  Proof.
    intros I Hn Hs Hu t'. set (t := w_tree w) in *.
    assert (Hfp : fs_get (w_fs w) p <> None).
    { rewrite (inv_user I); [exact Hu|]. eapply source_not_out; eassumption. }
    destruct (insert_source_ok inp outp E t p (inv_wf I) Hn Hs (inv_ufs_E I p Hu)) as [W' [Hr [Hh [k [Hk Hg]]]]].
    fold t' in W', Hr, Hh, Hg.
    assert (Hold : forall j it, get_slot (slots t) j = Some it -> get_slot (slots t') j = Some it).
    { intros j it Hj. rewrite Hg. destruct (Nat.eqb_spec k j) as [<-|_]; [congruence|exact Hj]. }
    assert (Hdone : forall j it, get_slot (slots t') j = Some it -> is_done (i_st it) = true ->
                                 get_slot (slots t) j = Some it).
    { intros j it Hj Hd. rewrite Hg in Hj. destruct (Nat.eqb k j); [injection Hj as <-; discriminate|exact Hj]. }
    assert (Hnodes : forall q, node_of t q <> None -> node_of t' q <> None).
    { intros q Hq. destruct (node_of_ne_none _ _ Hq) as [i [it [Hi Hsq]]].
      eapply node_of_exists; [apply Hold; exact Hi|exact Hsq]. }
    split; [|split; [|split; [exact Hnodes|exact Hdone]]].
    - apply inv_tree_change with (d := d); try assumption.
      + auto.
      + intros j it Hj Hc. rewrite Hg in Hj.
        destruct (Nat.eqb k j); [injection Hj as <-; exact Hfp|apply (inv_exists I j it Hj Hc)].
      + intros q Hq Hex Hnq. apply Hnodes, (inv_hasitem I q Hq Hex Hnq).
      + intros j it Hj. left. exists j, it. split; [apply Hold, Hj|reflexivity].
      + rewrite Hr. apply incl_refl.
    - eapply node_of_exists with (i := k); [rewrite Hg, Nat.eqb_refl; reflexivity|reflexivity].
  Qed.

  (** the items below [p] removed: the sources below [p] that still exist become unreported *)
  Lemma inv_remove c0 d u w p tn :
    inv c0 d u w -> removed_under inp outp E p (w_tree w) tn ->
    inv c0 (mkDirty (dC d) (filter (fun q => starts_with p q) (fs_collect u inp) ++ dN d) (dR d)) u
        (mkWorld (w_fs w) (w_cfg w) tn).
  Proof.
    intros I [Wn [Hh [Hr [HB HF]]]]. apply inv_tree_change with (d := d); try assumption.
    - intros j it Hj _. apply (HB j it Hj).
    - auto.
    - intros j it Hj Hc. destruct (HB j it Hj) as [Hs _]. apply (inv_exists I j it Hs Hc).
    - intros q Hq Hex Hn. cbn [dN] in Hn.
      assert (Hn2 : ~ In q (dN d)) by (intros H; apply Hn, in_or_app; right; exact H).
      destruct (node_of_ne_none _ _ (inv_hasitem I q Hq Hex Hn2)) as [i [it [Hi Hs]]].
      specialize (HF i it Hi). rewrite Hs in HF. destruct (starts_with p q) eqn:Hsw.
      + exfalso. apply Hn, in_or_app. left. apply filter_In. split; [|exact Hsw].
        apply fs_collect_source. split; [|exact Hq].
        rewrite <- (inv_user I); [exact Hex|eapply source_not_out; eassumption].
      + eapply node_of_exists; [exact HF|exact Hs].
    - intros j it Hj. specialize (HF j it Hj). destruct (starts_with p (i_src it)); [right; exact HF|].
      left. eauto.
  Qed.

  Lemma step_SrcChanged c0 d u w p :
    inv c0 d u w ->
    exists t', source_changed (w_tree w) p = Ok t' /\
               inv c0 (track cfg inp u d (SrcChanged p)) u (mkWorld (w_fs w) (w_cfg w) t').
  Proof.
    intros I.
    destruct (source_changed_ok inp outp E (w_tree w) p (inv_wf I)) as [t' [R [W' [Hr [Hh [Hg [Hsrc Hdep]]]]]]].
    exists t'. split; [exact R|]. apply inv_reported; [apply inv_restart; assumption| |auto|auto].
    intros j it Hj Hd. split; [|apply (Hdep j it Hj)].
    intros Heq. rewrite (Hsrc j it Hj Heq) in Hd. discriminate.
  Qed.

  Lemma step_RemoveSrc c0 d u w p :
    inv c0 d u w -> dir_event_ok cfg (w_tree w) (RemoveSrc p) = true ->
    exists t', remove_source (w_tree w) p = Ok t' /\
               inv c0 (track cfg inp u d (RemoveSrc p)) u (mkWorld (w_fs w) (w_cfg w) t').
  Proof.
    intros I Hok. set (t := w_tree w) in *.
    destruct (remove_source_ok inp outp io_disjoint1 io_disjoint2 E E_nonest t p (inv_wf I))
      as [tn [-> Hrem]].
    { intros En j it Hj Hsw. cbn [dir_event_ok] in Hok. fold t in Hok. rewrite En, forallb_forall in Hok.
      assert (Hin : In it (all_items t)) by (apply all_items_spec; eauto).
      specialize (Hok _ Hin). rewrite Hsw in Hok. cbn [negb orb] in Hok.
      destruct (i_deps it); [reflexivity|discriminate]. }
    set (d1 := mkDirty (dC d) (filter (fun q => starts_with p q) (fs_collect u inp) ++ dN d) (dR d)).
    assert (I1 : inv c0 d1 u (mkWorld (w_fs w) (w_cfg w) tn)) by (apply inv_remove; assumption).
    destruct Hrem as [Wn [_ [_ [HB _]]]].
    destruct (update_ext_ok inp outp E tn p Wn) as [t' [R [W' [Hr' [Hh' [Hg Hdep]]]]]].
    exists t'. split; [exact R|].
    assert (Hsw : forall j it', get_slot (slots t') j = Some it' -> starts_with p (i_src it') = false).
    { intros j it' Hj. destruct (restarted_back _ _ _ _ Hg Hj) as [b [it [Hn ->]]].
      rewrite reset_if_src. apply (HB j it Hn). }
    apply (inv_reported c0 d1); [apply (inv_restart _ _ _ _ t' I1 W' Hr' Hh' Hg)| | |auto]; cbn [w_tree dR d1].
    - intros j it Hj _. split; [|apply (Hdep j it Hj)].
      intros Heq. specialize (Hsw j it Hj). rewrite Heq, starts_with_refl in Hsw. discriminate.
    - intros j it Hj Hc. eapply covered_undrop; [exact Hc|apply (Hsw j it Hj)].
  Qed.

  Lemma step_AddSrc c0 d u w p :
    inv c0 d u w -> fs_is_file u p = true -> is_source p = true ->
    exists t', add_source (w_tree w) p (out_of p) = Ok t' /\
               inv c0 (track cfg inp u d (AddSrc p)) u (mkWorld (w_fs w) (w_cfg w) t').
  Proof.
    intros I Hfile Hsrc. set (t := w_tree w) in *.
    assert (Hup : fs_get u p <> None) by (unfold fs_is_file in Hfile; destruct (fs_get u p); discriminate).
    assert (Hns : forall t2, node_of t2 p <> None ->
                             forall q, In q (dN d) -> In q (drop p (dN d)) \/ node_of t2 q <> None).
    { intros t2 Hnode q Hq. destruct (path_eq_dec q p) as [->|Hne]; [right; exact Hnode|].
      left. apply drop_In. auto. }
    unfold add_source. destruct (update_ext_ok inp outp E t p (inv_wf I)) as [t1 [-> [W1 [Hr1 [Hh1 [Hg1 Hdep1]]]]]].
    pose proof (inv_restart c0 d u w t1 I W1 Hr1 Hh1 Hg1) as I1.
    destruct (node_of t1 p) as [k|] eqn:En.
    - destruct (node_of_some _ _ _ En) as [it1 [Hk Hs1]].
      destruct (restart_work_ok inp outp E t1 k it1 W1 Hk) as [t2 [R2 [W2 [Hr2 [Hh2 Hg2]]]]].
      exists t2. split; [exact R2|].
      apply inv_reported; [apply (inv_restart _ _ _ _ t2 I1 W2 Hr2 Hh2 (restarted_one t1 t2 k it1 Hk Hg2))| |auto|];
        cbn [w_tree].
      + intros j it Hj Hd. rewrite Hg2 in Hj.
        destruct (Nat.eqb_spec k j) as [<-|Hne]; [injection Hj as <-; discriminate|].
        split; [|apply (Hdep1 j it Hj)]. intros Heq. apply Hne, (wf_nodup W1 k j it1 it Hk Hj). congruence.
      + apply Hns. eapply node_of_exists with (i := k); [rewrite Hg2, Nat.eqb_refl; reflexivity|exact Hs1].
    - destruct (inv_insert c0 d u _ p I1 En Hsrc Hup) as [I2 [Hnode [_ Hdone]]].
      eexists. split; [reflexivity|]. apply inv_reported; [exact I2| |auto|apply Hns, Hnode]; cbn [w_tree].
      intros j it Hj Hd. apply Hdone in Hj; [|exact Hd].
      split; [eapply node_of_none; eassumption|apply (Hdep1 j it Hj)].
  Qed.

  Lemma collect_fold_inv c0 d u f cf l : forall t,
    inv c0 d u (mkWorld f cf t) ->
    (forall q, In q l -> is_source q = true /\ fs_get u q <> None) ->
    let t' := fold_left (fun t q => add_source_if_missing t q (out_of q)) l t in
    inv c0 d u (mkWorld f cf t') /\
    (forall q, node_of t q <> None -> node_of t' q <> None) /\
    (forall q, In q l -> node_of t' q <> None).
  Proof.
    induction l as [|q l IH]; intros t I Hl; cbn [fold_left]; [cbn; auto|].
    destruct (Hl q (or_introl eq_refl)) as [Hq1 Hq2].
    assert (H1 : exists t1, add_source_if_missing t q (out_of q) = t1 /\ inv c0 d u (mkWorld f cf t1) /\
                            node_of t1 q <> None /\ forall q', node_of t q' <> None -> node_of t1 q' <> None).
    { unfold add_source_if_missing. destruct (node_of t q) eqn:En.
      - exists t. rewrite En. split; [reflexivity|]. split; [exact I|]. split; [discriminate|auto].
      - destruct (inv_insert c0 d u (mkWorld f cf t) q I En Hq1 Hq2) as [I1 [Hn [Hnodes _]]]. eauto. }
    destruct H1 as [t1 [-> [I1 [Hn1 Hnodes1]]]].
    destruct (IH t1 I1) as [I' [Hnodes Hnode]]; [intros q' H; apply Hl; right; exact H|].
    cbn zeta in *. split; [exact I'|]. split; [auto|].
    intros q' [<-|Hin]; [apply Hnodes, Hn1|apply Hnode, Hin].
  Qed.

  Lemma step_Collect c0 d u w :
    inv c0 d u w ->
    inv c0 (track cfg inp u d (Collect)) u
        (mkWorld (w_fs w) (w_cfg w) (collect_work inp outp (w_tree w) (w_fs w))).
  Proof.
    intros I. destruct w as [f cf t]; cbn [w_tree w_fs w_cfg].
    destruct (collect_fold_inv c0 d u f cf (fs_collect f inp) t I) as [I' [_ Hnode]].
    { intros q Hq. apply fs_collect_source in Hq as [H1 Hs]. split; [exact Hs|].
      rewrite <- (inv_user I); [exact H1|]. eapply source_not_out; eassumption. }
    apply inv_dirt with (d := d); [exact I'|auto|auto|].
    intros q Hq Hex _. right. apply Hnode, fs_collect_source. auto.
  Qed.

  Lemma inv_same_fields c0 d u f cf cf' t t' :
    slots t' = slots t -> ext t' = ext t -> free t' = free t -> rmf t' = rmf t ->
    last_hash t' = last_hash t ->
    inv c0 d u (mkWorld f cf t) -> inv c0 d u (mkWorld f cf' t').
  Proof.
    intros H1 H2 H3 H4 H5 [I1 I2 I3 I4 I5 I6 I7 I8 I9].
    constructor; cbn [w_tree w_fs] in *; unfold node_of in *; rewrite ?H1, ?H4, ?H5; try assumption.
    eapply wf_same_fields; eassumption.
  Qed.

  Lemma step_Snapshot c0 d u w :
    inv c0 d u w ->
    inv c0 d u (mkWorld (w_fs w) (w_cfg w) (snapshot_output_structure outp (w_tree w) (w_fs w))).
  Proof.
    intros I. destruct w as [f cf t]. apply inv_same_fields with (cf := cf) (t := t); try exact I;
      unfold snapshot_output_structure; cbn [w_tree w_fs];
      destruct (snap t); try reflexivity; destruct (fs_is_file f outp && fs_is_dir f outp); reflexivity.
  Qed.

  Lemma step_SetCfg c0 d u w c :
    inv c0 d u w -> inv c0 d u (mkWorld (w_fs w) c (w_tree w)).
  Proof. intros I. destruct w as [f cf t]. apply inv_same_fields with (cf := cf) (t := t); auto. Qed.
End Step.

Arguments inv_wf {cfg hash xform inp outp f0 E c0 d u w}.
Arguments inv_hash {cfg hash xform inp outp f0 E c0 d u w}.
Arguments inv_good {cfg hash xform inp outp f0 E c0 d u w}.
Arguments inv_exists {cfg hash xform inp outp f0 E c0 d u w}.
Arguments inv_hasitem {cfg hash xform inp outp f0 E c0 d u w}.
Arguments inv_out {cfg hash xform inp outp f0 E c0 d u w}.
Arguments inv_user {cfg hash xform inp outp f0 E c0 d u w}.
Arguments inv_ufs_E {cfg hash xform inp outp f0 E c0 d u w}.
Arguments inv_ufs_out {cfg hash xform inp outp f0 E c0 d u w}.
