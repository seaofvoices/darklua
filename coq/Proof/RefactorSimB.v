(** C16, closure-representation independence: [rel2] as an instance of the relational logic of
    Proof/ValueSim.v, and the list/environment facts used by the simulation
    (Proof/RefactorSimC.v). *)
From Coq Require Import ZArith NArith List Bool String Lia.
From DL Require Import Lib.Bytes Lib.F64 Lua.Syntax Lua.Sem Model.Refactor.
From DL Require Import Proof.SemFacts Proof.DefaultRulesSem Proof.RefactorSem Proof.RefactorSimDefs.
From DL Require Import Proof.ValueSim.
Import ListNotations.
Open Scope N_scope.

Definition rel2 {A} (R : A -> A -> Prop) (m1 m2 : M A) : Prop :=
  forall s1 s2, store_rel s1 s2 -> res_rel R (m1 s1) (m2 s2).

Definition oblivious {A} (m : M A) : Prop := rel2 eq m m.

Lemma rel2_logic : sim_logic (@rel2) clos_rel.
Proof. exact (gsim_logic clos_rel true). Qed.

Lemma res_rel_mono {A} (R R' : A -> A -> Prop) r1 r2 :
  (forall a b, R a b -> R' a b) -> res_rel R r1 r2 -> res_rel R' r1 r2.
Proof. intros H. destruct r1, r2; cbn; intuition. Qed.

Lemma rel2_mono {A} (R R' : A -> A -> Prop) m1 m2 :
  (forall a b, R a b -> R' a b) -> rel2 R m1 m2 -> rel2 R' m1 m2.
Proof. intros H K s1 s2 Hs. eapply res_rel_mono; [exact H|]. now apply K. Qed.

Lemma store_rel_refl s : store_rel s s.
Proof.
  unfold store_rel. repeat split; auto.
  induction (closures s) as [|c l IH]; constructor; auto.
  unfold clos_rel. repeat split; auto.
Qed.

Lemma obl_set_cell a v : oblivious (set_cell a v).
Proof. exact (sl_set_cell rel2_logic a v). Qed.

Lemma rel2_new_closure c1 c2 : clos_rel c1 c2 -> rel2 eq (new_closure c1) (new_closure c2).
Proof. exact (sl_new_closure rel2_logic c1 c2). Qed.

Lemma lookup_app l r x :
  lookup (l ++ r) x = match lookup l x with Some a => Some a | None => lookup r x end.
Proof.
  induction l as [|[y a] l IH]; cbn [lookup app]; [reflexivity|].
  destruct (bytes_eqb x y); auto.
Qed.

Lemma in_lookup l x : In x (map fst l) -> lookup l x <> None.
Proof.
  induction l as [|[y a] l IH]; cbn [lookup map fst In]; [tauto|].
  intros [->|H]; [rewrite bytes_eqb_refl; discriminate|].
  destruct (bytes_eqb x y); [discriminate|auto].
Qed.

Lemma env_agree_cons P rho1 rho2 x a :
  env_agree P rho1 rho2 -> env_agree P ((x, a) :: rho1) ((x, a) :: rho2).
Proof. intros H y Hy. cbn [lookup]. rewrite (H y Hy). reflexivity. Qed.

Lemma env_agree_refl P rho : env_agree P rho rho.
Proof. intros y _. reflexivity. Qed.

Lemma env_agree_weaken (P Q : name -> bool) rho1 rho2 :
  (forall x, Q x = true -> P x = true) -> env_agree P rho1 rho2 -> env_agree Q rho1 rho2.
Proof. intros H K x Hx. apply K. auto. Qed.

(** the environment of a call: the parameters shadow the captured environment *)
Lemma env_agree_call c1 c2 rho :
  clos_rel c1 c2 -> map fst rho = param_names (effective_params c1) ->
  env_agree (fun x => ment_block [x] (closure_block c1)) (rev rho ++ c_env c1) (rev rho ++ c_env c2).
Proof.
  intros (_ & _ & _ & H4) Hn x Hx. rewrite !lookup_app.
  destruct (H4 x Hx) as [Hin|Heq].
  - destruct (lookup (rev rho) x) eqn:E; [reflexivity|]. exfalso.
    apply (in_lookup (rev rho) x); [|exact E].
    rewrite map_rev, <- in_rev, Hn. exact Hin.
  - rewrite Heq. reflexivity.
Qed.

Lemma rel2_local_go P vars : forall vs rho1 rho2,
  env_agree P rho1 rho2 -> rel2 (env_agree P) (local_go vars vs rho1) (local_go vars vs rho2).
Proof.
  induction vars as [|p vars IH]; intros vs rho1 rho2 H.
  - rewrite !local_go_nil. now apply (sl_ret rel2_logic).
  - rewrite !local_go_cons. apply (sl_bind_eq rel2_logic); [apply (sl_new_cell rel2_logic)|]. intros a.
    apply IH. now apply env_agree_cons.
Qed.

Definition covers_args (P : name -> bool) (a : args) : Prop := forall x, ment_args [x] a = true -> P x = true.
Definition covers_tentry (P : name -> bool) (t : tentry) : Prop := forall x, ment_tentry [x] t = true -> P x = true.
Definition covers_ebranch (P : name -> bool) (b : ebranch) : Prop := forall x, ment_ebranch [x] b = true -> P x = true.
Definition covers_sbranch (P : name -> bool) (b : sbranch) : Prop := forall x, ment_sbranch [x] b = true -> P x = true.
Definition covers_iseg (P : name -> bool) (b : iseg) : Prop := forall x, ment_iseg [x] b = true -> P x = true.
Definition covers_fbody (P : name -> bool) (f : fbody) : Prop := forall x, ment_fbody [x] f = true -> P x = true.

Lemma covers_Forall {A} (f : name -> A -> bool) (P : name -> bool) l :
  (forall x, existsb (f x) l = true -> P x = true) ->
  Forall (fun e => forall x, f x e = true -> P x = true) l.
Proof.
  intros H. apply Forall_forall. intros e He x Hx. apply H. apply existsb_exists. eauto.
Qed.

Lemma Forall_covers {A} (f : name -> A -> bool) (P : name -> bool) l :
  Forall (fun e => forall x, f x e = true -> P x = true) l ->
  forall x, existsb (f x) l = true -> P x = true.
Proof.
  intros H x Hx. apply existsb_exists in Hx as (e & He & Hx). rewrite Forall_forall in H. eauto.
Qed.

(** one-step equations of [ment_*] ([cbn] does not refold the mutual fixpoint) *)
Section MentEq.
Variable xs : list name.
Lemma ment_field p f : ment_expr xs (EField p f) = ment_expr xs p. Proof. reflexivity. Qed.
Lemma ment_ident x : ment_expr xs (EIdent x) = is_target xs x. Proof. reflexivity. Qed.
Lemma ment_interp segs : ment_expr xs (EInterp segs) = existsb (ment_iseg xs) segs. Proof. reflexivity. Qed.
Lemma ment_index p k : ment_expr xs (EIndex p k) = ment_expr xs p || ment_expr xs k. Proof. reflexivity. Qed.
Lemma ment_call p m a : ment_expr xs (ECall p m a) = ment_expr xs p || ment_args xs a. Proof. reflexivity. Qed.
Lemma ment_function f : ment_expr xs (EFunction f) = ment_fbody xs f. Proof. reflexivity. Qed.
Lemma ment_if bs els : ment_expr xs (EIf bs els) = existsb (ment_ebranch xs) bs || ment_expr xs els. Proof. reflexivity. Qed.
Lemma ment_paren e : ment_expr xs (EParen e) = ment_expr xs e. Proof. reflexivity. Qed.
Lemma ment_table es : ment_expr xs (ETable es) = existsb (ment_tentry xs) es. Proof. reflexivity. Qed.
Lemma ment_unary o e : ment_expr xs (EUnary o e) = ment_expr xs e. Proof. reflexivity. Qed.
Lemma ment_binary o l r : ment_expr xs (EBinary o l r) = ment_expr xs l || ment_expr xs r. Proof. reflexivity. Qed.
Lemma ment_typecast e t : ment_expr xs (ETypeCast e t) = ment_expr xs e || ment_ty xs t. Proof. reflexivity. Qed.
Lemma ment_typeinst e t : ment_expr xs (ETypeInst e t) = ment_expr xs e || existsb (ment_ty xs) t. Proof. reflexivity. Qed.
Lemma ment_iseg_expr e : ment_iseg xs (ISExpr e) = ment_expr xs e. Proof. reflexivity. Qed.
Lemma ment_ebranch_eq c r : ment_ebranch xs (EBranch c r) = ment_expr xs c || ment_expr xs r. Proof. reflexivity. Qed.
Lemma ment_args_tuple es : ment_args xs (ATuple es) = existsb (ment_expr xs) es. Proof. reflexivity. Qed.
Lemma ment_args_table es : ment_args xs (ATable es) = existsb (ment_tentry xs) es. Proof. reflexivity. Qed.
Lemma ment_tfield f v : ment_tentry xs (TField f v) = ment_expr xs v. Proof. reflexivity. Qed.
Lemma ment_tindex k v : ment_tentry xs (TIndex k v) = ment_expr xs k || ment_expr xs v. Proof. reflexivity. Qed.
Lemma ment_tvalue v : ment_tentry xs (TValue v) = ment_expr xs v. Proof. reflexivity. Qed.
Lemma ment_fbody_eq ps v vt rt g at_ body :
  ment_fbody xs (FBody ps v vt rt g at_ body) =
  ment_block xs body || existsb (ment_param xs) ps || optb (ment_ty xs) vt || optb (ment_ty xs) rt.
Proof. reflexivity. Qed.
Lemma ment_assign vars vals : ment_stmt xs (SAssign vars vals) = existsb (ment_expr xs) vars || existsb (ment_expr xs) vals.
Proof. reflexivity. Qed.
Lemma ment_do b : ment_stmt xs (SDo b) = ment_block xs b. Proof. reflexivity. Qed.
Lemma ment_scall c : ment_stmt xs (SCall c) = ment_expr xs c. Proof. reflexivity. Qed.
Lemma ment_compound o var v : ment_stmt xs (SCompound o var v) = ment_expr xs var || ment_expr xs v. Proof. reflexivity. Qed.
Lemma ment_sfunction base fs m f : ment_stmt xs (SFunction base fs m f) = is_target xs base || ment_fbody xs f.
Proof. reflexivity. Qed.
Lemma ment_genfor vars es b :
  ment_stmt xs (SGenericFor vars es b) = existsb (ment_expr xs) es || ment_block xs b || existsb (ment_param xs) vars.
Proof. reflexivity. Qed.
Lemma ment_sif bs els : ment_stmt xs (SIf bs els) = existsb (ment_sbranch xs) bs || optb (ment_block xs) els.
Proof. reflexivity. Qed.
Lemma ment_local k vars vals : ment_stmt xs (SLocal k vars vals) = existsb (ment_expr xs) vals || existsb (ment_param xs) vars.
Proof. reflexivity. Qed.
Lemma ment_localfunction x f : ment_stmt xs (SLocalFunction x f) = ment_fbody xs f. Proof. reflexivity. Qed.
Lemma ment_numfor var a b step body :
  ment_stmt xs (SNumericFor var a b step body) =
  ment_expr xs a || ment_expr xs b || optb (ment_expr xs) step || ment_block xs body || ment_param xs var.
Proof. reflexivity. Qed.
Lemma ment_repeat b c : ment_stmt xs (SRepeat b c) = ment_expr xs c || ment_block xs b. Proof. reflexivity. Qed.
Lemma ment_while c b : ment_stmt xs (SWhile c b) = ment_expr xs c || ment_block xs b. Proof. reflexivity. Qed.
Lemma ment_sbranch_eq c b : ment_sbranch xs (SBranch c b) = ment_expr xs c || ment_block xs b. Proof. reflexivity. Qed.
Lemma ment_block_eq ss last : ment_block xs (Block ss last) = existsb (ment_stmt xs) ss || optb (ment_last xs) last.
Proof. reflexivity. Qed.
Lemma ment_return es : ment_last xs (LReturn es) = existsb (ment_expr xs) es. Proof. reflexivity. Qed.
End MentEq.

Global Hint Rewrite ment_field ment_ident ment_interp ment_index ment_call ment_function ment_if ment_paren
  ment_table ment_unary ment_binary ment_typecast ment_typeinst ment_iseg_expr ment_ebranch_eq
  ment_args_tuple ment_args_table ment_tfield ment_tindex ment_tvalue ment_fbody_eq ment_assign ment_do
  ment_scall ment_compound ment_sfunction ment_genfor ment_sif ment_local ment_localfunction ment_numfor
  ment_repeat ment_while ment_sbranch_eq ment_block_eq ment_return : ment.

Lemma is_target_self x : is_target [x] x = true.
Proof. unfold is_target. cbn [existsb]. now rewrite bytes_eqb_refl. Qed.

(** [cov] proves a goal [covers_x P t] (every name that [t] mentions satisfies [P]) from a
    hypothesis [covers_y P t'] about a term [t'] that has [t] as a child: it unfolds both to
    [forall x, ment_y [x] t' = true -> P x = true], rewrites [ment_y [x] t'] into the
    disjunction over the children (the set [ment]) and finds the disjunct of [t]. *)
Ltac cov_unfold :=
  unfold covers_expr, covers_block, covers_stmt, covers_args, covers_tentry, covers_ebranch,
    covers_sbranch, covers_iseg, covers_fbody in *.

Ltac orb_find Hx :=
  first [ exact Hx
        | apply is_target_self
        | apply orb_true_intro; first [ left; orb_find Hx | right; orb_find Hx ] ].

Ltac cov_hyp Hx :=
  lazymatch type of Hx with
  | (_ || _)%bool = true => apply orb_prop in Hx; destruct Hx as [Hx|Hx]; cov_hyp Hx
  | _ => orb_find Hx
  end.

Ltac cov_close Hx :=
  autorewrite with ment; cbn [existsb optb]; autorewrite with ment;
  autorewrite with ment in Hx; cbn [existsb optb] in Hx; autorewrite with ment in Hx;
  cov_hyp Hx.

Ltac cov :=
  cov_unfold;
  try (apply covers_Forall);
  match goal with
  | H : forall x, _ = true -> ?P x = true |- forall x, _ = true -> ?P x = true =>
    let x := fresh "x" in let Hx := fresh "Hx" in
    intros x Hx; apply H; cov_close Hx
  end.

Lemma clos_rel_same f rho1 rho2 b :
  (forall x, ment_fbody [x] f = true -> lookup rho1 x = lookup rho2 x) ->
  clos_rel (mkClosure f rho1 b) (mkClosure f rho2 b).
Proof.
  intros H. unfold clos_rel, effective_params, closure_variadic, closure_block. cbn [c_body c_env c_self].
  repeat split; auto. destruct f as [ps v vt rt g at_ body]. intros x Hx. right. apply H.
  rewrite ment_fbody_eq, Hx. reflexivity.
Qed.

(** [finv] splits every hypothesis [Forall P (a :: l)] into [P a] and [Forall P l] *)
Ltac finv :=
  repeat match goal with
         | H : Forall _ (_ :: _) |- _ => inversion H; clear H; subst
         end.
