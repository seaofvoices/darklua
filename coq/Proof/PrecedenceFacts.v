(** Parenthesisation: the reference parser reads back every well-parenthesised tree, and the
    parentheses darklua's predicates ask for make every tree well-parenthesised. *)
From DL Require Import Lib.Bytes Model.Precedence Model.C02Spec.
Require Import Lia Arith PeanoNat.
Open Scope N_scope.

Fixpoint size (e : expr) : nat :=
  match e with
  | EAtom _ => 1
  | EParen x => S (size x)
  | EUn _ x => S (size x)
  | EBin _ l r => S (size l + size r)
  | ECast x _ => S (size x)
  end.

(** number of binary operators met by the top-level loop while reading [e] *)
Fixpoint spine (e : expr) : nat :=
  match e with
  | EBin _ l _ => S (spine l)
  | _ => 0
  end.

Lemma spine_lt_size e : (spine e < size e)%nat.
Proof. induction e; cbn [spine size]; lia. Qed.

Lemma size_le_print e : (size e <= List.length (print_plain e))%nat.
Proof.
  induction e; cbn [size print_plain List.length]; try rewrite app_length; cbn [List.length]; try lia.
Qed.

(** [e] may be read by [subexpr lim]: its top operator binds tighter than the limit *)
Definition adm (lim : N) (e : expr) : bool :=
  match e with EBin o _ _ => lim <? lprio o | _ => true end.

(** the loop with limit [lim] stops at the head of [rest] *)
Definition head_ok (lim : N) (rest : list ptok) : bool :=
  match rest with
  | KOp s :: _ => match binop_of_sym s with Some o => negb (lim <? lprio o) | None => true end
  | _ => true
  end.

Definition head_free (rest : list ptok) : bool := match rest with KCast _ :: _ => false | _ => true end.
Definition lt_free (rest : list ptok) : bool := match rest with KOp SLt :: _ => false | _ => true end.
Definition cast_ok (e : expr) (rest : list ptok) : bool := negb (ends_bare (print_plain e)) || lt_free rest.

Lemma head_ok_mono a b rest : head_ok a rest = true -> a <= b -> head_ok b rest = true.
Proof.
  unfold head_ok. destruct rest as [|[x|s| | |k] rest]; try reflexivity.
  destruct (binop_of_sym s) as [o|]; [|reflexivity].
  intros H L. apply Bool.negb_true_iff in H. apply N.ltb_ge in H.
  apply Bool.negb_true_iff. apply N.ltb_ge. lia.
Qed.

Lemma loop_stops sub lim g e rest :
  head_ok lim rest = true -> loop_with sub lim (S g) e rest = Some (e, rest).
Proof.
  unfold head_ok. cbn [loop_with]. destruct rest as [|[x|s| | |k] rest]; try reflexivity.
  destruct (binop_of_sym s) as [o|]; [|reflexivity].
  intros H. apply Bool.negb_true_iff in H. rewrite H. reflexivity.
Qed.

Lemma binop_sym_roundtrip o : binop_of_sym (sym_of_binop o) = Some o.
Proof. destruct o; reflexivity. Qed.
Lemma unop_sym_roundtrip u : unop_of_sym (sym_of_unop u) = Some u.
Proof. destruct u; reflexivity. Qed.

Lemma with_cast_none e t : head_free t = true -> with_cast e t = Some (e, t).
Proof. destruct t as [|[x|s| | |k] t]; intros H; try reflexivity. discriminate H. Qed.

Lemma with_cast_some e k t :
  (ends_with_type_name k = true -> lt_free t = true) -> with_cast e (KCast k :: t) = Some (ECast e k, t).
Proof.
  intros H. cbn [with_cast]. destruct (ends_with_type_name k); [|reflexivity].
  specialize (H eq_refl). destruct t as [|[x|s| | |k'] t]; try reflexivity.
  destruct s; try reflexivity. discriminate H.
Qed.

(** the transcription of darklua's type loop agrees with the specification *)
Lemma trailing_bare_spec t : trailing_bare t = ends_with_type_name t.
Proof. induction t; cbn [trailing_bare ends_with_type_name]; congruence. Qed.

Lemma subexpr_atom f lim a t :
  subexpr (S f) lim (KAtom a :: t) =
  match with_cast (EAtom a) t with
  | Some (e, t') => loop_with (subexpr f) lim f e t'
  | None => None
  end.
Proof. reflexivity. Qed.

Lemma subexpr_un f lim u t :
  subexpr (S f) lim (KOp (sym_of_unop u) :: t) =
  match subexpr f UNARY_PRIORITY t with
  | Some (x, t') => loop_with (subexpr f) lim f (EUn u x) t'
  | None => None
  end.
Proof. cbn [subexpr]. rewrite unop_sym_roundtrip. reflexivity. Qed.

Lemma subexpr_paren f lim t :
  subexpr (S f) lim (KLp :: t) =
  match subexpr f 0 t with
  | Some (c, KRp :: t') =>
    match with_cast (EParen c) t' with
    | Some (e, t'') => loop_with (subexpr f) lim f e t''
    | None => None
    end
  | _ => None
  end.
Proof. reflexivity. Qed.

Fixpoint last_tok (e : expr) : ptok :=
  match e with
  | EAtom a => KAtom a
  | EBin _ _ r => last_tok r
  | EUn _ x => last_tok x
  | EParen _ => KRp
  | ECast _ k => KCast k
  end.

Lemma print_plain_last e : exists pre, print_plain e = pre ++ [last_tok e].
Proof.
  induction e as [a|o l _ r [pre E]|u x [pre E]|x _|x _ k]; cbn [print_plain last_tok].
  - exists []. reflexivity.
  - exists (print_plain l ++ KOp (sym_of_binop o) :: pre). rewrite E, <- app_assoc. reflexivity.
  - exists (KOp (sym_of_unop u) :: pre). rewrite E. reflexivity.
  - exists (KLp :: print_plain x). reflexivity.
  - exists (print_plain x). reflexivity.
Qed.

Lemma last_print e d : last (print_plain e) d = last_tok e.
Proof. destruct (print_plain_last e) as [pre ->]. apply last_last. Qed.

Lemma ends_bare_last e : ends_bare (print_plain e) = match last_tok e with KCast t => ends_with_type_name t | _ => false end.
Proof. unfold ends_bare. rewrite last_print. reflexivity. Qed.

Lemma cast_ok_last e e' rest : last_tok e = last_tok e' -> cast_ok e rest = cast_ok e' rest.
Proof. unfold cast_ok. rewrite !ends_bare_last. intros ->. reflexivity. Qed.

Lemma lt_free_binop o t : lt_free (KOp (sym_of_binop o) :: t) = negb (is_lt o).
Proof. destruct o; reflexivity. Qed.

Lemma adm0 e : adm 0 e = true.
Proof. destruct e as [a|o l r|u x|x|x k]; try reflexivity. cbn [adm]. destruct o; reflexivity. Qed.

Lemma read_then_stop F lim e rest :
  subexpr (S F) lim (print_plain e ++ rest) = loop_with (subexpr F) lim (F - spine e) e rest ->
  (size e <= F)%nat -> head_ok lim rest = true ->
  subexpr (S F) lim (print_plain e ++ rest) = Some (e, rest).
Proof.
  intros -> HF Hh. pose proof (spine_lt_size e) as Sp.
  destruct (F - spine e)%nat eqn:E; [lia|]. apply loop_stops, Hh.
Qed.

(** THE READING LEMMA: with enough fuel, reading the text of a well-parenthesised [e] followed
    by [rest] yields [e] and continues the loop on [rest] *)
Lemma read_expr : forall n e, (size e <= n)%nat -> wp e = true ->
  forall F lim rest, (size e <= F)%nat -> adm lim e = true -> head_ok (rp e) rest = true ->
  head_free rest = true -> cast_ok e rest = true ->
  subexpr (S F) lim (print_plain e ++ rest) = loop_with (subexpr F) lim (F - spine e) e rest.
Proof.
  induction n as [|n IH]; intros e Hn Hwp F lim rest HF Hadm Hhead Hfree Hcast.
  { destruct e; cbn [size] in Hn; lia. }
  (* between parentheses: the limit is 0 and the loop stops at ")" *)
  assert (inside : forall x F0 t, (size x <= n)%nat -> (size x <= F0)%nat -> wp x = true ->
            subexpr (S F0) 0 (print_plain x ++ KRp :: t) = Some (x, KRp :: t)).
  { intros x F0 t Hx HF0 Wx. apply read_then_stop; [|exact HF0|reflexivity].
    apply (IH x Hx Wx); [exact HF0|apply adm0|reflexivity|reflexivity|apply orb_true_r]. }
  (* the last operand [x] of [e], read by a nested call with limit [lim']: it ends where [e] ends,
     so the nested loop stops at [rest] as well *)
  assert (operand : forall x lim' F0, (size x <= n)%nat -> (size x <= F0)%nat -> wp x = true ->
            adm lim' x = true -> rp e <= rp x -> rp e <= lim' -> last_tok x = last_tok e ->
            subexpr (S F0) lim' (print_plain x ++ rest) = Some (x, rest)).
  { intros x lim' F0 Hx HF0 Wx Ax Hrp Hlim Hlast.
    apply read_then_stop; [apply (IH x Hx Wx); [exact HF0|exact Ax| |exact Hfree|]|exact HF0|].
    - exact (head_ok_mono _ _ _ Hhead Hrp).
    - rewrite <- Hcast. apply cast_ok_last, Hlast.
    - exact (head_ok_mono _ _ _ Hhead Hlim). }
  destruct e as [a|o l r|u x|x|x k]; cbn [wp size] in Hwp, HF, Hn.
  - (* atom *)
    cbn [print_plain app spine]. rewrite subexpr_atom, (with_cast_none _ _ Hfree), Nat.sub_0_r. reflexivity.
  - (* binary: [l] is read by this call, then one turn of the loop reads [o] and, in a nested
       call with limit [rprio o], all of [r] *)
    apply andb_true_iff in Hwp as [Hwp Hlt]. apply andb_true_iff in Hwp as [Hwp Hr].
    apply andb_true_iff in Hwp as [Hwp Hrp].
    apply andb_true_iff in Hwp as [Hwp Hl]. apply andb_true_iff in Hwp as [Wl Wr].
    cbn [adm] in Hadm. cbn [print_plain]. rewrite <- app_assoc. cbn [app].
    rewrite (IH l ltac:(lia) Wl F lim (KOp (sym_of_binop o) :: print_plain r ++ rest)); [|lia| | |reflexivity|].
    2:{ destruct l as [a|o' l1 l2|u' l1|l1|l1 k1]; try reflexivity. cbn [adm].
        apply N.leb_le in Hl. apply N.ltb_lt in Hadm. apply N.ltb_lt. lia. }
    2:{ cbn [head_ok]. rewrite binop_sym_roundtrip. apply Bool.negb_true_iff. apply N.ltb_ge.
        apply N.leb_le in Hrp. exact Hrp. }
    2:{ unfold cast_ok. rewrite lt_free_binop.
        apply Bool.negb_true_iff in Hlt. destruct (is_lt o); [|apply orb_true_r].
        cbn [andb] in Hlt. rewrite Hlt. reflexivity. }
    pose proof (spine_lt_size l) as Sl.
    destruct (F - spine l)%nat as [|g] eqn:Eg; [lia|].
    cbn [loop_with]. rewrite binop_sym_roundtrip, Hadm.
    destruct F as [|F0]; [lia|].
    rewrite (operand r (rprio o) F0 ltac:(lia) ltac:(lia) Wr Hr ltac:(cbn [rp]; lia) ltac:(cbn [rp]; lia) eq_refl).
    cbn [spine]. replace (S F0 - S (spine l))%nat with g by lia. reflexivity.
  - (* unary *)
    apply andb_true_iff in Hwp as [Wx Hx]. cbn [print_plain app].
    destruct F as [|F0]; [lia|].
    rewrite subexpr_un, (operand x UNARY_PRIORITY F0 ltac:(lia) ltac:(lia) Wx Hx ltac:(cbn [rp]; lia) ltac:(cbn [rp]; lia) eq_refl).
    cbn [spine]. rewrite Nat.sub_0_r. reflexivity.
  - (* parentheses *)
    cbn [print_plain app]. rewrite <- app_assoc. cbn [app].
    destruct F as [|F0]; [lia|].
    rewrite subexpr_paren, (inside x F0 rest) by (try assumption; lia).
    rewrite (with_cast_none _ _ Hfree). cbn [spine]. rewrite Nat.sub_0_r. reflexivity.
  - (* cast: the inner expression is an atom or is between parentheses *)
    apply andb_true_iff in Hwp as [Wx Hshape].
    assert (Hk : ends_with_type_name k = true -> lt_free rest = true).
    { intros E. unfold cast_ok in Hcast. rewrite ends_bare_last in Hcast. cbn [last_tok] in Hcast.
      rewrite E in Hcast. exact Hcast. }
    destruct x as [a|o' x1 x2|u' x1|y|x1 k1]; try discriminate Hshape.
    + cbn [print_plain app spine].
      rewrite subexpr_atom, (with_cast_some _ _ _ Hk), Nat.sub_0_r. reflexivity.
    + cbn [wp size] in Wx, HF, Hn.
      cbn [print_plain app]. rewrite <- !app_assoc. cbn [app].
      destruct F as [|F0]; [lia|].
      rewrite subexpr_paren, (inside y F0 (KCast k :: rest)) by (try assumption; lia).
      rewrite (with_cast_some _ _ _ Hk). cbn [spine]. rewrite Nat.sub_0_r. reflexivity.
Qed.

Theorem parse_print_plain : forall e, wp e = true -> parse_expr (print_plain e) = Some e.
Proof.
  intros e Hwp. unfold parse_expr, parse_fuel.
  pose proof (size_le_print e) as Hs.
  rewrite <- (app_nil_r (print_plain e)) at 2.
  rewrite (read_then_stop _ 0 e []); [reflexivity| |lia|reflexivity].
  apply (read_expr (size e) e (le_n _) Hwp); [lia|apply adm0|reflexivity|reflexivity|apply orb_true_r].
Qed.

Lemma lprio_bounds o : 1 <= lprio o /\ lprio o <= 100 /\ lprio o <= rprio o + 1 /\ rprio o <= lprio o.
Proof. destruct o; cbn; lia. Qed.

Lemma wp_wrap b e : wp (wrap b e) = wp e.
Proof. destruct b; reflexivity. Qed.

Lemma rp_ge e : wp e = true ->
  match e with
  | EBin o _ _ => N.min (rprio o) UNARY_PRIORITY
  | EUn _ _ => UNARY_PRIORITY
  | _ => 100
  end <= rp e.
Proof.
  induction e as [a|o l IHl r IHr|u x IHx|x IHx|x IHx k]; intros Hwp; cbn [rp wp] in *; try lia.
  - apply andb_true_iff in Hwp as [Hwp _].
    apply andb_true_iff in Hwp as [Hwp Hr]. apply andb_true_iff in Hwp as [Hwp _].
    apply andb_true_iff in Hwp as [Hwp _]. apply andb_true_iff in Hwp as [_ Wr].
    specialize (IHr Wr). unfold UNARY_PRIORITY in *.
    destruct r as [a|o' r1 r2|u' r1|r1|r1 k1]; cbn [rp] in *; try lia.
    apply N.ltb_lt in Hr. pose proof (lprio_bounds o'). lia.
  - apply andb_true_iff in Hwp as [Wx Hx]. specialize (IHx Wx). unfold UNARY_PRIORITY in *.
    destruct x as [a|o' x1 x2|u' x1|x1|x1 k1]; cbn [rp] in *; try lia.
    apply N.ltb_lt in Hx. pose proof (lprio_bounds o'). lia.
Qed.

(** a tree exposes on its right nothing that binds tighter than its top operator: in [wp], the
    condition on the top operator of the left operand follows from the one on [rp] *)
Lemma rp_le_top o l : (lprio o <=? rp l) = true ->
  match l with EBin o' _ _ => lprio o <=? lprio o' | _ => true end = true.
Proof.
  destruct l as [a|o' l1 l2|u x|x|x k]; try reflexivity. cbn [rp]. intros H.
  apply N.leb_le in H. apply N.leb_le. pose proof (lprio_bounds o'). lia.
Qed.

Lemma In_binops o : In o binops.
Proof. destruct o; cbn; auto 20. Qed.
Lemma In_unops u : In u unops.
Proof. destruct u; cbn; auto. Qed.

(** the finite condition, read off one entry at a time *)
Lemma prec_ok_facts P : prec_ok P = true ->
  (forall o o', left_bin P o o' = false -> lprio o <= rprio o' /\ lprio o <= UNARY_PRIORITY)
  /\ (forall o o', right_bin P o o' = false -> rprio o < lprio o')
  /\ (forall o u, left_un P o u = false -> lprio o <= UNARY_PRIORITY)
  /\ (forall u o', un_bin P u o' = false -> UNARY_PRIORITY < lprio o')
  /\ cast_bin P = true /\ cast_un P = true /\ cast_cast P = true /\ left_cast P LowerThan true = true.
Proof.
  unfold prec_ok. intros H.
  apply andb_true_iff in H as [H C4]. apply andb_true_iff in H as [H C3].
  apply andb_true_iff in H as [H C2]. apply andb_true_iff in H as [H C1].
  apply andb_true_iff in H as [H1 H2]. rewrite forallb_forall in H1, H2.
  assert (B : forall o o',
    (left_bin P o o' || ((lprio o <=? lprio o') && (lprio o <=? rprio o') && (lprio o <=? UNARY_PRIORITY)))
    && (right_bin P o o' || (rprio o <? lprio o')) = true).
  { intros o o'. destruct (proj1 (andb_true_iff _ _) (H1 o (In_binops o))) as [K _].
    rewrite forallb_forall in K. exact (K o' (In_binops o')). }
  assert (U : forall o u, left_un P o u || (lprio o <=? UNARY_PRIORITY) = true).
  { intros o u. destruct (proj1 (andb_true_iff _ _) (H1 o (In_binops o))) as [_ K].
    rewrite forallb_forall in K. exact (K u (In_unops u)). }
  assert (O : forall u o', un_bin P u o' || (UNARY_PRIORITY <? lprio o') = true).
  { intros u o'. specialize (H2 u (In_unops u)). rewrite forallb_forall in H2. exact (H2 o' (In_binops o')). }
  split; [|split; [|split; [|split; [|repeat split; assumption]]]].
  - intros o o' E. specialize (B o o'). rewrite E in B. apply andb_true_iff in B as [B _].
    apply andb_true_iff in B as [B B3]. apply andb_true_iff in B as [_ B2].
    split; apply N.leb_le; assumption.
  - intros o o' E. specialize (B o o'). rewrite E in B. apply andb_true_iff in B as [_ B]. apply N.ltb_lt, B.
  - intros o u E. specialize (U o u). rewrite E in U. apply N.leb_le, U.
  - intros u o' E. specialize (O u o'). rewrite E in O. apply N.ltb_lt, O.
Qed.

(** when the written text of [e] ends with a cast to a bare type name, darklua's walk down the
    right spine of the TREE finds it *)
Lemma ends_bare_trailing P o : left_cast P o true = true ->
  forall e, ends_bare (print_plain (parenthesize P e)) = true -> trailing_cast P o e = true.
Proof.
  intros Hlc e. rewrite ends_bare_last.
  induction e as [a|o' l IHl r IHr|u x IHx|x IHx|x IHx k]; cbn [parenthesize last_tok trailing_cast]; intros H.
  - discriminate H.
  - destruct (right_needs P o' r); [discriminate H|exact (IHr H)].
  - destruct (operand_needs P u x); [discriminate H|exact (IHx H)].
  - discriminate H.
  - rewrite trailing_bare_spec, H. exact Hlc.
Qed.

Lemma parenthesize_wp P : prec_ok P = true -> forall e, wp (parenthesize P e) = true.
Proof.
  intros Hok. destruct (prec_ok_facts P Hok) as [FL [FR [FU [FO [CB [CU [CC LC]]]]]]].
  induction e as [a|o l IHl r IHr|u x IHx|x IHx|x IHx k]; cbn [parenthesize wp]; try assumption; try reflexivity.
  - (* binary *)
    rewrite !wp_wrap, IHl, IHr. cbn [andb].
    assert (H2 : (lprio o <=? rp (wrap (left_needs P o l) (parenthesize P l))) = true).
    { apply N.leb_le. destruct (left_needs P o l) eqn:E; cbn [wrap]; [apply lprio_bounds|].
      unfold left_needs in E. apply orb_false_iff in E as [Eb _].
      pose proof (rp_ge _ IHl) as G. unfold UNARY_PRIORITY in *.
      destruct l as [a|o' l1 l2|u' l1|l1|l1 k1]; cbn [parenthesize] in *; try apply lprio_bounds.
      - destruct (FL o o' Eb) as [A B]. lia.
      - pose proof (FU o u' Eb). lia. }
    assert (H3 : negb (is_lt o && ends_bare (print_plain (wrap (left_needs P o l) (parenthesize P l)))) = true).
    { destruct o; try reflexivity. cbn [is_lt andb]. apply negb_true_iff.
      destruct (left_needs P LowerThan l) eqn:E; cbn [wrap]; [apply ends_bare_last|].
      unfold left_needs in E. apply orb_false_iff in E as [_ Et].
      destruct (ends_bare (print_plain (parenthesize P l))) eqn:Eb'; [|reflexivity].
      rewrite (ends_bare_trailing P LowerThan LC l Eb') in Et. discriminate Et. }
    rewrite (rp_le_top _ _ H2), H2, H3. cbn [andb]. rewrite andb_true_r.
    destruct r as [a|o' r1 r2|u' r1|r1|r1 k1]; cbn [right_needs parenthesize wrap]; try reflexivity.
    + destruct (right_bin P o o') eqn:E; cbn [wrap]; [reflexivity|].
      apply N.ltb_lt. apply (FR o o' E).
    + destruct (right_un P o u'); reflexivity.
  - (* unary *)
    rewrite wp_wrap, IHx. cbn [andb].
    destruct x as [a|o' x1 x2|u' x1|x1|x1 k1]; cbn [operand_needs parenthesize wrap]; try reflexivity.
    destruct (un_bin P u o') eqn:E; cbn [wrap]; [reflexivity|].
    apply N.ltb_lt. apply (FO u o' E).
  - (* cast *)
    rewrite wp_wrap, IHx. cbn [andb].
    destruct x as [a|o' x1 x2|u' x1|x1|x1 k1]; cbn [cast_inner_needs parenthesize];
      rewrite ?CB, ?CU, ?CC; reflexivity.
Qed.

Lemma strip_wrap b e : strip (wrap b e) = strip e.
Proof. destruct b; reflexivity. Qed.

Lemma strip_parenthesize P e : strip (parenthesize P e) = strip e.
Proof.
  induction e as [a|o l IHl r IHr|u x IHx|x IHx|x IHx k]; cbn [parenthesize strip];
    rewrite ?strip_wrap; congruence.
Qed.

(** PARENTHESISATION ROUND TRIP.  For every table of predicates satisfying the decidable
    condition [prec_ok], for EVERY tree of operators, casts and parentheses (any depth), the
    reference parser reads the tokens the generator writes back as the same tree with the
    generator's parentheses made explicit; in particular with the same nesting. *)
Theorem paren_roundtrip : forall P, prec_ok P = true ->
  forall e, parse_expr (tokens_of_expr P e) = Some (parenthesize P e).
Proof.
  intros P Hok e. unfold tokens_of_expr. apply parse_print_plain. apply parenthesize_wp. exact Hok.
Qed.

Corollary paren_roundtrip_nesting : forall P, prec_ok P = true ->
  forall e, exists e', parse_expr (tokens_of_expr P e) = Some e' /\ strip e' = strip e.
Proof.
  intros P Hok e. exists (parenthesize P e). split; [apply paren_roundtrip; exact Hok|apply strip_parenthesize].
Qed.
