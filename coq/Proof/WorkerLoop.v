(** The work loop of [WorkerTree::process] terminates: one pass finishes every pending item,
    so [done_count == total_not_done] holds after the first pass and the fuel of the model
    is never exhausted.  (No invariant is needed for this.) *)
From Coq Require Import Arith PeanoNat Lia.
From DL Require Import Lib.Bytes Model.WorkerFs Model.Worker Proof.WorkerBasics.
Open Scope N_scope.

Section Loop.
  Variable cfg : Type.
  Variable hash : cfg -> N.
  Variable xform : cfg -> path -> content -> fs -> option content * list path.

  (** what one pass does with an occupied slot *)
  Definition head_item c (it : item) (f : fs) : item :=
    if is_done (i_st it) then it else fst (advance cfg xform c it f).
  Definition head_fs c (it : item) (f : fs) : fs :=
    if is_done (i_st it) then f else snd (advance cfg xform c it f).
  Definition head_done (it : item) (done : nat) : nat :=
    if is_done (i_st it) then done else S done.

  Lemma sweep_cons_inv c o s i e f done s2 e2 f2 d2 :
    sweep cfg xform c (o :: s) i e f done = (s2, e2, f2, d2) ->
    exists s', s2 = option_map (fun it => head_item c it f) o :: s' /\
      sweep cfg xform c s (S i)
            (match o with
             | Some it => fold_left (fun e0 d => ext_link e0 d i) (i_deps (head_item c it f)) e
             | None => e
             end)
            (match o with Some it => head_fs c it f | None => f end)
            (match o with Some it => head_done it done | None => done end) = (s', e2, f2, d2).
  Proof.
    cbn [sweep]. unfold head_item, head_fs, head_done. destruct o as [it|]; cbn [option_map].
    - destruct (is_done (i_st it)); [|destruct (advance cfg xform c it f) as [it' f']; cbn [fst snd]];
        destruct (sweep cfg xform c s _ _ _ _) as [[[s' e'] f''] d']; intros [= <- <- <- <-]; eauto.
    - destruct (sweep cfg xform c s _ _ _ _) as [[[s' e'] f''] d']. intros [= <- <- <- <-]. eauto.
  Qed.

  Lemma advance_done c it f : is_done (i_st (fst (advance cfg xform c it f))) = true.
  Proof.
    unfold advance. destruct (fs_get f (i_src it)) as [txt|]; [|reflexivity].
    destruct (xform c (i_src it) txt f) as [[o|] ds]; reflexivity.
  Qed.

  Lemma head_item_done c it f : is_done (i_st (head_item c it f)) = true.
  Proof. unfold head_item. destruct (is_done (i_st it)) eqn:Ed; [exact Ed|apply advance_done]. Qed.

  Lemma sweep_measure c : forall s i e f done s2 e2 f2 d2,
    sweep cfg xform c s i e f done = (s2, e2, f2, d2) ->
    d2 = (done + count_pending s)%nat /\ count_pending s2 = 0%nat.
  Proof.
    induction s as [|o s IH]; intros i e f done s2 e2 f2 d2 H.
    - cbn in H. injection H as <- _ _ <-. cbn. split; [lia|reflexivity].
    - apply sweep_cons_inv in H as [s' [-> Et]]. apply IH in Et as [-> H2].
      rewrite !count_pending_cons, H2. destruct o as [it|]; cbn [option_map]; [|lia].
      rewrite head_item_done. unfold head_done. destruct (is_done (i_st it)); lia.
  Qed.

  Lemma sweep_shape c : forall s i e f done s2 e2 f2 d2,
    sweep cfg xform c s i e f done = (s2, e2, f2, d2) ->
    List.length s2 = List.length s /\
    forall q j, In j (ext_get e2 q) ->
      In j (ext_get e q) \/
      exists k it2, nth k s2 None = Some it2 /\ j = (i + k)%nat /\ In q (i_deps it2).
  Proof.
    induction s as [|o s IH]; intros i e f done s2 e2 f2 d2 H.
    - cbn in H. injection H as <- <- _ _. auto.
    - apply sweep_cons_inv in H as [s' [-> Et]]. apply IH in Et as [Hlen Hreg].
      split; [cbn [List.length]; lia|]. intros q j Hj.
      apply Hreg in Hj as [Hj|[k [it2 [Hk [-> Hq]]]]].
      + destruct o as [it|]; [|left; exact Hj].
        apply ext_get_link_all in Hj as [Hj|[Hq ->]]; [left; exact Hj|].
        right. exists 0%nat, (head_item c it f). repeat split; [lia|exact Hq].
      + right. exists (S k), it2. repeat split; [exact Hk|lia|exact Hq].
  Qed.

  Theorem work_loop_one_pass c t f k :
    exists t' f', work_loop cfg xform (S k) c t f (count_pending (slots t)) = Some (t', f') /\
                  count_pending (slots t') = 0%nat.
  Proof.
    cbn [work_loop]. destruct (sweep cfg xform c (slots t) 0 (ext t) f 0) as [[[s2 e2] f2] d2] eqn:Es.
    destruct (sweep_measure c _ _ _ _ _ _ _ _ _ Es) as [H1 H2]. cbn in H1. subst d2.
    rewrite Nat.eqb_refl. eexists. eexists. split; [reflexivity|]. exact H2.
  Qed.

  Theorem process_total c t f : process cfg hash xform c t f <> None.
  Proof.
    unfold process. cbv zeta.
    set (t1 := set_hash (if cfg_changed t (hash c) then reset t else t) (Some (hash c))).
    destruct (clean_files t1 f) as [t2 f2] eqn:Ec.
    destruct (Nat.eqb (count_pending (slots t1)) 0); [discriminate|].
    assert (Hs : slots t2 = slots t1) by (unfold clean_files in Ec; inversion Ec; reflexivity).
    rewrite <- Hs.
    destruct (work_loop_one_pass c t2 f2 (count_pending (slots t2))) as [t' [f' [H _]]].
    rewrite H. discriminate.
  Qed.
End Loop.
