(** Bundler model (Model/Bundle.v): the fuel-free big-step reading of [inline] / [visit (try_inline _)],
    one constructor per path through the code, and the fact that a run of the executable model
    is a derivation.  All invariants (BundleInv.v, BundleSound.v) go by induction on derivations. *)
From Coq Require Import NArith Arith PeanoNat List Bool Lia.
From DL Require Import Lib.Bytes Model.Rename Model.Bundle Proof.BundleSpec Proof.BundleBasics.
Import ListNotations.
Open Scope N_scope.

Section Rel.
Variable g : graph.

(** [Inl stack f s s' r]: inline_require(f) with require stack [stack] takes [s] to [s'] with result [r];
    [Vis stack rs s s' xs]: the call sites [rs], processed in order with require stack [stack] *)
Inductive Inl : list file -> file -> state -> state -> inlined -> Prop :=
| I_cached stack f s k :
    cache_get (cache s) f = Some k -> Inl stack f s s (inl k)
| I_cyclic stack f s i :
    cache_get (cache s) f = None -> index_of f stack = Some i ->
    Inl stack f s s (inr (ECyclic (skipn i stack ++ [f])))
| I_resource stack f s :
    cache_get (cache s) f = None -> index_of f stack = None ->
    (lookup g f = None \/ lookup g f = Some KBroken) ->
    Inl stack f s s (inr (EResource f))
| I_data stack f s :
    cache_get (cache s) f = None -> index_of f stack = None ->
    lookup g f = Some KData ->
    Inl stack f s (fst (define f [] s)) (inl (List.length (defs s)))
| I_lua stack f s reqs s1 sites :
    cache_get (cache s) f = None -> index_of f stack = None ->
    lookup g f = Some (KLua reqs (Some 1%nat)) ->
    Vis (stack ++ [f]) reqs s s1 sites ->
    Inl stack f s (fst (define f sites s1)) (inl (List.length (defs s1)))
| I_module stack f s reqs ret s1 sites :
    cache_get (cache s) f = None -> index_of f stack = None ->
    lookup g f = Some (KLua reqs ret) -> ret <> Some 1%nat ->
    Vis (stack ++ [f]) reqs s s1 sites ->
    Inl stack f s s1 (inr (EModule f))
with Vis : list file -> list req -> state -> state -> list site -> Prop :=
| V_nil stack s : Vis stack [] s s []
| V_notfound stack lit rest s s' xs :
    Vis stack rest (push_error (ENotFound lit) s) s' xs ->
    Vis stack (RNotFound lit :: rest) s s' (None :: xs)
| V_skip stack f rest s s' xs :
    memf f (skip s) = true ->
    Vis stack rest s s' xs ->
    Vis stack (RFile f :: rest) s s' (None :: xs)
| V_inl stack f rest s s1 k s' xs :
    memf f (skip s) = false ->
    Inl stack f s s1 (inl k) ->
    Vis stack rest s1 s' xs ->
    Vis stack (RFile f :: rest) s s' (Some k :: xs)
| V_inr stack f rest s s1 e s' xs :
    memf f (skip s) = false ->
    Inl stack f s s1 (inr e) ->
    Vis stack rest (add_skip f (push_error e s1)) s' xs ->
    Vis stack (RFile f :: rest) s s' (None :: xs).

Scheme Inl_mind := Minimality for Inl Sort Prop
  with Vis_mind := Minimality for Vis Sort Prop.
Combined Scheme Inl_Vis_ind from Inl_mind, Vis_mind.

Lemma visit_sound irec stack :
  (forall f s s' r, irec f s = Some (s', r) -> Inl stack f s s' r) ->
  forall rs s s' xs, visit (try_inline irec) rs s = Some (s', xs) -> Vis stack rs s s' xs.
Proof.
  intros HI rs; induction rs as [|r rs IH]; intros s s' xs H; cbn [visit] in H.
  - injection H as <- <-. constructor.
  - destruct (try_inline irec r s) as [[s1 x]|] eqn:E; [|discriminate].
    destruct (visit (try_inline irec) rs s1) as [[s2 ys]|] eqn:E2; [|discriminate].
    injection H as <- <-. apply IH in E2.
    destruct r as [f|lit]; cbn [try_inline] in E.
    + destruct (memf f (skip s)) eqn:Em.
      * injection E as <- <-. now apply V_skip.
      * destruct (irec f s) as [[s0 [k|e]]|] eqn:Ei; try discriminate; injection E as <- <-.
        -- eapply V_inl; eauto.
        -- eapply V_inr; eauto.
    + injection E as <- <-. now apply V_notfound.
Qed.

Lemma inline_sound : forall fuel stack f s s' r,
  inline g fuel stack f s = Some (s', r) -> Inl stack f s s' r.
Proof.
  induction fuel as [|fuel IH]; intros stack f s s' r H; [discriminate|].
  rewrite inline_S in H.
  destruct (cache_get (cache s) f) as [k|] eqn:Ec.
  { injection H as <- <-. now apply I_cached. }
  destruct (index_of f stack) as [i|] eqn:Ei.
  { injection H as <- <-. now apply I_cyclic. }
  destruct (lookup g f) as [[reqs ret| |]|] eqn:El.
  - destruct (visit (try_inline (inline g fuel (stack ++ [f]))) reqs s) as [[s1 sites]|] eqn:Ev;
      [|discriminate].
    apply (visit_sound _ (stack ++ [f]) (IH (stack ++ [f]))) in Ev.
    destruct ret as [[|[|n]]|];
      try (injection H as <- <-; eapply I_module; eauto; discriminate).
    unfold define in H. injection H as <- <-. eapply (I_lua stack f s reqs s1 sites); eauto.
  - unfold define in H. injection H as <- <-. now apply (I_data stack f s).
  - injection H as <- <-. apply I_resource; auto.
  - injection H as <- <-. apply I_resource; auto.
Qed.

Lemma run_entry_sound fuel roots s sites :
  run_entry g fuel roots = Some (s, sites) -> Vis [] roots init s sites.
Proof. unfold run_entry. apply visit_sound. apply inline_sound. Qed.

Definition grows (s s' : state) : Prop :=
  (exists more, defs s' = defs s ++ more) /\ (exists more, errors s' = errors s ++ more).

Lemma grows_refl s : grows s s.
Proof. split; exists []; now rewrite app_nil_r. Qed.

Lemma grows_trans s1 s2 s3 : grows s1 s2 -> grows s2 s3 -> grows s1 s3.
Proof.
  intros [[d1 D1] [e1 E1]] [[d2 D2] [e2 E2]]. split.
  - exists (d1 ++ d2). now rewrite D2, D1, app_assoc.
  - exists (e1 ++ e2). now rewrite E2, E1, app_assoc.
Qed.

Lemma grows_define f sites s : grows s (fst (define f sites s)).
Proof. split; cbn; [now exists [(f, sites)]|exists []; now rewrite app_nil_r]. Qed.

Lemma grows_push e s : grows s (push_error e s).
Proof. split; cbn; [exists []; now rewrite app_nil_r|now exists [e]]. Qed.

Lemma grows_skip_push f e s : grows s (add_skip f (push_error e s)).
Proof. exact (grows_push e s). Qed.

Lemma Inl_Vis_grows :
  (forall stack f s s' r, Inl stack f s s' r -> grows s s') /\
  (forall stack rs s s' xs, Vis stack rs s s' xs -> grows s s').
Proof.
  apply Inl_Vis_ind; intros; try apply grows_refl.
  - apply grows_define.
  - eapply grows_trans; [eassumption|apply grows_define].
  - assumption.
  - eapply grows_trans; [apply grows_push|eassumption].
  - assumption.
  - eapply grows_trans; eassumption.
  - eapply grows_trans; [eassumption|]. eapply grows_trans; [apply grows_skip_push|eassumption].
Qed.

Definition Inl_grows := proj1 Inl_Vis_grows.
Definition Vis_grows := proj2 Inl_Vis_grows.

Lemma grows_errors_nonempty s s' : grows s s' -> errors s <> [] -> errors s' <> [].
Proof. intros [_ [m E]] H. rewrite E. destruct (errors s); [contradiction|discriminate]. Qed.

Lemma grows_errors_nil s s' : grows s s' -> errors s' = [] -> errors s = [].
Proof. intros [_ [m E]] H. rewrite E in H. now apply app_eq_nil in H. Qed.

Lemma grows_nth_fst s s' k f : grows s s' ->
  nth_error (map fst (defs s)) k = Some f -> nth_error (map fst (defs s')) k = Some f.
Proof. intros [[m E] _] H. rewrite E, map_app. now apply nth_error_app_some. Qed.

Lemma grows_len s s' : grows s s' -> (List.length (defs s) <= List.length (defs s'))%nat.
Proof. intros [[m E] _]. rewrite E, app_length. lia. Qed.

End Rel.
