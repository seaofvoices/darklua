(** The invariant behind [pure_sound] and [evaluate_sound]: whenever the expression is free of
    side effects according to [has_side_effects false], evaluation only extends the store and
    the value is described by [evaluate e] -- numbers up to Leibniz equality and canonical,
    tables and closures freshly allocated.  A statically known expression
    ([evaluate e <> LUnknown], table constructors pure) is such an expression ([known_pure]). *)
From Coq Require Import ZArith NArith List Bool String Lia.
From Coq Require Import Floats.SpecFloat.
From DL Require Import Lib.Bytes Lib.F64 Lua.Syntax Lua.Sem Model.StringLit Model.NumberLit
  Model.Evaluator Lua.EvalSpec Lua.EvalSpec2 Proof.SemFacts Proof.EvaluatorStore Proof.EvaluatorF64
  Proof.EvaluatorCoercion Proof.ResolveInd.
Import ListNotations.
Open Scope N_scope.
Local Notation llen := List.length.

Definition lv_ok (s0 s : store) (v : lv) (x : value) : Prop :=
  match v, x with
  | LUnknown, _ => True
  | LNil, VNil => True
  | LTrue, VBool true => True
  | LFalse, VBool false => True
  | LNumber a, VNum b => a = b /\ valid a
  | LString a, VStr b => a = b
  | LFunction, VClosure c => (llen (closures s0) <= N.to_nat c < llen (closures s))%nat
  | LTable, VTable a => (llen (tables s0) <= N.to_nat a)%nat /\ plain_tab s a
  | _, _ => False
  end.

(** [lv_ok] by cases, so that one [destruct] gives the shape of the value *)
Variant lv_ok_cases (s0 s : store) : lv -> value -> Prop :=
| ok_unknown x : lv_ok_cases s0 s LUnknown x
| ok_nil : lv_ok_cases s0 s LNil VNil
| ok_true : lv_ok_cases s0 s LTrue (VBool true)
| ok_false : lv_ok_cases s0 s LFalse (VBool false)
| ok_number a : valid a -> lv_ok_cases s0 s (LNumber a) (VNum a)
| ok_string a : lv_ok_cases s0 s (LString a) (VStr a)
| ok_function c : (llen (closures s0) <= N.to_nat c < llen (closures s))%nat ->
                  lv_ok_cases s0 s LFunction (VClosure c)
| ok_table a : (llen (tables s0) <= N.to_nat a)%nat -> plain_tab s a -> lv_ok_cases s0 s LTable (VTable a).

Lemma lv_ok_inv s0 s v x : lv_ok s0 s v x -> lv_ok_cases s0 s v x.
Proof.
  destruct v, x; cbn; intros H; try contradiction; try (destruct b; try contradiction);
    try (destruct H as [H1 H2]); subst; constructor; auto.
Qed.

Lemma lv_ok_mono s0 s s0' s' v x :
  store_extends s0' s0 -> store_extends s s' -> lv_ok s0 s v x -> lv_ok s0' s' v x.
Proof.
  intros H0 H1. pose proof (store_extends_tables _ _ H0). pose proof (store_extends_closures _ _ H0).
  pose proof (store_extends_closures _ _ H1).
  destruct v, x; cbn; auto.
  - lia.
  - intros [A B]. split; [lia|]. eapply plain_tab_extends; eauto.
Qed.

(** [lv_le v v']: [v] claims no more than [v'] does *)
Definition lv_le (v v' : lv) : Prop := v = v' \/ v = LUnknown.

Lemma lv_ok_le s0 s v v' x : lv_le v v' -> lv_ok s0 s v' x -> lv_ok s0 s v x.
Proof. intros [-> | ->] H; [exact H|exact I]. Qed.

(** what holds of the last part of an evaluation, started in a store that had grown already,
    holds of the whole if the whole claims no more of the value *)
Lemma after_ok s s1 s2 v v' x :
  store_extends s s1 -> lv_le v v' ->
  store_extends s1 s2 /\ lv_ok s1 s2 v' x -> store_extends s s2 /\ lv_ok s s2 v x.
Proof.
  intros E1 V [E2 L2]. split; [eapply store_extends_trans; eauto|].
  apply (lv_ok_le _ _ _ _ _ V). eapply lv_ok_mono; [exact E1|apply store_extends_refl|exact L2].
Qed.

Lemma lv_ok_matches s0 s v x : lv_ok s0 s v x -> lv_matches s v x.
Proof. intros H. destruct (lv_ok_inv _ _ _ _ H); cbn; auto using same_f64_refl. Qed.

Lemma lv_ok_plain s0 s v x : lv_ok s0 s v x -> v <> LUnknown -> plain s x.
Proof. intros H K. destruct (lv_ok_inv _ _ _ _ H); cbn; auto. congruence. Qed.

Lemma lv_ok_truthy s0 s v x b : lv_ok s0 s v x -> is_truthy v = Some b -> truthy x = b.
Proof. intros H E. destruct (lv_ok_inv _ _ _ _ H); cbn in *; congruence. Qed.

Lemma lv_ok_not_truthy s0 s v x : lv_ok s0 s v x -> is_truthy v <> Some (negb (truthy x)).
Proof. intros H E. apply (lv_ok_truthy _ _ _ _ _ H) in E. now destruct (truthy x). Qed.

(** a choice that [evaluate] makes by the static truth value and the interpreter by the actual one *)
Lemma truthy_le s0 s v x (f : bool -> lv) : lv_ok s0 s v x ->
  lv_le (match is_truthy v with Some t => f t | None => LUnknown end) (f (truthy x)).
Proof.
  intros H. destruct (is_truthy v) as [t|] eqn:E; [left|right; reflexivity].
  now rewrite (lv_ok_truthy _ _ _ _ _ H E).
Qed.

Lemma lv_ok_unknown s0 s x : lv_ok s0 s LUnknown x.
Proof. exact I. Qed.

Lemma lv_ok_bool s0 s c : lv_ok s0 s (lv_of_bool c) (VBool c).
Proof. destruct c; exact I. Qed.

Definition lv_less (strict : bool) (a b : lv) : lv :=
  match a, b with
  | LNumber x, LNumber y => lv_of_bool (if strict then fltb x y else fleb x y)
  | LString x, LString y => lv_of_bool (if strict then bytes_ltb x y else bytes_leb x y)
  | _, _ => LUnknown
  end.

Definition lv_arith (op : binop) (a b : lv) : lv :=
  match number_coercion a with
  | LNumber x =>
    match number_coercion b with
    | LNumber y => match math_op op x y with Some z => LNumber z | None => LUnknown end
    | _ => LUnknown
    end
  | _ => LUnknown
  end.

(** [>] and [>=] are [<] and [<=] with the operands exchanged, as in [Sem.binop_sem] *)
Definition lv_binop (op : binop) (a b : lv) : lv :=
  match op with
  | BAnd | BOr => LUnknown
  | BEq => evaluate_equal a b
  | BNeq =>
    match evaluate_equal a b with
    | LTrue => LFalse
    | LFalse => LTrue
    | _ => LUnknown
    end
  | BLt => lv_less true a b
  | BLe => lv_less false a b
  | BGt => lv_less true b a
  | BGe => lv_less false b a
  | BConcat =>
    match string_coercion a, string_coercion b with
    | LString x, LString y => LString (x ++ y)
    | _, _ => LUnknown
    end
  | _ => lv_arith op a b
  end.

Lemma evaluate_binop op l r : is_andor op = false ->
  evaluate (EBinary op l r) = lv_binop op (evaluate l) (evaluate r).
Proof.
  destruct op; intros H; try discriminate H; try reflexivity;
    cbn [evaluate lv_binop]; destruct (evaluate l), (evaluate r); reflexivity.
Qed.

Lemma number_coercion_unknown : number_coercion LUnknown = LUnknown.
Proof. reflexivity. Qed.

Lemma lv_binop_known op a b : lv_binop op a b <> LUnknown -> a <> LUnknown /\ b <> LUnknown.
Proof.
  intros H. split; intros ->; apply H; clear H.
  - destruct op; try reflexivity; destruct b; reflexivity.
  - destruct op; cbn [lv_binop]; unfold lv_arith; try reflexivity;
      try (destruct a; reflexivity);
      try (destruct (number_coercion a); reflexivity);
      try (destruct (string_coercion a); reflexivity).
Qed.

(** side conditions of [dialect_safe] at a binary node *)
Definition op_safe (d : dialect) (op : binop) (a b : lv) : Prop :=
  (op = BConcat -> concat_operand_safe d a = true /\ concat_operand_safe d b = true) /\
  (op = BMod -> d = Luau -> forall x y, number_coercion a = LNumber x -> number_coercion b = LNumber y ->
                                        same_f64 (fmod_51 x y) (fmod_luau x y) = true).

Section Safe.
Variable d : dialect.

Lemma ds_split e : dialect_safe d e = true <->
  concat_safe d e = true /\ (d = Luau -> mod_safe e = true).
Proof.
  unfold dialect_safe. rewrite andb_true_iff. destruct d; intuition discriminate.
Qed.

Lemma ds_binary op l r : dialect_safe d (EBinary op l r) = true ->
  dialect_safe d l = true /\ dialect_safe d r = true /\ op_safe d op (evaluate l) (evaluate r).
Proof.
  rewrite !ds_split. cbn [concat_safe mod_safe]. rewrite !andb_true_iff. intros [[[A B] C] D].
  split; [|split].
  - split; auto. intros E. specialize (D E). tauto.
  - split; auto. intros E. specialize (D E). tauto.
  - split.
    + intros ->. now apply andb_true_iff in C.
    + intros -> E x y Hx Hy. specialize (D E). destruct D as [_ D].
      rewrite Hx, Hy in D. exact D.
Qed.

Lemma ds_if_cons c r bs els : dialect_safe d (EIf (EBranch c r :: bs) els) = true ->
  dialect_safe d c = true /\ dialect_safe d r = true /\ dialect_safe d (EIf bs els) = true.
Proof.
  rewrite !ds_split. cbn [concat_safe mod_safe forallb]. rewrite !andb_true_iff. intros [[[[A B] C] D] E].
  tauto.
Qed.

Lemma ds_interp_expr e segs : dialect_safe d (EInterp (ISExpr e :: segs)) = true ->
  dialect_safe d e = true /\ dialect_safe d (EInterp segs) = true.
Proof.
  rewrite !ds_split. cbn [concat_safe mod_safe forallb]. rewrite !andb_true_iff. intros [[A B] C].
  tauto.
Qed.

End Safe.

Section Inv.
Variable d : dialect.

Lemma num_coerce_ok s0 s la a x y :
  lv_ok s0 s la a -> number_coercion la = LNumber x -> tonum a = Some y -> x = y /\ valid x.
Proof.
  intros H E T. destruct (lv_ok_inv _ _ _ _ H); try discriminate E.
  - injection E as <-. injection T as <-. auto.
  - destruct (coercion_agrees _ _ _ T E) as [-> Hv]. auto.
Qed.

Lemma math_arith op x y z : valid x -> valid y ->
  (op = BMod -> d = Luau -> same_f64 (fmod_51 x y) (fmod_luau x y) = true) ->
  arith_num d op x y = Some z ->
  match math_op op x y with Some z' => z' = z /\ valid z | None => True end.
Proof.
  intros Hx Hy Hm. destruct op; cbn [arith_num math_op]; try discriminate;
    try (intros E; injection E as <-; split; [reflexivity|]).
  - now apply valid_fadd.
  - now apply valid_fsub.
  - now apply valid_fmul.
  - now apply valid_fdiv.
  - apply valid_ffloor. now apply valid_fdiv.
  - intros E; injection E as <-. rewrite (fmul_comm y). fold (fmod_51 x y).
    destruct d.
    + split; [reflexivity|]. now apply valid_fmod_51.
    + split; [|now apply valid_fmod_luau].
      apply to_bits_inj; auto using valid_fmod_51, valid_fmod_luau.
  - intros E. rewrite E. split; [reflexivity|]. exact (valid_fpow _ _ _ Hx E).
Qed.

Lemma eq_ok s0 s1 s2 la lb a b :
  lv_ok s0 s1 la a -> lv_ok s1 s2 lb b -> la <> LUnknown -> lb <> LUnknown ->
  evaluate_equal la lb = lv_of_bool (raw_equal a b).
Proof.
  intros Ha Hb Ka Kb.
  destruct (lv_ok_inv _ _ _ _ Ha) as [| | | | | |c Hc|t Ht Pt]; try congruence;
    destruct (lv_ok_inv _ _ _ _ Hb) as [| | | | | |c' Hc'|t' Ht' Pt']; try congruence; try reflexivity; cbn.
  - (* two closures, the second allocated after the first *)
    assert (c <> c') as Hne by (intros ->; lia). apply N.eqb_neq in Hne. rewrite Hne. reflexivity.
  - (* two tables, likewise *)
    destruct Pt as (tt & Htt & _). apply nth_N_lt in Htt.
    assert (t <> t') as Hne by (intros ->; lia). apply N.eqb_neq in Hne. rewrite Hne. reflexivity.
Qed.

Lemma arith_ok n op la lb a b s0 s2 r s3 :
  lv_ok s0 s2 la a -> lv_ok s0 s2 lb b -> plain s2 a -> plain s2 b -> strmeta_plain s2 ->
  op_safe d op la lb ->
  arith d n op a b s2 = Ok r s3 ->
  s3 = s2 /\ lv_ok s0 s2 (lv_arith op la lb) r.
Proof.
  intros Ha Hb Pa Pb Hs [_ Hm] H.
  apply arith_plain in H as [-> (x & y & z & Tx & Ty & Ez & ->)]; auto. split; [reflexivity|].
  unfold lv_arith.
  destruct (number_coercion la) as [| | |x'| | | |] eqn:Ea; try exact I.
  destruct (number_coercion lb) as [| | |y'| | | |] eqn:Eb; try exact I.
  destruct (num_coerce_ok _ _ _ _ _ _ Ha Ea Tx) as [-> Vx].
  destruct (num_coerce_ok _ _ _ _ _ _ Hb Eb Ty) as [-> Vy].
  assert (op = BMod -> d = Luau -> same_f64 (fmod_51 x y) (fmod_luau x y) = true) as Hm'.
  { intros E1 E2. apply Hm; auto. }
  pose proof (math_arith op x y z Vx Vy Hm' Ez) as M.
  destruct (math_op op x y) as [z'|]; [|exact I]. destruct M as [-> Vz]. cbn. auto.
Qed.

Lemma str_coerce_ok s0 s la a x :
  lv_ok s0 s la a -> cstr d a = Some x -> concat_operand_safe d la = true ->
  match string_coercion la with LString x' => x' = x | _ => True end.
Proof.
  intros H C S. destruct (lv_ok_inv _ _ _ _ H); cbn [string_coercion]; try exact I.
  - injection C as <-. destruct (plain_decimal_range _); [|exact I]. now apply bytes_eqb_eq in S.
  - now injection C.
Qed.

Lemma less_ok n strict la lb a b s0 s r s' :
  lv_ok s0 s la a -> lv_ok s0 s lb b -> plain s a -> plain s b -> strmeta_plain s ->
  less d n strict a b s = Ok r s' ->
  s' = s /\ lv_ok s0 s (lv_less strict la lb) (VBool r).
Proof.
  intros Ha Hb Pa Pb Hs H. apply less_plain in H as [-> E]; auto. split; [reflexivity|].
  destruct (lv_ok_inv _ _ _ _ Ha); try exact I;
    destruct (lv_ok_inv _ _ _ _ Hb); try exact I; try discriminate E;
    injection E as <-; apply lv_ok_bool.
Qed.

Lemma binop_ok n op la lb a b s0 s1 s2 vs s3 :
  is_andor op = false ->
  lv_ok s0 s1 la a -> lv_ok s1 s2 lb b -> la <> LUnknown -> lb <> LUnknown ->
  store_extends s0 s1 -> store_extends s1 s2 -> strmeta_plain s2 ->
  op_safe d op la lb ->
  binop_sem d n op a b s2 = Ok vs s3 ->
  s3 = s2 /\ lv_ok s0 s2 (lv_binop op la lb) (first vs).
Proof.
  intros Hop Ha Hb Ka Kb E01 E12 Hs Ho H.
  assert (lv_ok s0 s2 la a) as Ha2 by (eapply lv_ok_mono; [apply store_extends_refl|exact E12|exact Ha]).
  assert (lv_ok s0 s2 lb b) as Hb2 by (eapply lv_ok_mono; [exact E01|apply store_extends_refl|exact Hb]).
  pose proof (lv_ok_plain _ _ _ _ Ha2 Ka) as Pa. pose proof (lv_ok_plain _ _ _ _ Hb2 Kb) as Pb.
  destruct (arith_name op) as [ev|] eqn:Ear.
  { rewrite binop_sem_arith in H by (rewrite Ear; discriminate). binv H as r s' Hr. rinv H.
    replace (lv_binop op la lb) with (lv_arith op la lb) by (destruct op; try discriminate Ear; reflexivity).
    eapply arith_ok; eauto. }
  (* unfolded while [op] is still a variable: with a constructor in its place the kernel
     compares [binop_sem .. s] with [bind .. s] by unfolding [bind] first, and then has two
     copies of the interpreter to compare under it *)
  unfold binop_sem in H.
  destruct op; try discriminate Hop; try discriminate Ear; binv H as r s' Hr; rinv H; cbn [first].
  - (* == *) apply equal_plain in Hr as [-> ->]; auto. split; [reflexivity|]. cbn [lv_binop].
    rewrite (eq_ok _ _ _ _ _ _ _ Ha Hb Ka Kb). apply lv_ok_bool.
  - (* ~= *) apply equal_plain in Hr as [-> ->]; auto. split; [reflexivity|]. cbn [lv_binop].
    rewrite (eq_ok _ _ _ _ _ _ _ Ha Hb Ka Kb). destruct (raw_equal a b); exact I.
  - (* < *) exact (less_ok _ _ _ _ _ _ _ _ _ _ Ha2 Hb2 Pa Pb Hs Hr).
  - (* <= *) exact (less_ok _ _ _ _ _ _ _ _ _ _ Ha2 Hb2 Pa Pb Hs Hr).
  - (* > *) exact (less_ok _ _ _ _ _ _ _ _ _ _ Hb2 Ha2 Pb Pa Hs Hr).
  - (* >= *) exact (less_ok _ _ _ _ _ _ _ _ _ _ Hb2 Ha2 Pb Pa Hs Hr).
  - (* .. *) apply concat_plain in Hr as [-> (x & y & Cx & Cy & ->)]; auto.
    split; [reflexivity|]. destruct (proj1 Ho eq_refl) as [Sa Sb]. cbn [lv_binop].
    pose proof (str_coerce_ok _ _ _ _ _ Ha2 Cx Sa) as Xa. pose proof (str_coerce_ok _ _ _ _ _ Hb2 Cy Sb) as Xb.
    destruct (string_coercion la); try exact I. destruct (string_coercion lb); try exact I.
    subst. reflexivity.
Qed.

Definition lv_unop (op : unop) (a : lv) : lv :=
  match op with
  | UNot => match is_truthy a with Some b => lv_of_bool (negb b) | None => LUnknown end
  | UMinus => match number_coercion a with LNumber x => LNumber (fneg x) | _ => LUnknown end
  | ULen => lv_length a
  end.

Lemma evaluate_unop op e : evaluate (EUnary op e) = lv_unop op (evaluate e).
Proof. destruct op; reflexivity. Qed.

Definition unop_sem (n : nat) (op : unop) (v : value) : M (list value) :=
  match op with
  | UNot => ret [VBool (negb (truthy v))]
  | UMinus =>
    match tonum v with
    | Some x => ret [VNum (fneg x)]
    | None =>
      h <- metamethod v "__unm" ;;
      match h with
      | VNil => fail 18
      | _ => vs <- call d n h [v; v] ;; ret [first vs]
      end
    end
  | ULen => r <- length d n v ;; ret [r]
  end.

Lemma eval_S_unary' n rho va op e :
  eval d (S n) rho va (EUnary op e) = (v <- eval1 d n rho va e ;; unop_sem n op v).
Proof. exact (eval_S_unary d n rho va op e). Qed.

Lemma unop_ok n op la a s0 s vs s' :
  lv_ok s0 s la a -> (op <> UNot -> la <> LUnknown) -> strmeta_plain s ->
  unop_sem n op a s = Ok vs s' ->
  s' = s /\ lv_ok s0 s (lv_unop op la) (first vs).
Proof.
  intros Ha Ka Hs H. destruct op; cbn [unop_sem lv_unop] in *.
  - rinv H. split; [reflexivity|]. cbn [first].
    destruct (is_truthy la) as [b|] eqn:E; [|exact I].
    rewrite (lv_ok_truthy _ _ _ _ _ Ha E). apply lv_ok_bool.
  - assert (la <> LUnknown) as K by (apply Ka; discriminate).
    pose proof (lv_ok_plain _ _ _ _ Ha K) as Pa.
    destruct (tonum a) as [x|] eqn:T.
    + rinv H. split; [reflexivity|]. cbn [first].
      destruct (number_coercion la) as [| | |x'| | | |] eqn:E; try exact I.
      destruct (num_coerce_ok _ _ _ _ _ _ Ha E T) as [-> V]. cbn. split; [reflexivity|]. now apply valid_fneg.
    + exfalso. binv H as h s1 Hh.
      apply metamethod_plain_ok in Hh as [-> ->]; [discriminate|assumption|assumption|reflexivity].
  - assert (la <> LUnknown) as K by (apply Ka; discriminate).
    pose proof (lv_ok_plain _ _ _ _ Ha K) as Pa.
    binv H as r s1 Hr. rinv H. apply length_plain in Hr as [-> [(x & -> & ->)|(t & ->)]]; auto; (split; [reflexivity|]); cbn [first].
    + destruct la; cbn in Ha; try contradiction. subst. cbn. split; [reflexivity|]. apply valid_of_Z.
    + destruct la; cbn in Ha; try contradiction; exact I.
Qed.

(** [Pure e]: the hypothesis under which the invariant holds.  The [D_] lemmas say what it gives
    for the sub-expressions that the interpreter goes on to evaluate. *)

Definition Pure (e : expr) : Prop :=
  dialect_safe d e = true /\ tables_safe d e = true /\ has_side_effects false e = false.

(** [and] and [or] are one operator up to polarity: [sc_op w] goes on to its right operand
    when the left one has truth value [w], and otherwise answers the left one *)
Definition sc_op (w : bool) : binop := if w then BAnd else BOr.

Lemma is_andor_sc op : is_andor op = true -> exists w, op = sc_op w.
Proof. destruct op; try discriminate; intros _; [exists true|exists false]; reflexivity. Qed.

Lemma evaluate_sc w l r :
  evaluate (EBinary (sc_op w) l r) =
  match is_truthy (evaluate l) with
  | Some t => if Bool.eqb t w then evaluate r else evaluate l
  | None => LUnknown
  end.
Proof. destruct w; cbn [sc_op evaluate]; destruct (is_truthy (evaluate l)) as [[|]|]; reflexivity. Qed.

Lemma eval_S_sc w n rho va l r :
  eval d (S n) rho va (EBinary (sc_op w) l r) =
  (a <- eval1 d n rho va l ;;
   if w then (if truthy a then b <- eval1 d n rho va r ;; ret [b] else ret [a])
   else (if truthy a then ret [a] else b <- eval1 d n rho va r ;; ret [b])).
Proof. destruct w; [exact (eval_S_and d n rho va l r)|exact (eval_S_or d n rho va l r)]. Qed.

Lemma sc_cases {A} (w t : bool) (K X : A) :
  (if w then (if t then K else X) else (if t then X else K)) = if Bool.eqb t w then K else X.
Proof. destruct w, t; reflexivity. Qed.

Lemma hse_sc w l r : has_side_effects false (EBinary (sc_op w) l r) = false <->
  has_side_effects false l = false /\
  (is_truthy (evaluate l) <> Some (negb w) -> has_side_effects false r = false).
Proof.
  destruct w; cbn [sc_op has_side_effects negb]; destruct (is_truthy (evaluate l)) as [[|]|];
    rewrite ?orb_false_iff; intuition congruence.
Qed.

Lemma is_truthy_unknown v : is_truthy v = None <-> v = LUnknown.
Proof. destruct v; cbn; split; congruence. Qed.

Lemma truthy_known b v : is_truthy v = Some b -> v <> LUnknown.
Proof. intros E K. apply is_truthy_unknown in K. congruence. Qed.

Lemma D_sc w l r : Pure (EBinary (sc_op w) l r) ->
  Pure l /\ (is_truthy (evaluate l) <> Some (negb w) -> Pure r).
Proof.
  intros (Hd & Ht & Hs). apply ds_binary in Hd as (Dl & Dr & _).
  cbn [tables_safe] in Ht. apply andb_true_iff in Ht as [Tl Tr].
  apply hse_sc in Hs as [Sl Sr]. unfold Pure. auto.
Qed.

Lemma maybe_metatable_false v : maybe_metatable v = false <-> v <> LUnknown.
Proof. destruct v; cbn; split; congruence. Qed.

Lemma hse_binop op l r : is_andor op = false ->
  has_side_effects false (EBinary op l r) =
  maybe_metatable (evaluate l) || maybe_metatable (evaluate r)
  || has_side_effects false l || has_side_effects false r.
Proof. destruct op; try discriminate; reflexivity. Qed.

Lemma D_binop op l r : is_andor op = false -> Pure (EBinary op l r) ->
  Pure l /\ Pure r /\ evaluate l <> LUnknown /\ evaluate r <> LUnknown /\
  op_safe d op (evaluate l) (evaluate r).
Proof.
  intros Hop (Hd & Ht & Hs). apply ds_binary in Hd as (Dl & Dr & Ho).
  cbn [tables_safe] in Ht. apply andb_true_iff in Ht as [Tl Tr].
  rewrite (hse_binop _ _ _ Hop), !orb_false_iff, !maybe_metatable_false in Hs.
  unfold Pure. tauto.
Qed.

Lemma hse_unop op e : has_side_effects false (EUnary op e) =
  match op with UNot => false | _ => maybe_metatable (evaluate e) end || has_side_effects false e.
Proof. destruct op; reflexivity. Qed.

Lemma D_unop op e : Pure (EUnary op e) ->
  Pure e /\ (op <> UNot -> evaluate e <> LUnknown).
Proof.
  intros (Hd & Ht & Hs). rewrite hse_unop in Hs. apply orb_false_iff in Hs as [S1 S2].
  split; [unfold Pure; auto|]. intros Hop. apply maybe_metatable_false. now destruct op.
Qed.

Lemma typeinst_lv p t : lv_le (evaluate (ETypeInst p t)) (evaluate p).
Proof. unfold lv_le. destruct p; auto. Qed.

Lemma evaluate_if_nil els : evaluate (EIf [] els) = evaluate els.
Proof. reflexivity. Qed.
Lemma evaluate_if_cons c r rest els :
  evaluate (EIf (EBranch c r :: rest) els) =
  match is_truthy (evaluate c) with
  | Some true => evaluate r
  | Some false => evaluate (EIf rest els)
  | None => LUnknown
  end.
Proof. reflexivity. Qed.

Definition hse_go1 (els : expr) :=
  fix go (bs : list ebranch) : bool :=
    match bs with
    | [] => has_side_effects false els
    | EBranch c' r' :: rest' =>
      if has_side_effects false c' then true
      else match is_truthy (evaluate c') with
           | Some true => has_side_effects false r'
           | Some false => go rest'
           | None => if has_side_effects false r' then true else go rest'
           end
    end.
Definition hse_go2 (els : expr) :=
  fix go (bs : list ebranch) : bool :=
    match bs with
    | [] => has_side_effects false els
    | EBranch c' r' :: rest' =>
      if has_side_effects false c' || has_side_effects false r' then true else go rest'
    end.

Lemma hse_if_nil els : has_side_effects false (EIf [] els) = has_side_effects false els.
Proof. reflexivity. Qed.
Lemma hse_if_cons c r rest els :
  has_side_effects false (EIf (EBranch c r :: rest) els) =
  if has_side_effects false c then true
  else match is_truthy (evaluate c) with
       | Some true => has_side_effects false r
       | Some false => hse_go1 els rest
       | None => if has_side_effects false r then true else hse_go2 els rest
       end.
Proof. reflexivity. Qed.

Lemma ts_if_cons c r bs els : tables_safe d (EIf (EBranch c r :: bs) els) = true ->
  tables_safe d c = true /\ tables_safe d r = true /\ tables_safe d (EIf bs els) = true.
Proof. cbn [tables_safe forallb]. rewrite !andb_true_iff. tauto. Qed.
Lemma cp_if_cons c r bs els : ctor_pure d (EIf (EBranch c r :: bs) els) = true ->
  ctor_pure d c = true /\ ctor_pure d r = true /\ ctor_pure d (EIf bs els) = true.
Proof. cbn [ctor_pure forallb]. rewrite !andb_true_iff. tauto. Qed.

(** what is left of [Pure (EIf bs els)] after the first step: the loop over the branches that
    can still be taken finds nothing *)
Definition PureIf (bs : list ebranch) (els : expr) : Prop :=
  dialect_safe d (EIf bs els) = true /\ tables_safe d (EIf bs els) = true /\ hse_go1 els bs = false.

Lemma D_if_cons c r bs els : PureIf (EBranch c r :: bs) els ->
  Pure c /\ forall t, is_truthy (evaluate c) <> Some (negb t) -> if t then Pure r else PureIf bs els.
Proof.
  intros (Hd & Ht & Hs). apply ds_if_cons in Hd as (Dc & Dr & Db). apply ts_if_cons in Ht as (Tc & Tr & Tb).
  cbn [hse_go1] in Hs. fold (hse_go1 els) in Hs.
  destruct (has_side_effects false c) eqn:Sc; [discriminate|]. split; [unfold Pure; auto|].
  intros t Nt. unfold Pure, PureIf.
  destruct (is_truthy (evaluate c)) as [[|]|]; [| |destruct (has_side_effects false r); [discriminate|]];
    destruct t; auto; elim Nt; reflexivity.
Qed.

Lemma hse_go2_go1 els : forall bs, hse_go2 els bs = false -> hse_go1 els bs = false.
Proof.
  induction bs as [|[c r] bs IH]; [auto|]. cbn [hse_go1 hse_go2]. fold (hse_go1 els) (hse_go2 els).
  destruct (has_side_effects false c); [discriminate|]. destruct (has_side_effects false r); [discriminate|].
  intros H. rewrite (IH H). destruct (is_truthy (evaluate c)) as [[|]|]; reflexivity.
Qed.

(** the three loops of [has_side_effects] over the branches are all at least as strict as the
    one that looks only at the branches that can still be taken *)
Lemma hse_if_go1 bs els : has_side_effects false (EIf bs els) = false -> hse_go1 els bs = false.
Proof.
  destruct bs as [|[c r] bs]; [auto|]. rewrite hse_if_cons. cbn [hse_go1]. fold (hse_go1 els).
  destruct (has_side_effects false c); [auto|]. destruct (is_truthy (evaluate c)) as [[|]|]; auto.
  destruct (has_side_effects false r); [auto|]. apply hse_go2_go1.
Qed.

Lemma D_if bs els : Pure (EIf bs els) -> PureIf bs els.
Proof. intros (Hd & Ht & Hs). split; auto using hse_if_go1. Qed.

Definition lv_interp_go :=
  fix go (ss : list iseg) (acc : bytes) : lv :=
    match ss with
    | [] => LString acc
    | ISStr s :: rest => go rest (acc ++ s)
    | ISExpr e' :: rest =>
      match evaluate e' with
      | LFalse => go rest (acc ++ of_string "false")
      | LTrue => go rest (acc ++ of_string "true")
      | LNil => go rest (acc ++ of_string "nil")
      | LString s => go rest (acc ++ s)
      | _ => LUnknown
      end
    end.

Lemma evaluate_interp segs : evaluate (EInterp segs) = lv_interp_go segs [].
Proof. reflexivity. Qed.

Lemma D_interp_expr e segs : Pure (EInterp (ISExpr e :: segs)) ->
  Pure e /\ evaluate e <> LUnknown /\ Pure (EInterp segs).
Proof.
  intros (Hd & Ht & Hs). apply ds_interp_expr in Hd as [De Ds].
  cbn [tables_safe forallb] in Ht. apply andb_true_iff in Ht as [Te Ts].
  cbn [has_side_effects existsb negb andb] in Hs. rewrite !orb_false_iff, maybe_metatable_false in Hs.
  unfold Pure. tauto.
Qed.

Definition entry_hyp (en : tentry) : Prop :=
  match en with
  | TField _ v => Pure v
  | TIndex k v => Pure k /\ Pure v
  | TValue v => Pure v
  end.

Lemma D_table en es : Pure (ETable (en :: es)) -> entry_hyp en /\ Pure (ETable es).
Proof.
  intros (Hd & Ht & Hs). cbn [tables_safe forallb] in Ht. apply andb_true_iff in Ht as [T1 T2].
  cbn [has_side_effects existsb] in Hs. apply orb_false_iff in Hs as [S1 S2].
  split; [|unfold Pure; auto].
  destruct en as [f v|k v|v]; cbn [entry_hyp]; unfold Pure.
  - apply andb_true_iff in T1. tauto.
  - rewrite !andb_true_iff in T1. apply orb_false_iff in S1. tauto.
  - apply andb_true_iff in T1. tauto.
Qed.

(** Where [evaluate] answers, [has_side_effects] finds nothing, as long as the table
    constructors in sight have pure entries ([ctor_pure]): [evaluate] gives up on whatever could
    run a metamethod or a call, and looks only at operands that are evaluated. *)

Definition Known (e : expr) : Prop :=
  ctor_pure d e = true -> evaluate e <> LUnknown -> has_side_effects false e = false.

Lemma known_sc w l r : Known l -> Known r -> Known (EBinary (sc_op w) l r).
Proof.
  intros IHl IHr Hc K. cbn [ctor_pure] in Hc. apply andb_true_iff in Hc as [Cl Cr].
  rewrite evaluate_sc in K. apply hse_sc.
  destruct (is_truthy (evaluate l)) as [t|] eqn:Et; [|now elim K].
  split; [exact (IHl Cl (truthy_known _ _ Et))|].
  intros Ne. apply (IHr Cr). destruct t, w; cbn in K, Ne; congruence.
Qed.

Lemma known_binop op l r : is_andor op = false -> Known l -> Known r -> Known (EBinary op l r).
Proof.
  intros Hop IHl IHr Hc K. cbn [ctor_pure] in Hc. apply andb_true_iff in Hc as [Cl Cr].
  rewrite (evaluate_binop _ _ _ Hop) in K. apply lv_binop_known in K as [Kl Kr].
  rewrite (hse_binop _ _ _ Hop), (IHl Cl Kl), (IHr Cr Kr).
  apply maybe_metatable_false in Kl, Kr. rewrite Kl, Kr. reflexivity.
Qed.

Lemma lv_unop_known op a : lv_unop op a <> LUnknown -> a <> LUnknown.
Proof. intros H ->. apply H. destruct op; reflexivity. Qed.

Lemma known_unop op e : Known e -> Known (EUnary op e).
Proof.
  intros IH Hc K. rewrite evaluate_unop in K. apply lv_unop_known in K.
  rewrite hse_unop, (IH Hc K). apply maybe_metatable_false in K. rewrite K. now destruct op.
Qed.

Lemma known_typeinst p t : Known p -> Known (ETypeInst p t).
Proof. intros IH Hc K. apply (IH Hc). destruct (typeinst_lv p t); congruence. Qed.

Definition Known_branch (b : ebranch) : Prop := match b with EBranch c r => Known c /\ Known r end.

(** proved together with the loop over the later branches, which differs from the first step
    (inlined in [has_side_effects]) only where the condition is unknown *)
Lemma known_if bs els : Forall Known_branch bs -> Known els -> Known (EIf bs els).
Proof.
  intros Hbs Hels.
  enough (ctor_pure d (EIf bs els) = true -> evaluate (EIf bs els) <> LUnknown ->
          has_side_effects false (EIf bs els) = false /\ hse_go1 els bs = false) as G
    by (intros C K; exact (proj1 (G C K))).
  induction Hbs as [|[c r] bs [Hc Hr] _ IH]; intros C K.
  - split; exact (Hels C K).
  - apply cp_if_cons in C as (Cc & Cr & Cb). rewrite evaluate_if_cons in K.
    rewrite hse_if_cons. cbn [hse_go1]. fold (hse_go1 els).
    destruct (is_truthy (evaluate c)) as [[|]|] eqn:Et; [| |now elim K];
      rewrite (Hc Cc (truthy_known _ _ Et)).
    + split; exact (Hr Cr K).
    + split; exact (proj2 (IH Cb K)).
Qed.

Definition Known_seg (sg : iseg) : Prop := match sg with ISExpr e => Known e | ISStr _ => True end.

Lemma known_interp segs : Forall Known_seg segs -> Known (EInterp segs).
Proof.
  intros Hs C K. rewrite evaluate_interp in K. revert C K. generalize (@nil N).
  induction Hs as [|[x|e] segs He _ IH]; intros acc C K.
  - reflexivity.
  - exact (IH _ C K).
  - cbn [ctor_pure forallb] in C. apply andb_true_iff in C as [Ce Cs].
    cbn [lv_interp_go] in K. fold lv_interp_go in K.
    assert (evaluate e <> LUnknown) as Ke by (intros E; rewrite E in K; now apply K).
    cbn [has_side_effects existsb]. rewrite (He Ce Ke).
    apply maybe_metatable_false in Ke as ->. cbn [negb andb orb].
    destruct (evaluate e); try (now elim K); exact (IH _ Cs K).
Qed.

Theorem known_pure : forall e, Known e.
Proof.
  apply (ind_expr (fun _ => True) Known Known_seg Known_branch (fun _ => True) (fun _ => True)
           (fun _ => True) (fun _ => True) (fun _ => True) (fun _ => True) (fun _ => True) (fun _ => True));
    try (intros; exact I).
  (* literals, names, functions: [has_side_effects] answers false; parentheses and casts are
     transparent to all three functions *)
  all: try (intros; intros _ _; reflexivity); auto.
  - exact known_interp.
  - (* field *) intros p f _ _ K. now elim K.
  - (* index *) intros p k _ _ _ K. now elim K.
  - (* call *) intros p m a _ _ _ K. now elim K.
  - exact known_if.
  - (* table *) intros es _ C _. cbn [ctor_pure] in C. apply andb_true_iff in C as [C _].
    now apply negb_true_iff in C.
  - exact known_unop.
  - intros op l r IHl IHr. destruct (is_andor op) eqn:Hop.
    + apply is_andor_sc in Hop as [w ->]. now apply known_sc.
    + now apply known_binop.
  - intros p t IH _. now apply known_typeinst.
  - intros c r Hc Hr. exact (conj Hc Hr).
Qed.

Definition Sound (n : nat) (rho : env) (va : list value) (e : expr) : Prop :=
  forall s vs s', Pure e -> env_plain s -> eval d n rho va e s = Ok vs s' ->
  store_extends s s' /\ lv_ok s s' (evaluate e) (first vs).
Definition Main (n : nat) : Prop := forall e rho va, Sound n rho va e.
Definition Main1 (n : nat) : Prop := forall e rho va s v s', Pure e -> env_plain s ->
  eval1 d n rho va e s = Ok v s' -> store_extends s s' /\ lv_ok s s' (evaluate e) v.
Definition Fill (n : nat) : Prop := forall es rho va a pos s0 s u s',
  Pure (ETable es) -> env_plain s0 -> fresh_tab s0 s a ->
  fill_table d n rho va a es pos s = Ok u s' -> fresh_tab s0 s' a.

Lemma main1_step n : Main n -> Main1 (S n).
Proof.
  intros IH e rho va s v s' Hh He H. rewrite eval1_S in H. binv H as vs s1 Hv. rinv H.
  eapply IH; eauto.
Qed.

Lemma fill_step n : Main n -> Main1 n -> Fill n -> Fill (S n).
Proof.
  intros IHm IH1 IHf es rho va a pos s0 s u s' Hes He0 F H.
  assert (forall e v s s1, Pure e -> fresh_tab s0 s a ->
          eval1 d n rho va e s = Ok v s1 -> fresh_tab s0 s1 a) as Hev.
  { intros e v t t1 Hh Ft Hv. eapply fresh_tab_extends; [exact Ft|].
    eapply IH1; [exact Hh| |exact Hv]. eapply env_plain_extends; [apply Ft|exact He0]. }
  destruct es as [|[f e|k e|e] rest].
  - rewrite fill_table_S_nil in H. rinv H. exact F.
  - rewrite fill_table_S_field in H. binv H as v s1 Hv. binv H as u1 s2 Hput. destruct u1.
    apply D_table in Hes as [Hen Hrest]. cbn in Hen.
    exact (IHf _ _ _ _ _ s0 s2 _ _ Hrest He0 (put_ok _ _ _ _ _ _ Hput (Hev _ _ _ _ Hen F Hv)) H).
  - rewrite fill_table_S_index in H. binv H as kv s1 Hkv. binv H as v s2 Hv. binv H as u1 s3 Hput. destruct u1.
    apply D_table in Hes as [[Hk Hvv] Hrest].
    pose proof (Hev _ _ _ _ Hvv (Hev _ _ _ _ Hk F Hkv) Hv) as F2.
    exact (IHf _ _ _ _ _ s0 s3 _ _ Hrest He0 (put_ok _ _ _ _ _ _ Hput F2) H).
  - apply D_table in Hes as [Hen Hrest]. cbn in Hen. destruct rest as [|x rest].
    + rewrite fill_table_S_last in H. binv H as vs s1 Hv. eapply fill_go_ok; [exact H|].
      eapply fresh_tab_extends; [exact F|].
      eapply IHm; [exact Hen| |exact Hv]. eapply env_plain_extends; [apply F|exact He0].
    + rewrite fill_table_S_value in H. binv H as v s1 Hv. binv H as u1 s2 Hput. destruct u1.
      exact (IHf _ _ _ _ _ s0 s2 _ _ Hrest He0 (put_pos_ok _ _ _ _ _ _ Hput (Hev _ _ _ _ Hen F Hv)) H).
Qed.

Lemma compute_number_value x : compute_value x = number_value x /\ valid (compute_value x).
Proof.
  destruct x as [bits ex|i u [[e eu]|]|i u]; cbn [compute_value number_value].
  - split; [reflexivity|apply valid_of_bits].
  - split; [|apply valid_of_N]. f_equal. rewrite N.mul_mod_idemp_r; [reflexivity|discriminate].
  - split; [reflexivity|apply valid_of_N].
  - split; [reflexivity|apply valid_of_N].
Qed.

Section Step.
Variable n : nat.
Hypothesis IH1 : Main1 n.
Variables (rho : env) (va : list value).
Local Notation Sound := (Sound (S n) rho va).

Lemma number_ok x : Sound (ENumber x).
Proof.
  intros s vs s' _ _ H. rewrite eval_S_number in H. rinv H. split; [apply store_extends_refl|].
  cbn. destruct (compute_number_value x) as [E V]. rewrite <- E. auto.
Qed.

Lemma ident_ok x : Sound (EIdent x).
Proof.
  intros s vs s' _ He H. rewrite eval_S_ident in H. split; [|exact I]. destruct (lookup rho x).
  - binv H as v s1 Hv. rinv H. apply get_cell_ok in Hv. subst. apply store_extends_refl.
  - binv H as v s1 Hv. apply index_plain_store in Hv; [|apply He]. subst s1.
    destruct v; try (rinv H; apply store_extends_refl).
    destruct (is_ext_name x); rinv H; apply store_extends_refl.
Qed.

Lemma function_ok f : Sound (EFunction f).
Proof.
  intros s vs s' _ _ H. rewrite eval_S_function in H. binv H as c s1 Hc. rinv H.
  apply new_closure_ok in Hc as (E & Ea & Ec). split; [exact E|].
  cbn. rewrite Ec, app_length. cbn. lia.
Qed.

Lemma table_ok es : Fill n -> Sound (ETable es).
Proof.
  intros IHf s vs s' Hh He H. rewrite eval_S_table in H. binv H as a s1 Ha. binv H as u s2 Hf. rinv H.
  apply new_table_ok in Ha; [|reflexivity].
  (* [fresh_tab s s' a] is the claim, spelt out *)
  exact (IHf _ _ _ _ _ s s1 _ _ Hh He Ha Hf).
Qed.

Lemma operand_ok e s v s1 : Pure e -> env_plain s -> eval1 d n rho va e s = Ok v s1 ->
  store_extends s s1 /\ lv_ok s s1 (evaluate e) v /\ env_plain s1.
Proof.
  intros Hh He H. destruct (IH1 e rho va s v s1 Hh He H) as [E L].
  exact (conj E (conj L (env_plain_extends _ _ E He))).
Qed.

(** an operand whose value is the value of the whole: the last operand of [and] and [or], a
    branch of [if], and what stands inside [(e)], [e :: t], [p<<t>>], to which [Pure] and
    (but for some [p<<t>>]) [evaluate] are transparent.  The run comes first so that it, and
    not [Pure] of the wrapped expression, determines [e] where [main_step] uses the lemma. *)
Lemma tail_ok e s vs s' :
  (v <- eval1 d n rho va e ;; ret [v]) s = Ok vs s' -> Pure e -> env_plain s ->
  store_extends s s' /\ lv_ok s s' (evaluate e) (first vs).
Proof. intros H Hh He. binv H as v s1 Hv. rinv H. exact (IH1 e rho va s v _ Hh He Hv). Qed.

Lemma if_ok els : forall bs s vs s',
  PureIf bs els -> env_plain s -> if_go d n rho va els bs s = Ok vs s' ->
  store_extends s s' /\ lv_ok s s' (evaluate (EIf bs els)) (first vs).
Proof.
  induction bs as [|[c r] bs IH]; intros s vs s' Hh He H.
  - (* [PureIf [] els] unfolds to [Pure els] *)
    rewrite if_go_nil in H. exact (tail_ok els _ _ _ H Hh He).
  - rewrite if_go_cons in H. binv H as cv s1 Hcv. apply D_if_cons in Hh as [Hc Hrest].
    destruct (operand_ok c s cv s1 Hc He Hcv) as (E1 & L1 & He1).
    specialize (Hrest _ (lv_ok_not_truthy _ _ _ _ L1)). rewrite evaluate_if_cons.
    apply (after_ok _ _ _ _ _ _ E1
             (truthy_le _ _ _ _ (fun t => if t then evaluate r else evaluate (EIf bs els)) L1)).
    destruct (truthy cv); [exact (tail_ok r _ _ _ H Hrest He1)|exact (IH _ _ _ Hrest He1 H)].
Qed.

Lemma interp_ok : forall segs acc s vs s',
  Pure (EInterp segs) -> env_plain s -> interp_go d n rho va segs acc s = Ok vs s' ->
  store_extends s s' /\ lv_ok s s' (lv_interp_go segs acc) (first vs).
Proof.
  induction segs as [|[x|e] segs IH]; intros acc s vs s' Hh He H.
  - rewrite interp_go_nil in H. rinv H. split; [apply store_extends_refl|reflexivity].
  - (* a literal segment has no part in [Pure] *)
    rewrite interp_go_str in H. exact (IH _ _ _ _ Hh He H).
  - rewrite interp_go_expr in H. binv H as v s1 Hv. binv H as sv s2 Hsv.
    apply D_interp_expr in Hh as (Hhe & Ke & Hrest).
    destruct (operand_ok e s v s1 Hhe He Hv) as (E1 & L1 & He1).
    apply tostr_plain in Hsv as [-> ->]; [|apply He1|eapply lv_ok_plain; eauto].
    eapply (after_ok _ _ _ _ _ _ E1); [|exact (IH _ _ _ _ Hrest He1 H)].
    cbn [lv_interp_go]. fold lv_interp_go. unfold lv_le.
    destruct (lv_ok_inv _ _ _ _ L1); auto.
Qed.

Lemma unary_ok op e : Sound (EUnary op e).
Proof.
  intros s vs s' Hh He H. rewrite eval_S_unary' in H. binv H as v s1 Hv. apply D_unop in Hh as [Hh K].
  destruct (operand_ok e s v s1 Hh He Hv) as (E1 & L1 & He1).
  apply (unop_ok _ _ _ _ _ _ _ _ L1 K (proj2 He1)) in H as [-> L].
  rewrite evaluate_unop. auto.
Qed.

Lemma sc_ok w l r : Sound (EBinary (sc_op w) l r).
Proof.
  intros s vs s' Hh He H.
  rewrite eval_S_sc in H. binv H as a s1 Ha. rewrite sc_cases in H. apply D_sc in Hh as [Hl Hr].
  destruct (operand_ok l s a s1 Hl He Ha) as (E1 & L1 & He1).
  pose proof (truthy_le _ _ _ _ (fun t => if Bool.eqb t w then evaluate r else evaluate l) L1) as V.
  cbv beta in V. rewrite <- evaluate_sc in V.
  destruct (Bool.eqb (truthy a) w) eqn:Ew.
  - apply eqb_prop in Ew. subst w.
    exact (after_ok _ _ _ _ _ _ E1 V (tail_ok r _ _ _ H (Hr (lv_ok_not_truthy _ _ _ _ L1)) He1)).
  - rinv H. exact (conj E1 (lv_ok_le _ _ _ _ _ V L1)).
Qed.

Lemma binary_ok op l r : is_andor op = false -> Sound (EBinary op l r).
Proof.
  intros Hop s vs s' Hh He H.
  rewrite (eval_S_binop _ _ _ _ _ _ _ Hop) in H. binv H as a s1 Ha. binv H as b s2 Hb.
  apply (D_binop _ _ _ Hop) in Hh as (Hl & Hr & Kl & Kr & Ho).
  destruct (operand_ok l s a s1 Hl He Ha) as (E1 & L1 & He1).
  destruct (operand_ok r s1 b s2 Hr He1 Hb) as (E2 & L2 & He2).
  destruct (binop_ok _ _ _ _ _ _ _ _ _ _ _ Hop L1 L2 Kl Kr E1 E2 (proj2 He2) Ho H) as [-> L].
  rewrite (evaluate_binop _ _ _ Hop).
  split; [eapply store_extends_trans; eauto|exact L].
Qed.

End Step.

Lemma main_step n : Main1 n -> Fill n -> Main (S n).
Proof.
  intros IH1 IHf e rho va s vs s' Hh He H. destruct e.
  - rewrite eval_S_nil in H. rinv H. split; [apply store_extends_refl|exact I].
  - rewrite eval_S_true in H. rinv H. split; [apply store_extends_refl|exact I].
  - rewrite eval_S_false in H. rinv H. split; [apply store_extends_refl|exact I].
  - eapply number_ok; eauto.
  - rewrite eval_S_string in H. rinv H. split; [apply store_extends_refl|reflexivity].
  - rewrite eval_S_interp in H. rewrite evaluate_interp. eapply interp_ok; eauto.
  - rewrite eval_S_varargs in H. rinv H. split; [apply store_extends_refl|exact I].
  - eapply ident_ok; eauto.
  - destruct Hh as (_ & _ & Hs). discriminate Hs.
  - destruct Hh as (_ & _ & Hs). discriminate Hs.
  - destruct Hh as (_ & _ & Hs). discriminate Hs.
  - eapply function_ok; eauto.
  - rewrite eval_S_if in H. eapply if_ok; eauto using D_if.
  - rewrite eval_S_paren in H. exact (tail_ok n IH1 _ _ _ _ _ _ H Hh He).
  - eapply table_ok; eauto.
  - eapply unary_ok; eauto.
  - destruct (is_andor op) eqn:Hop.
    + apply is_andor_sc in Hop as [w ->]. eapply sc_ok; eauto.
    + eapply binary_ok; eauto.
  - rewrite eval_S_typecast in H. exact (tail_ok n IH1 _ _ _ _ _ _ H Hh He).
  - rewrite eval_S_typeinst in H.
    exact (after_ok _ _ _ _ _ _ (store_extends_refl s) (typeinst_lv _ _) (tail_ok n IH1 _ _ _ _ _ _ H Hh He)).
Qed.

Theorem main_all : forall n, Main n /\ Main1 n /\ Fill n.
Proof.
  induction n as [|n (IHm & IH1 & IHf)].
  - split; [|split].
    + intros e rho va s vs s' _ _ H. rewrite eval_0 in H. discriminate.
    + intros e rho va s v s' _ _ H. rewrite eval1_0 in H. discriminate.
    + intros es rho va a pos s0 s u s' _ _ _ H. rewrite fill_table_0 in H. discriminate.
  - split; [apply main_step; auto|]. split; [apply main1_step; auto|apply fill_step; auto].
Qed.

End Inv.
