(** C06, remove_if_expression: the and/or form.  [if c then r else e] becomes [c and r or e]
    when darklua's evaluator knows [r] to be truthy; sound because the evaluator is
    (C08, through [known_cond_run]). *)
From Coq Require Import ZArith NArith List Bool String Lia.
From DL Require Import Lib.Bytes Lib.F64 Lua.Syntax Lua.Sem Model.Evaluator Lua.EvalSpec Lua.EvalSpec2
  Proof.SemFacts Proof.EvaluatorStore Proof.EvaluatorSound Proof.LoweringFuel Proof.RefactorSem
  Proof.DefaultRulesSoundBlock Proof.DefaultRulesSoundExpr Proof.LoweringSoundBasic Model.Visit Model.Lowering.
Import ListNotations.
Open Scope N_scope.
Local Notation llen := List.length.

(** evaluating [c] leaves the globals table without metatable and the string metatable
    pristine (what [evaluate_sound] asks of the store in which the branch result is then
    evaluated) *)
Definition preserves_plain (d : dialect) (rho : env) (va : list value) (c : expr) : Prop :=
  forall n s v s1, env_plain s -> eval1 d n rho va c s = Ok v s1 -> env_plain s1.

(** satisfiable: any condition the evaluator finds free of side effects *)
Lemma pure_preserves_plain d rho va c :
  has_side_effects false c = false -> deep_safe d c = true -> preserves_plain d rho va c.
Proof.
  intros Hp Hd n s v s1 He H.
  exact (env_plain_extends _ _ (proj1 (pure_run1 _ _ _ _ _ _ _ _ Hp Hd He H)) He).
Qed.

(** one branch, value position: once [c] has run, [c and r or e] yields what [if c then r else e]
    yields, given enough fuel: the value of [r], which is truthy so that [or] keeps it, or the
    value of [e] *)
Lemma andor_step d rho va c r e n n' s cv s0 v s' :
  is_truthy (evaluate r) = Some true -> deep_safe d r = true -> ctor_pure d r = true ->
  env_plain s -> preserves_plain d rho va c ->
  eval1 d n rho va c s = Ok cv s0 ->
  (if truthy cv then eval1 d n rho va r s0 = Ok v s'
   else forall k, (n' <= k)%nat -> eval1 d k rho va e s0 = Ok v s') ->
  forall k, (4 + n + n' <= k)%nat ->
  eval1 d k rho va (EBinary BOr (EBinary BAnd c r) e) s = Ok v s'.
Proof.
  intros Ht Hd Hc He Hp Hcv H k Hk. destruct k as [|[|[|[|k]]]]; try lia.
  rewrite eval1_or_S. unfold bind at 1. rewrite eval1_and_S. unfold bind at 1.
  rewrite (eval1_up _ _ k _ _ _ _ _ _ Hcv) by lia.
  destruct (truthy cv) eqn:Ta.
  - rewrite (eval1_up _ _ k _ _ _ _ _ _ H) by lia.
    rewrite (known_cond_run _ _ _ _ _ _ _ _ _ Hd Hc (Hp _ _ _ _ He Hcv) Ht H). reflexivity.
  - cbn [ret]. rewrite Ta. apply H. lia.
Qed.

(** the fold of the rule over the branches, every result known truthy *)
Definition andor_chain (bs : list ebranch) (els : expr) : expr :=
  fold_right (fun b acc => match b with EBranch c r => EBinary BOr (EBinary BAnd c r) acc end) els bs.

Definition branch_ok (d : dialect) (rho : env) (va : list value) (b : ebranch) : Prop :=
  match b with
  | EBranch c r =>
    is_truthy (evaluate r) = Some true /\ deep_safe d r = true /\ ctor_pure d r = true /\
    preserves_plain d rho va c
  end.

Lemma rw_if_andor d rho va bs els : bs <> [] -> Forall (branch_ok d rho va) bs ->
  rw_if_expression (EIf bs els) = andor_chain bs els.
Proof.
  intros Hne F. unfold rw_if_expression. destruct bs as [|b bs]; [contradiction|]. clear Hne.
  revert F. generalize (b :: bs). clear b bs. intros l F. induction F as [|[c r] l (Ht & _) F IH]; [reflexivity|].
  cbn [fold_right andor_chain]. fold (andor_chain l els). rewrite IH. unfold convert_if_branch. rewrite Ht. reflexivity.
Qed.

Lemma andor_chain_fold d rho va els : forall bs, Forall (branch_ok d rho va) bs ->
  forall n s v s', env_plain s ->
  (vs <- if_go d n rho va els bs ;; ret (first vs)) s = Ok v s' ->
  exists n', forall k, (n' <= k)%nat -> eval1 d k rho va (andor_chain bs els) s = Ok v s'.
Proof.
  induction 1 as [|[c r] bs (Ht & Hd & Hc & Hp) F IH]; intros n s v s' He H;
    apply bind_ok in H as (vs & s1 & Hv & H); apply ret_ok in H as [-> ->].
  - rewrite if_go_nil in Hv. apply bind_ok in Hv as (x & s2 & Hx & Hv). apply ret_ok in Hv as [-> ->].
    exists n. intros k Hk. eapply eval1_mono; eauto.
  - rewrite if_go_cons in Hv. cbn [andor_chain fold_right]. fold (andor_chain bs els).
    apply bind_ok in Hv as (cv & s0 & Hcv & Hv).
    destruct (truthy cv) eqn:Ta.
    + apply bind_ok in Hv as (x & s2 & Hx & Hv). apply ret_ok in Hv as [-> ->].
      exists (4 + n + 0)%nat. eapply andor_step; eauto. rewrite Ta. exact Hx.
    + destruct (IH n s0 (first vs) s1 (Hp _ _ _ _ He Hcv)) as (n' & Hn').
      { unfold bind. rewrite Hv. reflexivity. }
      exists (4 + n + n')%nat. eapply andor_step; eauto. rewrite Ta. exact Hn'.
Qed.

Theorem ifexpr_andor_fold_sound : forall d n rho va bs els s vs s',
  bs <> [] -> Forall (branch_ok d rho va) bs -> env_plain s ->
  eval d n rho va (EIf bs els) s = Ok vs s' ->
  exists n', eval d n' rho va (rw_if_expression (EIf bs els)) s = Ok vs s'.
Proof.
  intros d n rho va bs els s vs s' Hne F He H. rewrite (rw_if_andor d rho va) by assumption.
  fuel_S n H. rewrite eval_S_if in H.
  rewrite (single_first vs (if_go_single _ _ _ _ _ _ _ _ _ H)).
  destruct (andor_chain_fold d rho va els bs F n s (first vs) s' He) as (n' & Hn').
  { unfold bind. rewrite H. reflexivity. }
  destruct bs as [|[c r] bs]; [contradiction|]. cbn [andor_chain fold_right] in *.
  exists n'. apply eval_of_eval1; [reflexivity|]. apply Hn'. lia.
Qed.

Theorem ifexpr_andor_sound : forall d n rho va c r els s vs s',
  is_truthy (evaluate r) = Some true -> deep_safe d r = true -> ctor_pure d r = true ->
  env_plain s -> preserves_plain d rho va c ->
  eval d n rho va (EIf [EBranch c r] els) s = Ok vs s' ->
  exists n', eval d n' rho va (EBinary BOr (EBinary BAnd c r) els) s = Ok vs s'.
Proof.
  intros d n rho va c r els s vs s' Ht Hd Hc He Hp H.
  assert (Forall (branch_ok d rho va) [EBranch c r]) as F by (constructor; [cbn [branch_ok]; auto|constructor]).
  assert ([EBranch c r] <> []) as Hne by discriminate.
  destruct (ifexpr_andor_fold_sound d n rho va _ els s vs s' Hne F He H) as (n' & Hn').
  rewrite (rw_if_andor d rho va) in Hn' by assumption. eauto.
Qed.

(** the hypotheses are satisfiable: two branches with string / table results, the first
    condition calls an external function *)
Example ifexpr_andor_example :
  let c1 := ECall (EIdent (of_string "ext_p")) None (ATuple []) in
  let bs := [EBranch c1 (EString [97]); EBranch (EIdent (of_string "q")) (ETable [])] in
  Forall (fun b => match b with EBranch c r =>
            is_truthy (evaluate r) = Some true /\ deep_safe Luau r = true /\ ctor_pure Luau r = true end) bs /\
  env_plain (initial_store [[OBool false]]) /\
  rw_if_expression (EIf bs ENil) =
    EBinary BOr (EBinary BAnd c1 (EString [97]))
      (EBinary BOr (EBinary BAnd (EIdent (of_string "q")) (ETable [])) ENil) /\
  exists s', eval Luau 20 [] [] (EIf bs ENil) (initial_store [[OBool false]]) = Ok [VNil] s' /\
             eval Luau 20 [] [] (rw_if_expression (EIf bs ENil)) (initial_store [[OBool false]]) = Ok [VNil] s'.
Proof.
  cbv zeta. split; [repeat constructor|]. split.
  - split; eexists; split; reflexivity.
  - split; [reflexivity|]. vm_compute. eexists. split; reflexivity.
Qed.
