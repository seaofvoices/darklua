(** C02: the conditions evaluated on the frozen tables, satisfiability examples and the
    refutation of the unrestricted statement. *)
From DL Require Import Lib.Bytes Model.Lexer Model.DenseGen Model.Precedence Model.C02Spec Proof.PrecedenceFacts Proof.C02FrozenTables.
Open Scope N_scope.

Definition it (m : mode) (s : string) : item := {| imode := m; itext := of_string s |}.

(** the frozen copy of the tables satisfies the condition (the live copy is re-checked on
    every run in [Generated/C02Current.v]) *)
Example frozen_table_ok : spacing_ok tbl = true.
Proof. vm_compute. reflexivity. Qed.

(** the hypotheses are satisfiable by a non-trivial push list:
    [local function f(...) return 1 ..x.y, - -a[ [[s]] ] end] *)
Definition sample_items : list item :=
  [it MStr "local"; it MSpace ""; it MStr "function"; it MSpace ""; it MStr "f"; it MStr "(";
   it MStr "..."; it MStr ")"; it MStr "return"; it MStr "1"; it (MBreak BConcat) "..";
   it MStr "x"; it (MNlRaw 1) "."; it MStr "y"; it MStr ","; it (MBreak BMinus) "-";
   it (MBreak BMinus) "-"; it MStr "a"; it MStr "["; it (MBreak BLongString) "[[s]]"; it MStr "]";
   it MStr "g"; it MMerge "("; it MStr ")"; it MStr "end"]%string.

Example sample_in_universe : adjacency_ok sample_items = true.
Proof. vm_compute. reflexivity. Qed.

Example sample_text :
  to_string (emit tbl 80 sample_items) = "local function f(...)return 1 ..x.y,- -a[ [[s]] ]g()end"%string.
Proof. vm_compute. reflexivity. Qed.

(** THE UNRESTRICTED STATEMENT IS FALSE for the tables of darklua: a number whose text
    starts with "-" (darklua writes the number node -0.0 as "-0") followed by ".." is not
    separated, and "0..h" is one malformed number.  This push list is what dense.rs performs
    for [return -0 .. h] after compute_expression (recorded finding). *)
Definition fusion_items : list item :=
  [it MStr "return"; it MStr "-0"; it (MBreak BConcat) ".."; it MStr "h"]%string.

Theorem no_fusion_unrestricted_refuted :
  exists items span, lex (emit tbl span items) <> lex (canon items).
Proof. exists fusion_items, 80. vm_compute. discriminate. Qed.

(** ... and it is outside the hypotheses of both theorems, as it must be *)
Example fusion_items_rejected : stream_ok tbl fusion_items = false /\ adjacency_ok fusion_items = false.
Proof. vm_compute. split; reflexivity. Qed.

Example frozen_prec_ok : prec_ok ptbl = true.
Proof. vm_compute. reflexivity. Qed.

(** a non-trivial tree: not (((a + b) * -(c ^ d)) ^ (e .. (f .. g))), written "not((a+b)*-c^d)^(e..f..g)" *)
Definition sample_tree : expr :=
  EUn Not (EBin Caret (EBin Asterisk (EBin Plus (EAtom 0) (EAtom 1)) (EUn Neg (EBin Caret (EAtom 2) (EAtom 3))))
                      (EBin Concat (EAtom 4) (EBin Concat (EAtom 5) (EAtom 6)))).

Example sample_tree_tokens :
  tokens_of_expr ptbl sample_tree =
  [KOp SNot; KLp; KLp; KAtom 0; KOp SPlus; KAtom 1; KRp; KOp SStar; KOp SMinus; KAtom 2; KOp SCaret; KAtom 3; KRp;
   KOp SCaret; KLp; KAtom 4; KOp SConcat; KAtom 5; KOp SConcat; KAtom 6; KRp].
Proof. vm_compute. reflexivity. Qed.

Example sample_tree_reads_back :
  option_map strip (parse_expr (tokens_of_expr ptbl sample_tree)) = Some sample_tree.
Proof. vm_compute. reflexivity. Qed.

(** without the generator's parentheses the same tree is read differently: the condition
    [wp] is not vacuous *)
Example plain_print_is_ambiguous :
  parse_expr (print_plain (EBin Asterisk (EBin Plus (EAtom 0) (EAtom 1)) (EAtom 2)))
  = Some (EBin Plus (EAtom 0) (EBin Asterisk (EAtom 1) (EAtom 2))).
Proof. vm_compute. reflexivity. Qed.

(** a trailing cast to a bare type name on the right spine of the left operand of "<":
    Binary(<, Binary(+, a, TypeCast(b, T)), c) is written "(a+b::T)<c"; without the parentheses
    the reference grammar reads "T<c" as the start of type parameters *)
Definition cast_tree : expr := EBin LowerThan (EBin Plus (EAtom 0) (ECast (EAtom 1) (TyName false))) (EAtom 2).

Example cast_tree_tokens :
  tokens_of_expr ptbl cast_tree = [KLp; KAtom 0; KOp SPlus; KAtom 1; KCast (TyName false); KRp; KOp SLt; KAtom 2].
Proof. vm_compute. reflexivity. Qed.

Example cast_tree_reads_back : option_map strip (parse_expr (tokens_of_expr ptbl cast_tree)) = Some cast_tree.
Proof. vm_compute. reflexivity. Qed.

Example cast_without_parentheses_is_rejected : parse_expr (print_plain cast_tree) = None.
Proof. vm_compute. reflexivity. Qed.

(** a type with parameters needs none: "a+b::T<P><c" *)
Example cast_param_tree_tokens :
  tokens_of_expr ptbl (EBin LowerThan (EBin Plus (EAtom 0) (ECast (EAtom 1) (TyName true))) (EAtom 2))
  = [KAtom 0; KOp SPlus; KAtom 1; KCast (TyName true); KOp SLt; KAtom 2].
Proof. vm_compute. reflexivity. Qed.

(** the regression class "variadic return": value :: () -> ...Elem < limit must be wrapped *)
Example variadic_return_cast_is_wrapped :
  tokens_of_expr ptbl (EBin LowerThan (ECast (EAtom 0) (TyFunVariadic (TyName false))) (EAtom 1))
  = [KLp; KAtom 0; KCast (TyFunVariadic (TyName false)); KRp; KOp SLt; KAtom 1].
Proof. vm_compute. reflexivity. Qed.
