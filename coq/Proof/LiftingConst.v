(** C01, LIFTING - closed constant expressions: a small evaluator [cval] for expressions built
    from literals with [not], unary minus on numbers, arithmetic (not [%]) and comparisons on
    numbers, comparisons and [..] on strings, [==] / [~=], [and] / [or] and parentheses, and its
    soundness against the reference interpreter in EVERY store ([cval_sound]): no metatable is
    ever consulted and nothing is allocated, so no store invariant is needed (unlike the static
    evaluator of C08, which also decides expressions whose run depends on the string metatable
    or allocates).  Used as the oracle of the restricted rules in Proof/LiftingRulesConst.v; the
    literals of the [..._literal] rules are its simplest case. *)
From Coq Require Import ZArith NArith List Bool String Lia.
From DL Require Import Lib.Bytes Lib.F64 Lua.Syntax Lua.Sem.
From DL Require Import Proof.LoweringFuel.
From DL Require Import Proof.SemFacts Proof.DefaultRulesSem.
Import ListNotations.
Open Scope N_scope.

Lemma refines_bind_const {A B} (m : M A) (c : A) (f : A -> M B) (g : M B) :
  refines m (ret c) -> refines (f c) g -> refines (bind m f) g.
Proof.
  intros Hm Hf st Hn. unfold bind in *. specialize (Hm st).
  destruct (m st) as [a s0|e s0| |w] eqn:E; try (exfalso; apply Hn; reflexivity);
    specialize (Hm ltac:(discriminate)); cbn in Hm; inversion Hm; subst.
  now apply Hf.
Qed.

Definition arith_nomod (op : binop) (x y : f64) : option f64 :=
  match op with
  | BMod => None
  | _ => arith_num L51 op x y
  end.

Definition cbin (op : binop) (a b : value) : option value :=
  match op with
  | BEq => match a with VTable _ => None | _ => Some (VBool (raw_equal a b)) end
  | BNeq => match a with VTable _ => None | _ => Some (VBool (negb (raw_equal a b))) end
  | BLt => match a, b with
           | VNum x, VNum y => Some (VBool (fltb x y))
           | VStr x, VStr y => Some (VBool (bytes_ltb x y))
           | _, _ => None
           end
  | BLe => match a, b with
           | VNum x, VNum y => Some (VBool (fleb x y))
           | VStr x, VStr y => Some (VBool (bytes_leb x y))
           | _, _ => None
           end
  | BGt => match a, b with
           | VNum x, VNum y => Some (VBool (fltb y x))
           | VStr x, VStr y => Some (VBool (bytes_ltb y x))
           | _, _ => None
           end
  | BGe => match a, b with
           | VNum x, VNum y => Some (VBool (fleb y x))
           | VStr x, VStr y => Some (VBool (bytes_leb y x))
           | _, _ => None
           end
  | BConcat => match a, b with
               | VStr x, VStr y => Some (VStr (x ++ y))
               | _, _ => None
               end
  | BAnd | BOr => None
  | _ => match a, b with
         | VNum x, VNum y => option_map VNum (arith_nomod op x y)
         | _, _ => None
         end
  end.

Fixpoint cval (e : expr) : option value :=
  match e with
  | ENil => Some VNil
  | ETrue => Some (VBool true)
  | EFalse => Some (VBool false)
  | ENumber x => Some (VNum (number_value x))
  | EString s => Some (VStr s)
  | EParen e' => cval e'
  | EUnary UNot e' => option_map (fun v => VBool (negb (truthy v))) (cval e')
  | EUnary UMinus e' => match cval e' with Some (VNum x) => Some (VNum (fneg x)) | _ => None end
  | EBinary BAnd l r => match cval l with Some a => if truthy a then cval r else Some a | None => None end
  | EBinary BOr l r => match cval l with Some a => if truthy a then Some a else cval r | None => None end
  | EBinary op l r => match cval l, cval r with Some a, Some b => cbin op a b | _, _ => None end
  | _ => None
  end.

Inductive cval_rel : expr -> value -> Prop :=
| cv_nil : cval_rel ENil VNil
| cv_true : cval_rel ETrue (VBool true)
| cv_false : cval_rel EFalse (VBool false)
| cv_number x : cval_rel (ENumber x) (VNum (number_value x))
| cv_string s : cval_rel (EString s) (VStr s)
| cv_paren e v : cval_rel e v -> cval_rel (EParen e) v
| cv_not e w : cval_rel e w -> cval_rel (EUnary UNot e) (VBool (negb (truthy w)))
| cv_neg e x : cval_rel e (VNum x) -> cval_rel (EUnary UMinus e) (VNum (fneg x))
| cv_and_r l r a v : cval_rel l a -> truthy a = true -> cval_rel r v -> cval_rel (EBinary BAnd l r) v
| cv_and_l l r a : cval_rel l a -> truthy a = false -> cval_rel (EBinary BAnd l r) a
| cv_or_l l r a : cval_rel l a -> truthy a = true -> cval_rel (EBinary BOr l r) a
| cv_or_r l r a v : cval_rel l a -> truthy a = false -> cval_rel r v -> cval_rel (EBinary BOr l r) v
| cv_bin op l r a b v : is_andor op = false -> cval_rel l a -> cval_rel r b -> cbin op a b = Some v ->
                        cval_rel (EBinary op l r) v.

Lemma cval_graph e : forall v, cval e = Some v -> cval_rel e v.
Proof.
  induction e; intros v H; try discriminate H; cbn [cval] in H.
  - inversion H. constructor.
  - inversion H. constructor.
  - inversion H. constructor.
  - inversion H. constructor.
  - inversion H. constructor.
  - constructor. now apply IHe.
  - destruct op; [| |discriminate H].
    + destruct (cval e) as [w|]; [|discriminate H]. inversion H. constructor. now apply IHe.
    + destruct (cval e) as [[| |x| | | | |]|]; try discriminate H. inversion H. constructor. now apply IHe.
  - destruct (cval e1) as [a|]; [|destruct op; discriminate H]. specialize (IHe1 a eq_refl).
    destruct (is_andor op) eqn:Eo.
    + destruct op; try discriminate Eo; destruct (truthy a) eqn:Et.
      * eapply cv_and_r; eauto.
      * inversion H; subst. now apply cv_and_l.
      * inversion H; subst. now apply cv_or_l.
      * eapply cv_or_r; eauto.
    + destruct (cval e2) as [b|]; [|destruct op; try discriminate Eo; discriminate H]. specialize (IHe2 b eq_refl).
      apply (cv_bin op e1 e2 a b v Eo IHe1 IHe2). destruct op; try discriminate Eo; exact H.
Qed.

(** the arithmetic operators of [cbin] *)
Lemma cbin_arith_inv op a b v :
  match a, b with VNum x, VNum y => option_map VNum (arith_nomod op x y) | _, _ => None end = Some v ->
  exists x y r, a = VNum x /\ b = VNum y /\ arith_nomod op x y = Some r /\ v = VNum r.
Proof.
  intros H. destruct a; try discriminate H. destruct b; try discriminate H.
  destruct (arith_nomod op x x0) as [r|] eqn:E; [|discriminate H]. inversion H. eauto 7.
Qed.

Section Sound.
Variable d : dialect.

Lemma arith_nomod_num op x y r : arith_nomod op x y = Some r -> arith_num d op x y = Some r.
Proof. destruct op, d; cbn; intros H; try discriminate H; exact H. Qed.

Lemma eval1_const rho va e v :
  (forall n, refines (eval d n rho va e) (ret [v])) -> forall n, refines (eval1 d n rho va e) (ret v).
Proof.
  intros H [|n]; [apply refines_out, eval1_0|]. rewrite eval1_S.
  eapply refines_bind_const; [apply H|apply refines_refl].
Qed.

Lemma equal_S_nontable n a b s : (match a with VTable _ => False | _ => True end) ->
  equal d (S n) a b s = Ok (raw_equal a b) s.
Proof.
  intros Ha. rewrite equal_S. destruct (raw_equal a b) eqn:E; [reflexivity|].
  destruct a; try contradiction; reflexivity.
Qed.

Lemma arith_sound n op a b v :
  match a, b with VNum x, VNum y => option_map VNum (arith_nomod op x y) | _, _ => None end = Some v ->
  refines (r <- arith d (S n) op a b ;; ret [r]) (ret [v]).
Proof.
  intros H. destruct (cbin_arith_inv _ _ _ _ H) as (x & y & r & -> & -> & Hr & ->).
  rewrite arith_S. cbn [tonum]. rewrite (arith_nomod_num _ _ _ _ Hr). apply refines_refl.
Qed.

Lemma cbin_sound op a b v : cbin op a b = Some v -> forall n, refines (binop_sem d n op a b) (ret [v]).
Proof.
  intros H [|n].
  { apply refines_out. intros s. destruct op; cbn [binop_sem]; unfold bind;
      rewrite ?equal_0, ?less_0, ?concat_0, ?arith_0; reflexivity. }
  destruct op; cbn [cbin] in H; try discriminate H; cbn [binop_sem]; try (now apply arith_sound).
  - apply refines_eq. intros s. unfold bind.
    rewrite equal_S_nontable by (destruct a; try exact I; discriminate H).
    destruct a; inversion H; reflexivity.
  - apply refines_eq. intros s. unfold bind.
    rewrite equal_S_nontable by (destruct a; try exact I; discriminate H).
    destruct a; inversion H; reflexivity.
  - rewrite less_S. destruct a; try discriminate H; destruct b; try discriminate H; inversion H; apply refines_refl.
  - rewrite less_S. destruct a; try discriminate H; destruct b; try discriminate H; inversion H; apply refines_refl.
  - rewrite less_S. destruct a; try discriminate H; destruct b; try discriminate H; inversion H; apply refines_refl.
  - rewrite less_S. destruct a; try discriminate H; destruct b; try discriminate H; inversion H; apply refines_refl.
  - rewrite concat_S. destruct a; try discriminate H; destruct b; try discriminate H; inversion H; apply refines_refl.
Qed.

Lemma bind_const1 {B} rho va e v n (f : value -> M B) (g : M B) :
  (forall k, refines (eval d k rho va e) (ret [v])) -> refines (f v) g ->
  refines (bind (eval1 d n rho va e) f) g.
Proof. intros H Hf. eapply refines_bind_const; [apply eval1_const; exact H|exact Hf]. Qed.

Theorem cval_sound rho va e : forall v, cval e = Some v ->
  forall n, refines (eval d n rho va e) (ret [v]).
Proof.
  intros v H. apply cval_graph in H.
  induction H as [| | |x|s|e v He IHe|e w He IHe|e x He IHe|l r a v Hl IHl Et Hr IHr|l r a Hl IHl Et
                  |l r a Hl IHl Et|l r a v Hl IHl Et Hr IHr|op l r a b v Ho Hl IHl Hr IHr Hc];
    intros n; (destruct n as [|n]; [apply refines_out, eval_0|]).
  - rewrite eval_S_nil. apply refines_refl.
  - rewrite eval_S_true. apply refines_refl.
  - rewrite eval_S_false. apply refines_refl.
  - rewrite eval_S_number. apply refines_refl.
  - rewrite eval_S_string. apply refines_refl.
  - rewrite eval_S_paren. apply (bind_const1 rho va e v); [exact IHe|apply refines_refl].
  - rewrite eval_S_unary. apply (bind_const1 rho va e w); [exact IHe|apply refines_refl].
  - rewrite eval_S_unary. apply (bind_const1 rho va e (VNum x)); [exact IHe|apply refines_refl].
  - rewrite eval_S_and. apply (bind_const1 rho va l a); [exact IHl|]. rewrite Et.
    apply (bind_const1 rho va r v); [exact IHr|apply refines_refl].
  - rewrite eval_S_and. apply (bind_const1 rho va l a); [exact IHl|]. rewrite Et. apply refines_refl.
  - rewrite eval_S_or. apply (bind_const1 rho va l a); [exact IHl|]. rewrite Et. apply refines_refl.
  - rewrite eval_S_or. apply (bind_const1 rho va l a); [exact IHl|]. rewrite Et.
    apply (bind_const1 rho va r v); [exact IHr|apply refines_refl].
  - rewrite eval_S_binop by exact Ho. apply (bind_const1 rho va l a); [exact IHl|].
    apply (bind_const1 rho va r b); [exact IHr|]. now apply cbin_sound.
Qed.

Corollary cval_sound1 rho va e v : cval e = Some v -> forall n, refines (eval1 d n rho va e) (ret v).
Proof. intros H. apply eval1_const. now apply cval_sound. Qed.

End Sound.
