(** The value-level half of a same-fuel simulation of the reference interpreter, proved once.

    [call], [index], [setindex], [tostr], [arith], [concat], [equal], [less], [length] and
    [call_builtin] read no syntax, and look inside a closure record only through [get_closure],
    [new_closure] and the call of a closure's body.  So a relation between two runs that is a
    congruence for the monad and the store primitives ([sim_logic], closure records related by
    [C]) passes through these ten functions as soon as the bodies of two [C]-related closures
    run alike when their parameters are bound alike: [vsim_S].  The functions that read syntax
    are walked where [C] is known (Proof/LiftingSim.v: related bodies, one environment;
    Proof/RefactorSimC.v: one body, environments that agree on its names), with the tactic
    [sl_with] of this file.

    [gsim C two] is the relation both use: stores equal except for [C]-related closure records,
    equal outcomes; with [two = false] nothing is claimed when the left run is out of fuel. *)
From Coq Require Import ZArith NArith List Bool String Lia.
From DL Require Import Lib.Bytes Lib.F64 Lua.Syntax Lua.Sem.
From DL Require Import Proof.ListFacts Proof.SemFacts Proof.DefaultRulesSem Proof.RefactorSem.
Import ListNotations.
Open Scope N_scope.

Set Implicit Arguments.
Record sim_logic (sim : forall A, (A -> A -> Prop) -> M A -> M A -> Prop)
                 (C : closure -> closure -> Prop) : Prop := {
  sl_ret : forall A (R : A -> A -> Prop) a1 a2, R a1 a2 -> sim A R (ret a1) (ret a2);
  sl_fail : forall A R t, sim A R (fail t) (fail t);
  sl_unsup : forall A R t, sim A R (unsup t) (unsup t);
  sl_raise : forall A R v, sim A R (raise v) (raise v);
  sl_fuel : forall A R, sim A R (fun _ => Fuel) (fun _ => Fuel);
  sl_bind : forall A B (R : A -> A -> Prop) (R' : B -> B -> Prop) m1 m2 f1 f2,
    sim A R m1 m2 -> (forall a1 a2, R a1 a2 -> sim B R' (f1 a1) (f2 a2)) ->
    sim B R' (bind m1 f1) (bind m2 f2);
  sl_pcall : forall m1 m2, sim _ eq m1 m2 -> sim _ eq (pcall_wrap m1) (pcall_wrap m2);
  sl_ext : forall A R m1 m1' m2 m2', (forall s, m1 s = m1' s) -> (forall s, m2 s = m2' s) ->
    sim A R m1' m2' -> sim A R m1 m2;
  (** a run may depend on the tables of its initial store ([call_ext] renders its arguments) *)
  sl_tables : forall A R (f : store -> M A),
    (forall s1 s2, tables s1 = tables s2 -> sim A R (f s1) (f s2)) ->
    sim A R (fun s => f s s) (fun s => f s s);
  sl_get_cell : forall a, sim _ eq (get_cell a) (get_cell a);
  sl_set_cell : forall a v, sim _ eq (set_cell a v) (set_cell a v);
  sl_new_cell : forall v, sim _ eq (new_cell v) (new_cell v);
  sl_get_table : forall a, sim _ eq (get_table a) (get_table a);
  sl_set_table : forall a t, sim _ eq (set_table a t) (set_table a t);
  sl_new_table : forall t, sim _ eq (new_table t) (new_table t);
  sl_emit_event : forall e, sim _ eq (emit_event e) (emit_event e);
  sl_pop_oracle : sim _ eq pop_oracle pop_oracle;
  sl_next_fresh : sim _ eq next_fresh next_fresh;
  sl_get_closure : forall a, sim _ C (get_closure a) (get_closure a);
  sl_new_closure : forall c1 c2, C c1 c2 -> sim _ eq (new_closure c1) (new_closure c2)
}.

Record vsim (sim : forall A, (A -> A -> Prop) -> M A -> M A -> Prop) (d : dialect) (n : nat) : Prop := {
  vs_call : forall f args, sim _ eq (call d n f args) (call d n f args);
  vs_index : forall o k, sim _ eq (index d n o k) (index d n o k);
  vs_setindex : forall o k v, sim _ eq (setindex d n o k v) (setindex d n o k v);
  vs_tostr : forall v, sim _ eq (tostr d n v) (tostr d n v);
  vs_arith : forall o a b, sim _ eq (arith d n o a b) (arith d n o a b);
  vs_concat : forall a b, sim _ eq (concat d n a b) (concat d n a b);
  vs_equal : forall a b, sim _ eq (equal d n a b) (equal d n a b);
  vs_less : forall st a b, sim _ eq (less d n st a b) (less d n st a b);
  vs_length : forall v, sim _ eq (length d n v) (length d n v);
  vs_builtin : forall b args, sim _ eq (call_builtin d n b args) (call_builtin d n b args)
}.
Unset Implicit Arguments.

Lemma sl_bind_eq {sim C} (L : sim_logic sim C) {A B} (R' : B -> B -> Prop) (m1 m2 : M A) f1 f2 :
  sim A eq m1 m2 -> (forall a, sim B R' (f1 a) (f2 a)) -> sim B R' (bind m1 f1) (bind m2 f2).
Proof. intros H K. eapply (sl_bind L); [exact H|]. intros a1 a2 <-. apply K. Qed.

(** [sl_with L tac] on a goal [sim R m m'] with [m], [m'] of the same shape: peel binds, destruct
    scrutinees, close the leaves by the rules of the logic [L] or by [tac] *)
Ltac sl_leaf L :=
  lazymatch goal with
  | |- _ (ret _) (ret _) => apply (sl_ret L); reflexivity
  | |- _ (fail _) (fail _) => apply (sl_fail L)
  | |- _ (unsup _) (unsup _) => apply (sl_unsup L)
  | |- _ (raise _) (raise _) => apply (sl_raise L)
  | |- _ (num_result _) (num_result _) => apply (sl_ret L); reflexivity
  | |- _ (fun _ => Fuel) (fun _ => Fuel) => apply (sl_fuel L)
  | |- _ (get_cell _) (get_cell _) => apply (sl_get_cell L)
  | |- _ (set_cell _ _) (set_cell _ _) => apply (sl_set_cell L)
  | |- _ (new_cell _) (new_cell _) => apply (sl_new_cell L)
  | |- _ (get_table _) (get_table _) => apply (sl_get_table L)
  | |- _ (set_table _ _) (set_table _ _) => apply (sl_set_table L)
  | |- _ (new_table _) (new_table _) => apply (sl_new_table L)
  | |- _ (emit_event _) (emit_event _) => apply (sl_emit_event L)
  | |- _ pop_oracle pop_oracle => apply (sl_pop_oracle L)
  | |- _ next_fresh next_fresh => apply (sl_next_fresh L)
  end.

Ltac sl_step L tac :=
  lazymatch goal with
  | |- _ (bind _ _) (bind _ _) => apply (sl_bind_eq L); [|intros ?]
  | |- _ (pcall_wrap _) (pcall_wrap _) => apply (sl_pcall L)
  | |- _ (let x := _ in _) _ => cbv zeta
  | |- _ (match ?x with _ => _ end) (match ?x with _ => _ end) => destruct x
  | |- _ => first [sl_leaf L | solve [tac]]
  end.

Ltac sl_with L tac := repeat (sl_step L tac).
Ltac sl L := sl_with L fail.

Section Basic.
Context {sim : forall A, (A -> A -> Prop) -> M A -> M A -> Prop} {C : closure -> closure -> Prop}.
Hypothesis L : sim_logic sim C.
Local Notation same m := (sim _ eq m m).

Lemma vs_metatable_of v : same (metatable_of v).
Proof. unfold metatable_of. sl L. Qed.
Lemma vs_metamethod v ev : same (metamethod v ev).
Proof. unfold metamethod. sl_with L ltac:(apply vs_metatable_of). Qed.

Lemma vs_materialise o : same (materialise o).
Proof. unfold materialise. sl L. Qed.
Lemma vs_materialise_all os : same (materialise_all os).
Proof.
  induction os as [|o os IH]; cbn [materialise_all]; sl_with L ltac:(first [apply vs_materialise | exact IH]).
Qed.

Lemma vs_call_ext x args : same (call_ext x args).
Proof.
  apply (sl_tables L _ (fun s => _ <- emit_event (EvCall x (map (render 3 s) args)) ;;
                                       os <- pop_oracle ;; materialise_all os)).
  intros s1 s2 H. rewrite (map_ext (render 3 s1) (render 3 s2)) by (intros; now apply render_rel).
  sl_with L ltac:(apply vs_materialise_all).
Qed.

Lemma vs_put a k v : same (put a k v).
Proof. unfold put. sl L. Qed.
Lemma vs_put_pos a pos v : same (put_pos a pos v).
Proof. unfold put_pos. sl_with L ltac:(apply vs_put). Qed.
Lemma vs_fill_go a vs : forall pos, same (fill_go a vs pos).
Proof.
  induction vs as [|v vs IHv]; intros pos; cbn [fill_go]; sl_with L ltac:(first [apply vs_put_pos | apply IHv]).
Qed.

Lemma vs_minmax_go b vs : forall acc, same (minmax_go b vs acc).
Proof.
  induction vs as [|v vs IHv]; intros acc; cbn [minmax_go]; sl_with L ltac:(apply IHv).
Qed.

Lemma vs_char_go vs : forall acc, same (char_go vs acc).
Proof.
  induction vs as [|v vs IHv]; intros acc; cbn [char_go]; sl_with L ltac:(apply IHv).
Qed.

Lemma vs_bind_params ps1 : forall ps2 args, map param_name ps1 = map param_name ps2 ->
  sim _ (fun r1 r2 => r1 = r2 /\ map fst r1 = map param_name ps1) (bind_params ps1 args) (bind_params ps2 args).
Proof.
  induction ps1 as [|p1 ps1 IH]; intros [|p2 ps2] args H; try discriminate H.
  - rewrite !bind_params_nil. apply (sl_ret L). auto.
  - cbn [map] in H. injection H as Hp Hps.
    rewrite !bind_params_cons. apply (sl_bind_eq L); [apply (sl_new_cell L)|]. intros a.
    apply (sl_bind L) with (1 := IH ps2 (tl args) Hps).
    intros r1 r2 [<- Hr]. apply (sl_ret L). rewrite Hp. split; [reflexivity|].
    cbn [map fst]. now rewrite Hr, Hp.
Qed.

Lemma vs_assign_go d n rho1 rho2 :
  (forall t v, sim _ eq (assign_target d n rho1 t v) (assign_target d n rho2 t v)) ->
  forall ts vs, sim _ eq (assign_go d n rho1 ts vs) (assign_go d n rho2 ts vs).
Proof.
  intros HA. induction ts as [|t ts IHt]; intros vs.
  - rewrite !assign_go_nil. sl L.
  - rewrite !assign_go_cons. sl_with L ltac:(first [apply HA | apply IHt]).
Qed.

End Basic.

(** the leaves of a walk at fuel [S n]: what the logic [L] gives, and the operations at fuel [n] *)
Ltac vs_leaf L V := idtac;
  lazymatch goal with
  | |- _ (metamethod _ _) (metamethod _ _) => apply (vs_metamethod L)
  | |- _ (metatable_of _) (metatable_of _) => apply (vs_metatable_of L)
  | |- _ (call_ext _ _) (call_ext _ _) => apply (vs_call_ext L)
  | |- _ (call _ _ _ _) (call _ _ _ _) => apply (vs_call V)
  | |- _ (index _ _ _ _) (index _ _ _ _) => apply (vs_index V)
  | |- _ (setindex _ _ _ _ _) (setindex _ _ _ _ _) => apply (vs_setindex V)
  | |- _ (tostr _ _ _) (tostr _ _ _) => apply (vs_tostr V)
  | |- _ (arith _ _ _ _ _) (arith _ _ _ _ _) => apply (vs_arith V)
  | |- _ (concat _ _ _ _) (concat _ _ _ _) => apply (vs_concat V)
  | |- _ (equal _ _ _ _) (equal _ _ _ _) => apply (vs_equal V)
  | |- _ (less _ _ _ _ _) (less _ _ _ _ _) => apply (vs_less V)
  | |- _ (length _ _ _) (length _ _ _) => apply (vs_length V)
  | |- _ (call_builtin _ _ _ _) (call_builtin _ _ _ _) => apply (vs_builtin V)
  end.

Section Step.
Context {sim : forall A, (A -> A -> Prop) -> M A -> M A -> Prop} {C : closure -> closure -> Prop}.
Hypothesis L : sim_logic sim C.
Context {d : dialect} {n : nat}.
Hypothesis V : vsim sim d n.
Hypothesis C_call : forall c1 c2, C c1 c2 ->
  map param_name (effective_params c1) = map param_name (effective_params c2) /\
  closure_variadic c1 = closure_variadic c2 /\
  forall r va, map fst r = map param_name (effective_params c1) ->
    sim _ eq (exec_block d n (rev r ++ c_env c1) va (closure_block c1))
             (exec_block d n (rev r ++ c_env c2) va (closure_block c2)).
Local Notation same m := (sim _ eq m m).

Lemma step_index o k : same (index d (S n) o k).
Proof.
  destruct o; try (rewrite index_S_other by exact I); try rewrite index_S_table; sl_with L ltac:(vs_leaf L V).
Qed.

Lemma step_setindex o k v : same (setindex d (S n) o k v).
Proof.
  destruct o; try (rewrite setindex_S_other by exact I); try rewrite setindex_S_table; sl_with L ltac:(vs_leaf L V).
Qed.

Lemma step_tostr v : same (tostr d (S n) v).
Proof. rewrite tostr_S. sl_with L ltac:(vs_leaf L V). Qed.

Lemma step_arith o a b : same (arith d (S n) o a b).
Proof. rewrite arith_S. sl_with L ltac:(vs_leaf L V). Qed.

Lemma step_concat a b : same (concat d (S n) a b).
Proof. rewrite concat_S. sl_with L ltac:(vs_leaf L V). Qed.

Lemma step_equal a b : same (equal d (S n) a b).
Proof. rewrite equal_S. sl_with L ltac:(vs_leaf L V). Qed.

(** the metamethod branch of [less]; the compiled match of [less_S] holds it twenty times *)
Definition less_meta (strict : bool) (a b : value) : M bool :=
  let ev := if strict then "__lt"%string else "__le"%string in
  h1 <- metamethod a ev ;;
  h2 <- metamethod b ev ;;
  match h1 with
  | VNil =>
    if strict then fail 16
    else r <- less d n true b a ;; ret (negb r)
  | _ =>
    if raw_equal h1 h2 then vs <- call d n h1 [a; b] ;; ret (truthy (first vs))
    else if strict then fail 16 else r <- less d n true b a ;; ret (negb r)
  end.

Lemma less_S_meta strict a b :
  less d (S n) strict a b =
  match a, b with
  | VNum x, VNum y => ret (if strict then fltb x y else fleb x y)
  | VStr x, VStr y => ret (if strict then bytes_ltb x y else bytes_leb x y)
  | _, _ => less_meta strict a b
  end.
Proof. apply less_S. Qed.

Lemma step_less st a b : same (less d (S n) st a b).
Proof.
  assert (Hm : same (less_meta st a b)) by (unfold less_meta; sl_with L ltac:(vs_leaf L V)).
  rewrite less_S_meta. destruct a, b; first [exact Hm | sl L].
Qed.

Lemma step_length v : same (length d (S n) v).
Proof. rewrite length_S. sl_with L ltac:(vs_leaf L V). Qed.

Lemma vs_binop_sem op a b : same (binop_sem d n op a b).
Proof. unfold binop_sem. destruct op; sl_with L ltac:(vs_leaf L V). Qed.

Lemma vs_path_go ks : forall o, same (path_go d n o ks).
Proof.
  induction ks as [|k ks IHk]; intros o.
  - rewrite path_go_short by (cbn; lia). sl L.
  - destruct ks as [|k2 ks].
    + rewrite path_go_short by (cbn; lia). sl L.
    + rewrite path_go_cons. sl_with L ltac:(first [vs_leaf L V | apply IHk]).
Qed.

Lemma vs_tconcat_go t sep is : forall acc fi, same (tconcat_go d t sep is acc fi).
Proof.
  induction is as [|i is IHi]; intros acc fi; cbn [tconcat_go]; sl_with L ltac:(apply IHi).
Qed.

Lemma vs_format_go fuel : forall f vs acc, same (format_go d n fuel f vs acc).
Proof.
  induction fuel as [|fuel IHf]; intros f vs acc; cbn [format_go];
    sl_with L ltac:(first [apply IHf | vs_leaf L V]).
Qed.

Lemma step_builtin b args : same (call_builtin d (S n) b args).
Proof.
  rewrite call_builtin_S.
  sl_with L ltac:(first [vs_leaf L V | apply (vs_minmax_go L) | apply (vs_char_go L)
                        | apply vs_tconcat_go | apply vs_format_go]).
Qed.

Lemma step_call f args : same (call d (S n) f args).
Proof.
  destruct f; try (rewrite call_S_other by exact I; sl_with L ltac:(vs_leaf L V)).
  - apply (sl_ext L) with (1 := call_S_closure d n a args) (2 := call_S_closure d n a args).
    apply (sl_bind L) with (1 := sl_get_closure L a). intros c1 c2 Hc.
    destruct (C_call c1 c2 Hc) as (Hps & Hva & Hbody). unfold call_closure.
    apply (sl_bind L) with (1 := vs_bind_params L _ _ args Hps). intros r _ [<- Hr]. cbv zeta.
    rewrite <- Hva, <- (map_length param_name (effective_params c2)), <- Hps, map_length.
    apply (sl_bind_eq L); [now apply Hbody|]. intros sg. destruct sg; sl L.
  - rewrite call_S_builtin. apply (vs_builtin V).
  - rewrite call_S_ext. apply (vs_call_ext L).
Qed.

Lemma step_assign_target rho1 rho2 t v :
  sim _ eq (assign_target d (S n) rho1 t v) (assign_target d (S n) rho2 t v).
Proof.
  destruct t as [[[a|] o] k].
  - rewrite !assign_target_S_cell. sl L.
  - rewrite !assign_target_S_index. apply (vs_setindex V).
Qed.

Lemma vsim_S : vsim sim d (S n).
Proof.
  exact (Build_vsim sim d (S n) step_call step_index step_setindex step_tostr step_arith step_concat
           step_equal step_less step_length step_builtin).
Qed.

End Step.

Section Concrete.
Variable C : closure -> closure -> Prop.
Variable two : bool.

Definition gstore_rel (s1 s2 : store) : Prop :=
  cells s1 = cells s2 /\ tables s1 = tables s2 /\ trace s1 = trace s2 /\
  oracle s1 = oracle s2 /\ fresh s1 = fresh s2 /\
  Forall2 C (closures s1) (closures s2).

Definition gres {A} (R : A -> A -> Prop) (r1 r2 : res A) : Prop :=
  match r1 with
  | Ok a1 s1 => match r2 with Ok a2 s2 => R a1 a2 /\ gstore_rel s1 s2 | _ => False end
  | Err e1 s1 => match r2 with Err e2 s2 => e1 = e2 /\ gstore_rel s1 s2 | _ => False end
  | Fuel => if two then match r2 with Fuel => True | _ => False end else True
  | Unsup w1 => match r2 with Unsup w2 => w1 = w2 | _ => False end
  end.

Definition gsim {A} (R : A -> A -> Prop) (m1 m2 : M A) : Prop :=
  forall s1 s2, gstore_rel s1 s2 -> gres R (m1 s1) (m2 s2).

Lemma gres_bind {A B} (R : A -> A -> Prop) (R' : B -> B -> Prop) m1 m2 f1 f2 s1 s2 :
  gres R (m1 s1) (m2 s2) ->
  (forall a1 a2 t1 t2, R a1 a2 -> gstore_rel t1 t2 -> gres R' (f1 a1 t1) (f2 a2 t2)) ->
  gres R' (bind m1 f1 s1) (bind m2 f2 s2).
Proof.
  intros H K. unfold bind. destruct (m1 s1), (m2 s2); cbn in H |- *; try contradiction; auto.
  all: try (destruct two; [contradiction|exact I]).
  destruct H. auto.
Qed.

(** [prim] proves [gsim R (p ..) (p ..)] for a primitive [p] of the store ([get_cell],
    [new_table], ...): related stores have equal cells, tables, trace, oracle and counter, so
    both sides compute the same thing, and the new stores are related again *)
Local Ltac prim :=
  let Hc := fresh in let Ht := fresh in let Htr := fresh in let Ho := fresh in
  let Hf := fresh in let Hcl := fresh in
  intros s1 s2 (Hc & Ht & Htr & Ho & Hf & Hcl);
  unfold get_cell, set_cell, new_cell, get_table, set_table, new_table, emit_event, pop_oracle, next_fresh;
  rewrite ?Hc, ?Ht, ?Htr, ?Ho, ?Hf;
  repeat match goal with |- context [match ?x with _ => _ end] => destruct x eqn:? end;
  cbn; unfold gstore_rel; cbn; repeat split; auto; try congruence.

Lemma gsim_logic : sim_logic (@gsim) C.
Proof.
  constructor.
  - intros A R a1 a2 H s1 s2 Hs. cbn. auto.
  - intros A R t s1 s2 Hs. cbn. auto.
  - intros A R t s1 s2 Hs. cbn. auto.
  - intros A R v s1 s2 Hs. cbn. auto.
  - intros A R s1 s2 Hs. cbn. now destruct two.
  - intros A B R R' m1 m2 f1 f2 H K s1 s2 Hs. eapply gres_bind; [exact (H s1 s2 Hs)|]. intros. now apply K.
  - intros m1 m2 H s1 s2 Hs. specialize (H s1 s2 Hs). unfold pcall_wrap.
    destruct (m1 s1), (m2 s2); cbn in H |- *; try contradiction; auto.
    all: try (destruct two; [contradiction|exact I]).
    + destruct H as [-> H]. auto.
    + destruct H as [-> H]. destruct e0; cbn; auto.
  - intros A R m1 m1' m2 m2' H1 H2 H s1 s2 Hs. rewrite H1, H2. now apply H.
  - intros A R f H s1 s2 Hs. exact (H s1 s2 (proj1 (proj2 Hs)) s1 s2 Hs).
  - intros a. prim.
  - intros a v. prim.
  - intros v. prim.
  - intros a. prim.
  - intros a t. prim.
  - intros t. prim.
  - intros e. prim.
  - prim.
  - prim.
  - intros a s1 s2 Hs. unfold get_closure.
    pose proof (Forall2_nth_N C _ _ (N.to_nat a) (proj2 (proj2 (proj2 (proj2 (proj2 Hs)))))) as H.
    destruct (nth_N (closures s1) _), (nth_N (closures s2) _); cbn; try contradiction; auto.
  - intros c1 c2 Hc s1 s2 (H1 & H2 & H3 & H4 & H5 & H6). unfold new_closure. cbn. split.
    + now rewrite (Forall2_len _ _ _ H6).
    + unfold gstore_rel. cbn. repeat split; auto. apply Forall2_app; auto.
Qed.

End Concrete.
