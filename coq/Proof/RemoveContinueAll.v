(** C07: composition of all NINE lowering rules (the eight of Proof/LoweringCensusAll.v and
    remove_continue, Model/RemoveContinue.v). *)
From Coq Require Import ZArith NArith List Bool Lia Permutation.
From DL Require Import Lib.Bytes Lua.Syntax Lua.Census Model.Visit Model.Lowering Model.RemoveContinue
  Proof.LoweringCensusBase Proof.LoweringCensusRules Proof.LoweringCensusAll Proof.RemoveContinue
  Proof.RemoveContinueScoped.
Import ListNotations.
Local Open Scope nat_scope.

Definition rule_continue : rule := (1, remove_continue_block).

Definition lowering_rules9 : list rule := rule_continue :: lowering_rules.

Theorem lowering_rules9_lower : forall p, In p lowering_rules9 ->
  (forall b, continue_in_loops b = true -> feature (fst p) (snd p b) = 0%N) /\
  (forall j b, j < 9 -> feature j b = 0%N -> feature j (snd p b) = 0%N).
Proof.
  intros p [<-|Hp].
  - split; [exact removes_continue|exact preserves_continue].
  - destruct (lowering_rules_lower p Hp) as [Rm Kp]. split; [intros b _; apply Rm|exact Kp].
Qed.

Theorem lowering_rules9_keep_domain : forall p, In p lowering_rules9 ->
  forall b, continue_in_loops b = true -> continue_in_loops (snd p b) = true.
Proof.
  intros p [<-|Hp].
  - exact remove_continue_output_in_loops.
  - exact (lowering_rules_keep_domain p Hp).
Qed.

Lemma apply_rules_cons p rs b : apply_rules (p :: rs) b = apply_rules rs (snd p b).
Proof. reflexivity. Qed.

Lemma apply_rules_app rs1 rs2 b : apply_rules (rs1 ++ rs2) b = apply_rules rs2 (apply_rules rs1 b).
Proof. unfold apply_rules. apply fold_left_app. Qed.

Theorem lowered9 : forall rs, (forall p, In p rs -> In p lowering_rules9) ->
  forall b, continue_in_loops b = true ->
  continue_in_loops (apply_rules rs b) = true /\
  forall j, j < 9 -> feature j b = 0%N \/ In j (map fst rs) -> feature j (apply_rules rs b) = 0%N.
Proof.
  induction rs as [|p rs IH]; intros G b Hb.
  - split; [exact Hb|]. intros j _ [Z|[]]. exact Z.
  - pose proof (G p (or_introl eq_refl)) as Hp. destruct (lowering_rules9_lower p Hp) as [Rm Kp].
    destruct (IH (fun q Hq => G q (or_intror Hq)) (snd p b) (lowering_rules9_keep_domain p Hp b Hb)) as [Dom Z].
    rewrite apply_rules_cons. split; [exact Dom|].
    intros j Hj [Zj|[<-|Hin]]; apply Z; auto.
Qed.

(** ALL NINE RULES, ANY ORDER, any multiplicity: a list of rules among the nine that contains
    a rule for each of the nine constructs turns every tree of remove_continue's domain
    (every valid Luau program) into a Lua 5.1 tree *)
Theorem all_lowered9 : forall rs,
  (forall p, In p rs -> In p lowering_rules9) ->
  (forall j, j < 9 -> In j (map fst rs)) ->
  forall b, continue_in_loops b = true -> lua51_tree (apply_rules rs b) = true.
Proof.
  intros rs G Cov b Hb. apply lua51_tree_iff. intros j Hj.
  apply (lowered9 rs G b Hb); [exact Hj|right; apply Cov, Hj].
Qed.

(** remove_continue at a given position: the rules before it are any of the other eight, the
    rules after it any of the nine; together they cover every construct.  Only the tree that
    reaches remove_continue has to be in its domain. *)
Theorem all_lowered9_at : forall rs1 rs2,
  (forall p, In p rs1 -> In p lowering_rules) ->
  (forall p, In p rs2 -> In p lowering_rules9) ->
  (forall j, j < 9 -> j <> 1 -> In j (map fst (rs1 ++ rs2))) ->
  forall b, continue_in_loops (apply_rules rs1 b) = true ->
  lua51_tree (apply_rules (rs1 ++ rule_continue :: rs2) b) = true.
Proof.
  intros rs1 rs2 S1 S2 Cov b Hb. apply lua51_tree_iff. intros j Hj. rewrite apply_rules_app.
  apply (lowered9 (rule_continue :: rs2)); [intros p [<-|Hp]; [left; reflexivity|apply S2, Hp]|exact Hb|exact Hj|].
  destruct (Nat.eq_dec j 1) as [->|Ne]; [right; left; reflexivity|].
  specialize (Cov j Hj Ne). rewrite map_app in Cov. apply in_app_or in Cov as [H1|H2].
  - left. apply lowered_feature; [intros p Hp; apply lowering_rules_lower, S1, Hp|exact Hj|right; exact H1].
  - right. right. exact H2.
Qed.

Theorem all_lowered9_continue_first : forall rs,
  (forall p, In p rs -> In p lowering_rules9) ->
  (forall j, j < 9 -> j <> 1 -> In j (map fst rs)) ->
  forall b, continue_in_loops b = true -> lua51_tree (apply_rules (rule_continue :: rs) b) = true.
Proof.
  intros rs S Cov b Hb. apply (all_lowered9_at [] rs); [intros p []|exact S|exact Cov|exact Hb].
Qed.

(** in particular every permutation of the nine rules (ten entries: remove_interpolated_string
    is listed with both strategies) *)
Corollary all_lowered9_permutation : forall rs, Permutation rs lowering_rules9 ->
  forall b, continue_in_loops b = true -> lua51_tree (apply_rules rs b) = true.
Proof.
  intros rs P. apply all_lowered9.
  - intros p Hp. exact (Permutation_in p P Hp).
  - intros j Hj. apply (Permutation_in j (Permutation_map fst (Permutation_sym P))).
    cbn. do 9 (destruct j as [|j]; [tauto|]). lia.
Qed.

Example all_lowered9_example :
  let c := EIdent [99%N] in
  let b := Block [SWhile c (Block [SLocal true [Param [120%N] (Some (TyNode 0%N [] []))]
                     [EIf [EBranch c (EBinary BIDiv (ENumber (NBin 5%N false)) (EInterp [ISExpr (EIdent [121%N])]))]
                          (EFunction (FBody [] false None None None 1%N (Block [SCompound BAdd (EIdent [122%N]) ENil] None)))];
                     SIf [SBranch c (Block [] (Some LContinue))] None] (Some LBreak))] None in
  continue_in_loops b = true /\ lua51_tree b = false /\
  forallb (fun i => negb (N.eqb (feature i b) 0)) (seq 0 9) = true /\
  lua51_tree (apply_rules lowering_rules9 b) = true.
Proof. vm_compute. repeat split. Qed.
