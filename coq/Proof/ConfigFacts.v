(** C19 — proofs about Model/Config.v: strictness, round trip and injectivity of the rule (de)serializer. *)
From Coq Require Import List Bool String Ascii ZArith NArith Lia Permutation.
From DL Require Import Model.Config Proof.ConfigBasics.
From DL Require Import Proof.ListFacts.
Import ListNotations.
Open Scope string_scope.

Definition reserved : list string := ["rule"; "apply_to_files"; "skip_files"].

(** decidable condition on a property table: a property that is required (alone or as one of a set) is a
    declared property and has no "same as absent" value *)
Definition spec_ok (s : rule_spec) : bool :=
  forallb (fun n => match find_prop s n with
                    | Some p => match p_default p with None => true | Some _ => false end
                    | None => false
                    end) (s_required s ++ s_required_any s).

Definition specs_ok (specs : list rule_spec) : bool := forallb spec_ok specs.

Lemma not_reserved k : ~ In k reserved ->
  String.eqb k "rule" = false /\ String.eqb k "apply_to_files" = false /\ String.eqb k "skip_files" = false.
Proof.
  unfold reserved. cbn [In]. intros H. repeat split; apply String.eqb_neq; intros ->; tauto.
Qed.

Section ConfigFacts.

Variable valid_glob : string -> bool.
Variable valid_regex : string -> bool.
Variable valid_ident : string -> bool.
Variable norm_globals : list string -> list string.
Variable norm_reqmode : json -> option json.
Variable env_json_ok : string -> bool.
Variable specs : list rule_spec.

(** assumed behaviour of the oracles *)
Hypothesis H_req_idem : forall j j', norm_reqmode j = Some j' -> norm_reqmode j' = Some j'.
Hypothesis H_req_obj : forall j j', norm_reqmode j = Some j' -> exists l, j' = JObj l.
Hypothesis H_glob_idem : forall l, norm_globals (norm_globals l) = norm_globals l.
Hypothesis H_glob_ok : forall l, forallb (globals_item_ok valid_ident) l = true ->
                                 forallb (globals_item_ok valid_ident) (norm_globals l) = true.

Notation classify := (classify norm_reqmode).
Notation accepts_kind := (accepts_kind valid_regex valid_ident env_json_ok).
Notation norm_value := (norm_value norm_globals).
Notation configure_props := (configure_props valid_regex valid_ident norm_globals env_json_ok).
Notation configure := (configure valid_regex valid_ident norm_globals env_json_ok).
Notation one_or_many := (one_or_many valid_glob).
Notation scan := (scan valid_glob norm_reqmode).
Notation deserialize_rule :=
  (deserialize_rule valid_glob valid_regex valid_ident norm_globals norm_reqmode env_json_ok specs).
Notation serialize_rule := (serialize_rule specs).
Notation find_spec := (find_spec specs).

Definition wf_pvalue (v : pvalue) : Prop :=
  match v with
  | PUsize n => (Z.of_N n <= usize_max)%Z
  | PFloat (NInt z) => in_usize z = false
  | PReqMode j => norm_reqmode j = Some j /\ exists l, j = JObj l
  | PMap l => norm_reqmode (JObj l) = None
  | PArr l => as_strings l = None /\ norm_reqmode (JArr l) = None
  | _ => True
  end.

Lemma classify_wf j : wf_pvalue (classify j).
Proof.
  destruct j as [| b | [z|r] | s | l | l]; cbn [Config.classify wf_pvalue]; auto.
  - fold (in_usize z). destruct (in_usize z) eqn:E; cbn [wf_pvalue]; [apply in_usize_to_N|]; exact E.
  - destruct (as_strings l) eqn:E; cbn [wf_pvalue]; [exact I|].
    destruct (norm_reqmode (JArr l)) eqn:E2; cbn [wf_pvalue]; [|split; assumption].
    split; [eapply H_req_idem; exact E2|eapply H_req_obj; exact E2].
  - destruct (norm_reqmode (JObj l)) eqn:E2; cbn [wf_pvalue]; [|exact E2].
    split; [eapply H_req_idem; exact E2|eapply H_req_obj; exact E2].
Qed.

Lemma classify_unclassify v : wf_pvalue v -> classify (unclassify v) = v.
Proof.
  destruct v as [b|s|n|[z|r]|l|j| |l|l]; cbn [unclassify Config.classify wf_pvalue]; intros W; try reflexivity.
  - fold (in_usize (Z.of_N n)). rewrite (in_usize_of_N n W), N2Z.id. reflexivity.
  - fold (in_usize z). rewrite W. reflexivity.
  - rewrite as_strings_map_JStr. reflexivity.
  - destruct W as [W [l ->]]. cbn [Config.classify]. rewrite W. reflexivity.
  - rewrite W. reflexivity.
  - destruct W as [W1 W2]. rewrite W1, W2. reflexivity.
Qed.

Lemma norm_value_accepts k v : accepts_kind k v = true -> accepts_kind k (norm_value k v) = true.
Proof.
  destruct k; destruct v; cbn [Config.norm_value Config.accepts_kind]; auto.
Qed.

Lemma norm_value_idem k v : norm_value k (norm_value k v) = norm_value k v.
Proof.
  destruct k; destruct v; cbn [Config.norm_value]; try reflexivity. rewrite H_glob_idem. reflexivity.
Qed.

Lemma norm_value_wf k v : wf_pvalue v -> wf_pvalue (norm_value k v).
Proof. destruct k; destruct v; cbn [Config.norm_value wf_pvalue]; auto. Qed.

(** the three verifications, which look at the property map through [has_key] only *)
Definition checks (s : rule_spec) (ps : list (string * pvalue)) : bool :=
  required_ok s ps && required_any_ok s ps && collisions_ok s ps.

Lemma configure_some s ps out :
  configure s ps = Some out <-> checks s ps = true /\ configure_props s ps = Some out.
Proof.
  unfold Config.configure. fold (checks s ps). destruct (checks s ps); [tauto|].
  split; [discriminate|intros [H _]; discriminate].
Qed.

Lemma checks_mono s ps ps' :
  (forall n, In n (s_required s ++ s_required_any s) -> has_key n ps = true -> has_key n ps' = true) ->
  (forall n, has_key n ps' = true -> has_key n ps = true) ->
  checks s ps = true -> checks s ps' = true.
Proof.
  intros Keep Sub E. unfold checks in *.
  apply andb_true_iff in E. destruct E as [E E3]. apply andb_true_iff in E. destruct E as [E1 E2].
  rewrite !andb_true_iff. repeat split.
  - unfold required_ok in *. rewrite forallb_forall in *. intros n Hn.
    apply Keep; [apply in_or_app; left; exact Hn|apply E1; exact Hn].
  - unfold required_any_ok in *. destruct (s_required_any s) as [|n0 ns]; [reflexivity|].
    rewrite existsb_exists in *. destruct E2 as [n [Hn Hk]]. exists n. split; [exact Hn|].
    apply Keep; [apply in_or_app; right; exact Hn|exact Hk].
  - unfold collisions_ok in *. rewrite forallb_forall in *. intros names Hn.
    apply Nat.leb_le. eapply Nat.le_trans; [apply filter_length_le; exact Sub|].
    apply Nat.leb_le. apply E3. exact Hn.
Qed.

Definition plain_entry (kv : string * pvalue) : Prop := ~ In (fst kv) reserved /\ wf_pvalue (snd kv).

Definition good_entry (s : rule_spec) (kv : string * pvalue) : Prop :=
  plain_entry kv /\
  exists p, find_prop s (fst kv) = Some p /\ accepts_kind (p_kind p) (snd kv) = true /\
            norm_value (p_kind p) (snd kv) = snd kv /\ is_default p (snd kv) = false.

Definition good_props (s : rule_spec) (ps : list (string * pvalue)) : Prop :=
  NoDup (map fst ps) /\ Forall (good_entry s) ps /\ checks s ps = true.

Lemma configure_good s ps : good_props s ps -> configure s ps = Some ps.
Proof.
  intros [_ [HF H]]. apply configure_some. split; [exact H|]. clear H.
  induction HF as [|[k v] ps [_ [p [Hf [Ha [Hn Hd]]]]] _ IH]; cbn [Config.configure_props]; [reflexivity|].
  cbn [fst snd] in *. rewrite Hf, Ha, IH, Hn, Hd. reflexivity.
Qed.

Lemma configure_props_cons s k v ps out :
  configure_props s ((k, v) :: ps) = Some out ->
  exists p out', find_prop s k = Some p /\ accepts_kind (p_kind p) v = true /\
                 configure_props s ps = Some out' /\
                 out = if is_default p (norm_value (p_kind p) v) then out'
                       else (k, norm_value (p_kind p) v) :: out'.
Proof.
  cbn [Config.configure_props].
  destruct (find_prop s k) as [p|]; [|discriminate].
  destruct (accepts_kind (p_kind p) v) eqn:Ha; [|discriminate].
  destruct (configure_props s ps) as [out'|]; [|discriminate].
  intros H. exists p, out'. repeat split; [exact Ha|].
  destruct (is_default p (norm_value (p_kind p) v)); inversion H; reflexivity.
Qed.

Lemma configure_props_strict s : forall ps out, configure_props s ps = Some out ->
  forall k v, In (k, v) ps -> exists p, find_prop s k = Some p /\ accepts_kind (p_kind p) v = true.
Proof.
  induction ps as [|[k0 v0] ps IH]; intros out H k v Hin; [destruct Hin|].
  apply configure_props_cons in H. destruct H as [p [out' [Hf [Ha [Hc _]]]]].
  destruct Hin as [Heq|Hin]; [|eapply IH; eassumption].
  inversion Heq; subst. exists p. split; assumption.
Qed.

Lemma configure_props_keys s : forall ps0 out, configure_props s ps0 = Some out ->
  (forall k, In k (map fst out) -> In k (map fst ps0)) /\
  (forall k p, In k (map fst ps0) -> find_prop s k = Some p -> p_default p = None -> In k (map fst out)) /\
  (NoDup (map fst ps0) -> NoDup (map fst out)).
Proof.
  induction ps0 as [|[k v] ps0 IH]; intros out H.
  - inversion H; subst. repeat split; auto.
  - apply configure_props_cons in H. destruct H as [p [out' [Hf [_ [Hc ->]]]]].
    destruct (IH out' Hc) as [Sub [Keep ND]]. cbn [map fst In].
    destruct (is_default p (norm_value (p_kind p) v)) eqn:Hd; cbn [map fst In]; repeat split.
    + intros k' Hin. right. apply Sub. exact Hin.
    + intros k' p' [<-|Hin] Hf' Hnone; [|eapply Keep; eassumption].
      rewrite Hf in Hf'. inversion Hf'; subst p'. unfold is_default in Hd. rewrite Hnone in Hd. discriminate.
    + intros N. inversion N; subst. apply ND. assumption.
    + intros k' [<-|Hin]; [left; reflexivity|right; apply Sub; exact Hin].
    + intros k' p' [<-|Hin] Hf' Hnone; [left; reflexivity|right; eapply Keep; eassumption].
    + intros N. inversion N as [|? ? Hnot N']; subst. constructor; [|apply ND; exact N'].
      intros Hin. apply Hnot. apply Sub. exact Hin.
Qed.

Lemma configure_props_out s : forall ps0 out,
  configure_props s ps0 = Some out -> Forall plain_entry ps0 -> Forall (good_entry s) out.
Proof.
  induction ps0 as [|[k v] ps0 IH]; intros out H HP.
  - inversion H; subst. constructor.
  - apply configure_props_cons in H. destruct H as [p [out' [Hf [Ha [Hc ->]]]]].
    inversion HP as [|? ? [Hr Hw] HP']; subst. specialize (IH out' Hc HP').
    destruct (is_default p (norm_value (p_kind p) v)) eqn:Hd; [exact IH|].
    constructor; [|exact IH]. split; [split; [exact Hr|apply norm_value_wf; exact Hw]|].
    exists p. cbn [fst snd]. repeat split; [exact Hf|apply norm_value_accepts; exact Ha|apply norm_value_idem|exact Hd].
Qed.

Lemma configure_out s ps0 out :
  spec_ok s = true -> configure s ps0 = Some out -> Forall plain_entry ps0 -> NoDup (map fst ps0) ->
  good_props s out.
Proof.
  intros Hok H HP ND. apply configure_some in H. destruct H as [E H].
  destruct (configure_props_keys s ps0 out H) as [Sub [Keep NDo]].
  split; [exact (NDo ND)|]. split; [exact (configure_props_out s ps0 out H HP)|].
  apply (checks_mono s ps0 out); [| |exact E].
  - (* a required property has no default, so it is kept *)
    intros n Hn Hk. unfold spec_ok in Hok. rewrite forallb_forall in Hok. specialize (Hok n Hn).
    destruct (find_prop s n) as [p|] eqn:Hf; [|discriminate]. destruct (p_default p) eqn:Hd; [discriminate|].
    apply has_key_true_iff. eapply Keep; [apply has_key_true_iff; exact Hk|exact Hf|exact Hd].
  - intros n Hk. apply has_key_true_iff. apply Sub. apply has_key_true_iff. exact Hk.
Qed.

Lemma good_props_perm s ps ps' : Permutation ps ps' -> good_props s ps -> good_props s ps'.
Proof.
  intros P [ND [F H]].
  assert (HK : forall k, has_key k ps' = has_key k ps) by (intros k; symmetry; apply has_key_perm; exact P).
  split; [eapply Permutation_NoDup; [apply Permutation_map; exact P|exact ND]|].
  split; [eapply Permutation_Forall; eassumption|].
  apply (checks_mono s ps ps'); [| |exact H]; intros n; rewrite HK; auto.
Qed.

(** what the loop does with one key: fill one of the three reserved slots, once, or append a property
    whose name has not occurred *)
Inductive scan_step (k : string) (j : json) (st : scan_state) : scan_state -> Prop :=
| step_rule name : k = "rule" -> sc_rule st = None -> j = JStr name ->
    scan_step k j st (Scan (Some name) (sc_props st) (sc_apply st) (sc_skip st))
| step_apply l : k = "apply_to_files" -> sc_apply st = None -> one_or_many j = Some l ->
    scan_step k j st (Scan (sc_rule st) (sc_props st) (Some l) (sc_skip st))
| step_skip l : k = "skip_files" -> sc_skip st = None -> one_or_many j = Some l ->
    scan_step k j st (Scan (sc_rule st) (sc_props st) (sc_apply st) (Some l))
| step_prop : ~ In k reserved -> has_key k (sc_props st) = false ->
    scan_step k j st (Scan (sc_rule st) (sc_props st ++ [(k, classify j)]) (sc_apply st) (sc_skip st)).

Lemma scan_cons k j kvs st st' :
  scan ((k, j) :: kvs) st = Some st' -> exists st1, scan_step k j st st1 /\ scan kvs st1 = Some st'.
Proof.
  cbn [Config.scan]. intros H.
  destruct (String.eqb k "rule") eqn:Ek1.
  { apply String.eqb_eq in Ek1. destruct (sc_rule st) eqn:Er; [discriminate|]. destruct j; try discriminate.
    eexists. split; [eapply step_rule; eauto|exact H]. }
  destruct (String.eqb k "apply_to_files") eqn:Ek2.
  { apply String.eqb_eq in Ek2. destruct (sc_apply st) eqn:Er; [discriminate|].
    destruct (one_or_many j) as [l|] eqn:Eo; [|discriminate].
    eexists. split; [eapply step_apply; eauto|exact H]. }
  destruct (String.eqb k "skip_files") eqn:Ek3.
  { apply String.eqb_eq in Ek3. destruct (sc_skip st) eqn:Er; [discriminate|].
    destruct (one_or_many j) as [l|] eqn:Eo; [|discriminate].
    eexists. split; [eapply step_skip; eauto|exact H]. }
  destruct (has_key k (sc_props st)) eqn:Ehk; [discriminate|].
  eexists. split; [apply step_prop; [|exact Ehk]|exact H].
  apply String.eqb_neq in Ek1, Ek2, Ek3. unfold reserved. cbn [In]. intros [<-|[<-|[<-|[]]]]; congruence.
Qed.

Definition st_ok (st : scan_state) : Prop :=
  NoDup (map fst (sc_props st)) /\ Forall plain_entry (sc_props st) /\
  forallb valid_glob (or_nil (sc_apply st)) = true /\ forallb valid_glob (or_nil (sc_skip st)) = true.

Lemma one_or_many_valid j l : one_or_many j = Some l -> forallb valid_glob l = true.
Proof.
  destruct j as [| | |s|a|]; cbn [Config.one_or_many]; try discriminate.
  - destruct (valid_glob s) eqn:E; [|discriminate]. intros [= <-]. cbn. rewrite E. reflexivity.
  - destruct (as_strings a) as [ss|]; [|discriminate]. destruct (forallb valid_glob ss) eqn:E; [|discriminate].
    intros [= <-]. exact E.
Qed.

Lemma scan_ok : forall kvs st st', scan kvs st = Some st' -> st_ok st -> st_ok st'.
Proof.
  induction kvs as [|[k j] kvs IH]; intros st st' H Hst.
  - inversion H; subst. exact Hst.
  - apply scan_cons in H. destruct H as [st1 [Hstep H]]. apply (IH _ _ H).
    destruct Hst as [ND [FP [GA GS]]].
    destruct Hstep as [name _ _ _|l _ _ Ho|l _ _ Ho|Hr Hk]; unfold st_ok; cbn [sc_props sc_apply sc_skip or_nil];
      repeat split; try assumption.
    + eapply one_or_many_valid; exact Ho.
    + eapply one_or_many_valid; exact Ho.
    + rewrite map_app. apply NoDup_snoc; [|exact ND]. apply has_key_false_iff. exact Hk.
    + apply Forall_app. split; [exact FP|]. constructor; [|constructor]. split; [exact Hr|apply classify_wf].
Qed.

Lemma scan_keys : forall kvs st st', scan kvs st = Some st' ->
  (forall kv, In kv (sc_props st) -> In kv (sc_props st')) /\
  (forall k j, In (k, j) kvs -> In k reserved \/ In (k, classify j) (sc_props st')).
Proof.
  induction kvs as [|[k j] kvs IH]; intros st st' H.
  - inversion H; subst. split; [auto|intros k j []].
  - apply scan_cons in H. destruct H as [st1 [Hstep H]]. destruct (IH _ _ H) as [Keep All].
    assert (Hk : (In k reserved /\ sc_props st1 = sc_props st) \/ sc_props st1 = (sc_props st ++ [(k, classify j)])%list).
    { destruct Hstep as [? -> _ _|? -> _ _|? -> _ _|_ _]; [left|left|left|right]; cbn; auto. }
    split.
    + intros kv Hin. apply Keep. destruct Hk as [[_ ->]| ->]; [exact Hin|apply in_or_app; left; exact Hin].
    + intros k0 j0 [Heq|Hin]; [|apply All; exact Hin]. inversion Heq; subst k0 j0.
      destruct Hk as [[Hr _]|Hp]; [left; exact Hr|right]. apply Keep. rewrite Hp. apply in_or_app. right. left. reflexivity.
Qed.

(** a key is still acceptable: its slot is empty, or it is no property seen so far *)
Definition fresh (k : string) (st : scan_state) : Prop :=
  if String.eqb k "rule" then sc_rule st = None
  else if String.eqb k "apply_to_files" then sc_apply st = None
  else if String.eqb k "skip_files" then sc_skip st = None
  else ~ In k (map fst (sc_props st)).

Lemma scan_step_fresh k j st st1 : scan_step k j st st1 ->
  fresh k st /\ ~ fresh k st1 /\ forall k', fresh k' st1 -> fresh k' st.
Proof.
  destruct 1 as [name -> Er _|l -> Er _|l -> Er _|Hr Hk]; unfold fresh; cbn [sc_rule sc_props sc_apply sc_skip].
  - cbn. repeat split; [exact Er|discriminate|]. intros k'.
    destruct (String.eqb k' "rule"); auto.
  - cbn. repeat split; [exact Er|discriminate|]. intros k'.
    destruct (String.eqb k' "rule"); [auto|]. destruct (String.eqb k' "apply_to_files"); auto.
  - cbn. repeat split; [exact Er|discriminate|]. intros k'.
    destruct (String.eqb k' "rule"); [auto|]. destruct (String.eqb k' "apply_to_files"); [auto|].
    destruct (String.eqb k' "skip_files"); auto.
  - destruct (not_reserved k Hr) as [-> [-> ->]]. repeat split.
    + apply has_key_false_iff. exact Hk.
    + intros F. apply F. rewrite map_app, in_app_iff. right. left. reflexivity.
    + intros k'. destruct (String.eqb k' "rule"); [auto|]. destruct (String.eqb k' "apply_to_files"); [auto|].
      destruct (String.eqb k' "skip_files"); [auto|].
      intros F Hin. apply F. rewrite map_app, in_app_iff. left. exact Hin.
Qed.

Lemma scan_fresh : forall kvs st st', scan kvs st = Some st' ->
  NoDup (map fst kvs) /\ forall k, In k (map fst kvs) -> fresh k st.
Proof.
  induction kvs as [|[k j] kvs IH]; intros st st' H; cbn [map fst].
  - split; [constructor|intros k []].
  - apply scan_cons in H. destruct H as [st1 [Hstep H]]. destruct (IH _ _ H) as [ND Fresh].
    destruct (scan_step_fresh _ _ _ _ Hstep) as [F [Used Mono]]. split.
    + constructor; [|exact ND]. intros Hin. apply Used. apply Fresh. exact Hin.
    + intros k' [<-|Hin]; [exact F|apply Mono; apply Fresh; exact Hin].
Qed.

Lemma scan_app : forall a b st,
  scan (a ++ b) st = match scan a st with Some st' => scan b st' | None => None end.
Proof.
  induction a as [|[k j] a IH]; intros b st; cbn [app Config.scan]; [reflexivity|].
  destruct (String.eqb k "rule").
  { destruct (sc_rule st); [reflexivity|]. destruct j; try reflexivity. apply IH. }
  destruct (String.eqb k "apply_to_files").
  { destruct (sc_apply st); [reflexivity|]. destruct (one_or_many j); [apply IH|reflexivity]. }
  destruct (String.eqb k "skip_files").
  { destruct (sc_skip st); [reflexivity|]. destruct (one_or_many j); [apply IH|reflexivity]. }
  destruct (has_key k (sc_props st)); [reflexivity|apply IH].
Qed.

Definition enc (ps : list (string * pvalue)) : list (string * json) :=
  map (fun kv => (fst kv, unclassify (snd kv))) ps.

Lemma scan_enc : forall ps st,
  NoDup (map fst ps) -> (forall k, In k (map fst ps) -> ~ In k (map fst (sc_props st))) ->
  Forall plain_entry ps ->
  scan (enc ps) st = Some (Scan (sc_rule st) (sc_props st ++ ps) (sc_apply st) (sc_skip st)).
Proof.
  induction ps as [|[k v] ps IH]; intros st ND Hnew HP; cbn [enc map Config.scan].
  - rewrite app_nil_r. destruct st; reflexivity.
  - inversion ND as [|? ? Hnot ND']; subst. inversion HP as [|? ? [Hr Hw] HP']; subst. cbn [fst snd] in *.
    destruct (not_reserved k Hr) as [E1 [E2 E3]]. rewrite E1, E2, E3.
    assert (Ehk : has_key k (sc_props st) = false).
    { apply has_key_false_iff. apply Hnew. left. reflexivity. }
    rewrite Ehk, (classify_unclassify v Hw).
    fold (enc ps). rewrite IH; [|exact ND'| |exact HP'].
    + cbn [sc_rule sc_props sc_apply sc_skip]. rewrite <- app_assoc. reflexivity.
    + intros k' Hin. cbn [sc_props]. rewrite map_app, in_app_iff. cbn [map fst In]. intros [H|[H|[]]].
      * eapply Hnew; [right; exact Hin|exact H].
      * subst k'. apply Hnot. exact Hin.
Qed.

Lemma one_or_many_list l : forallb valid_glob l = true -> one_or_many (JArr (map JStr l)) = Some l.
Proof. intros H. cbn [Config.one_or_many]. rewrite as_strings_map_JStr, H. reflexivity. Qed.

(** a filter list is written as nothing, one string or an array, and [one_or_many] reads the latter two back *)
Lemma filter_entry_read key l : forallb valid_glob l = true ->
  l = [] /\ filter_entry key l = [] \/ exists j, filter_entry key l = [(key, j)] /\ one_or_many j = Some l.
Proof.
  intros Hv. destruct l as [|s [|s2 l]]; [left; split; reflexivity|right; eexists; split; [reflexivity|]..].
  - cbn [forallb] in Hv. apply andb_true_iff in Hv. destruct Hv as [Hv _]. cbn [Config.one_or_many]. rewrite Hv. reflexivity.
  - apply one_or_many_list. exact Hv.
Qed.

(** what reading establishes *)
Definition rule_inv (r : rule_cfg) : Prop :=
  exists s, find_spec (r_name r) = Some s /\ good_props s (r_props r) /\
            forallb valid_glob (r_apply r) = true /\ forallb valid_glob (r_skip r) = true.

(** the rule only uses properties that its `serialize_to_properties` writes *)
Definition ser_complete (r : rule_cfg) : Prop :=
  forall s, find_spec (r_name r) = Some s ->
  forall kv, In kv (r_props r) -> exists p, find_prop s (fst kv) = Some p /\ p_ser p = true.

Definition rule_equiv (r r' : rule_cfg) : Prop :=
  r_name r = r_name r' /\ Permutation (r_props r) (r_props r') /\ r_apply r = r_apply r' /\ r_skip r = r_skip r'.

Lemma deserialize_rule_obj kvs r :
  deserialize_rule (JObj kvs) = Some r ->
  exists st s, scan kvs scan_start = Some st /\ sc_rule st = Some (r_name r) /\
               find_spec (r_name r) = Some s /\ configure s (sc_props st) = Some (r_props r) /\
               r_apply r = or_nil (sc_apply st) /\ r_skip r = or_nil (sc_skip st).
Proof.
  cbn [Config.deserialize_rule].
  destruct (scan kvs scan_start) as [st|]; [|discriminate].
  destruct (sc_rule st) as [name|] eqn:Hn; [|discriminate].
  destruct (find_spec name) as [s|] eqn:Hs; [|discriminate].
  destruct (configure s (sc_props st)) as [ps|] eqn:Hc; [|discriminate]. intros [= <-].
  exists st, s. repeat split; assumption.
Qed.

(** a bare rule name reads like the object that has only the [rule] key *)
Lemma deserialize_rule_str name : deserialize_rule (JStr name) = deserialize_rule (JObj [("rule", JStr name)]).
Proof. reflexivity. Qed.

(** an accepted rule object has no key outside {rule, apply_to_files, skip_files} and the properties of
    that rule, and every property value has the kind the rule expects *)
Theorem rule_strict kvs r :
  deserialize_rule (JObj kvs) = Some r ->
  exists s, find_spec (r_name r) = Some s /\
  forall k j, In (k, j) kvs ->
    In k reserved \/ exists p, find_prop s k = Some p /\ accepts_kind (p_kind p) (classify j) = true.
Proof.
  intros H. apply deserialize_rule_obj in H. destruct H as [st [s [Hscan [_ [Hs [Hc _]]]]]].
  exists s. split; [exact Hs|]. intros k j Hin.
  destruct (scan_keys _ _ _ Hscan) as [_ All]. destruct (All k j Hin) as [Hr|Hp]; [left; exact Hr|right].
  apply configure_some in Hc. eapply configure_props_strict; [apply Hc|exact Hp].
Qed.

Theorem rule_no_duplicate_key : forall kvs r, deserialize_rule (JObj kvs) = Some r -> NoDup (map fst kvs).
Proof.
  intros kvs r H. apply deserialize_rule_obj in H. destruct H as [st [_ [Hscan _]]].
  apply (scan_fresh _ _ _ Hscan).
Qed.

Hypothesis H_specs : specs_ok specs = true.

Lemma find_spec_ok name s : find_spec name = Some s -> spec_ok s = true.
Proof.
  unfold Config.find_spec. intros H. apply find_some in H. destruct H as [Hin _].
  unfold specs_ok in H_specs. rewrite forallb_forall in H_specs. apply H_specs. exact Hin.
Qed.

Lemma scan_start_ok : st_ok scan_start.
Proof. repeat split; cbn; constructor. Qed.

Lemma deserialize_rule_inv j r : deserialize_rule j = Some r -> rule_inv r.
Proof.
  intros H. assert (Hobj : exists kvs, deserialize_rule (JObj kvs) = Some r).
  { destruct j as [| | |name| |kvs]; try discriminate; [rewrite deserialize_rule_str in H|]; eauto. }
  destruct Hobj as [kvs Hobj]. apply deserialize_rule_obj in Hobj.
  destruct Hobj as [st [s [Hscan [_ [Hs [Hc [Ea Es]]]]]]].
  destruct (scan_ok _ _ _ Hscan scan_start_ok) as [ND [FP [GA GS]]].
  exists s. rewrite Ea, Es. split; [exact Hs|]. split; [|split; assumption].
  eapply configure_out; [eapply find_spec_ok; exact Hs|exact Hc|exact FP|exact ND].
Qed.

Definition ser_obj (name : string) (props : list (string * pvalue)) (a sk : list string) : json :=
  JObj (("rule", JStr name) :: filter_entry "apply_to_files" a ++ filter_entry "skip_files" sk ++ enc props).

(** a rule without properties and filters is written as its bare name *)
Lemma serialize_rule_read r s :
  find_spec (r_name r) = Some s ->
  deserialize_rule (serialize_rule r) =
  deserialize_rule (ser_obj (r_name r) (sort_by_key (ser_props s (r_props r))) (r_apply r) (r_skip r)).
Proof.
  intros Hs. unfold Config.serialize_rule, ser_obj, enc. rewrite Hs.
  destruct (sort_by_key (ser_props s (r_props r))); [|reflexivity].
  destruct (r_apply r); [|reflexivity]. destruct (r_skip r); [apply deserialize_rule_str|reflexivity].
Qed.

Lemma ser_props_complete r s :
  find_spec (r_name r) = Some s -> ser_complete r -> ser_props s (r_props r) = r_props r.
Proof.
  intros Hs Hc. unfold ser_props. apply filter_all_true. intros kv Hin.
  destruct (Hc s Hs kv Hin) as [p [Hf Hp]]. rewrite Hf. exact Hp.
Qed.

Lemma read_ser_obj name s props a sk :
  find_spec name = Some s -> good_props s props ->
  forallb valid_glob a = true -> forallb valid_glob sk = true ->
  deserialize_rule (ser_obj name props a sk) = Some (RuleCfg name props a sk).
Proof.
  intros Hs G Ha Hsk.
  assert (Hprops : forall oa os, scan (enc props) (Scan (Some name) [] oa os) = Some (Scan (Some name) props oa os)).
  { intros oa os. destruct G as [ND [F _]]. rewrite scan_enc; [reflexivity|exact ND|intros k _ []|].
    eapply Forall_impl; [|exact F]. intros kv [Hp _]. exact Hp. }
  unfold ser_obj. cbn [Config.deserialize_rule].
  destruct (filter_entry_read "apply_to_files" a Ha) as [[-> ->]|[ja [-> Hja]]];
    destruct (filter_entry_read "skip_files" sk Hsk) as [[-> ->]|[js [-> Hjs]]];
    cbn [app Config.scan String.eqb Ascii.eqb Bool.eqb scan_start sc_rule sc_props sc_apply sc_skip];
    rewrite ?Hja, ?Hjs, Hprops; cbn [sc_rule sc_props sc_apply sc_skip or_nil];
    rewrite Hs, (configure_good s props G); reflexivity.
Qed.

(** the same rule with its properties in the order the serializer writes them *)
Definition sorted_rule (r : rule_cfg) : rule_cfg :=
  RuleCfg (r_name r) (sort_by_key (r_props r)) (r_apply r) (r_skip r).

Lemma sorted_rule_equiv r : rule_equiv r (sorted_rule r).
Proof.
  repeat split; cbn [sorted_rule r_name r_props r_apply r_skip]; try reflexivity.
  apply Permutation_sym. apply sort_by_key_perm.
Qed.

Lemma sorted_rule_inj r1 r2 : sorted_rule r1 = sorted_rule r2 -> rule_equiv r1 r2.
Proof.
  intros H. inversion H as [[En Ep Ea Es]]. repeat split; try assumption.
  rewrite <- (sort_by_key_perm (r_props r1)), <- (sort_by_key_perm (r_props r2)), Ep. reflexivity.
Qed.

Lemma rule_read_back r :
  rule_inv r -> ser_complete r -> deserialize_rule (serialize_rule r) = Some (sorted_rule r).
Proof.
  intros [s [Hs [G [Ha Hsk]]]] Hc.
  rewrite (serialize_rule_read r s Hs), (ser_props_complete r s Hs Hc).
  apply (read_ser_obj _ s); try assumption.
  apply (good_props_perm s (r_props r)); [apply Permutation_sym, sort_by_key_perm|exact G].
Qed.

Theorem rule_roundtrip j r :
  deserialize_rule j = Some r -> ser_complete r ->
  exists r', deserialize_rule (serialize_rule r) = Some r' /\ rule_equiv r r'.
Proof.
  intros Hd Hc. exists (sorted_rule r).
  split; [apply rule_read_back; [eapply deserialize_rule_inv; exact Hd|exact Hc]|apply sorted_rule_equiv].
Qed.

Theorem rule_injective j1 j2 r1 r2 :
  deserialize_rule j1 = Some r1 -> deserialize_rule j2 = Some r2 ->
  ser_complete r1 -> ser_complete r2 ->
  serialize_rule r1 = serialize_rule r2 -> rule_equiv r1 r2.
Proof.
  intros H1 H2 C1 C2 E.
  pose proof (rule_read_back r1 (deserialize_rule_inv _ _ H1) C1) as B1.
  pose proof (rule_read_back r2 (deserialize_rule_inv _ _ H2) C2) as B2.
  rewrite E, B2 in B1. apply sorted_rule_inj. congruence.
Qed.

End ConfigFacts.
