(** Capstone over every node the writer model covers: whenever [write_number_model] produces a
    text for a well-formed node, that text keeps the node's value ([value_kept], the per-run
    oracle of [Model/NumberValue.v]). *)
From Coq Require Import ZArith NArith List Bool Lia Zpower.
From Coq Require Import Floats.SpecFloat.
From DL Require Import Lib.Bytes Lib.F64 Lua.Syntax Model.NumberLit Model.NumberWrite Model.NumberValue.
From DL Require Import Proof.EvaluatorF64 Proof.SerializerF64 Proof.NumberWrite Proof.NumberWriteValue.
Import ListNotations.

Local Open Scope Z_scope.

(** a canonical binary64 holding an integer below 2^53 is the small representation of it *)

Lemma repr_nonneg m e : bounded prec emax m e = true -> 0 <= e ->
  Z.pos m * 2 ^ e < 9007199254740992 -> e = 0 /\ small_repr m = (m, 0).
Proof.
  intros Hb He Hv. apply bounded_spec in Hb as [Hc _].
  pose proof (digits_bounds m) as [Hlo _]. set (dg := Z.pos (digits2_pos m)) in *.
  assert (0 < dg) by (unfold dg; lia).
  assert (Hd : dg - 1 + e < 53).
  { apply pow2_lt_inv; try lia. rewrite Z.pow_add_r by lia.
    change (2 ^ 53) with 9007199254740992.
    pose proof (Z.mul_le_mono_nonneg_r _ _ (2 ^ e) ltac:(apply Z.pow_nonneg; lia) Hlo). lia. }
  assert (e = 0) by lia. assert (dg = 53) by lia. split; [assumption|].
  unfold small_repr. fold dg. replace (53 - dg) with 0 by lia. reflexivity.
Qed.

Lemma repr_neg m k : bounded prec emax m (Z.neg k) = true ->
  Z.pos m mod 2 ^ Z.pos k = 0 ->
  exists p, Z.pos m / 2 ^ Z.pos k = Z.pos p /\ Z.pos p < 9007199254740992 /\
            small_repr p = (m, Z.neg k).
Proof.
  intros Hb Hmod.
  assert (Hpk : 0 < 2 ^ Z.pos k) by (apply Z.pow_pos_nonneg; lia).
  pose proof (Z.div_mod (Z.pos m) (2 ^ Z.pos k) ltac:(lia)) as Hdm. rewrite Hmod, Z.add_0_r in Hdm.
  destruct (Z.pos m / 2 ^ Z.pos k) as [|p|p] eqn:Eq; try lia.
  assert (Hm : m = shift_pos k p).
  { apply Pos2Z.inj. rewrite shift_pos_correct. change (Zpower_pos 2 k) with (2 ^ Z.pos k).
    exact Hdm. }
  subst m. apply bounded_spec in Hb as [Hc _]. rewrite digits2_shift, Pos2Z.inj_add in Hc.
    pose proof (digits_bounds p) as [_ Hhi]. set (dg := Z.pos (digits2_pos p)) in *.
    assert (0 < dg) by (unfold dg; lia).
    exists p. split; [reflexivity|]. split.
  - assert (2 ^ dg <= 2 ^ 53) by (apply Z.pow_le_mono_r; lia).
      change (2 ^ 53) with 9007199254740992 in *. lia.
  - unfold small_repr. fold dg. replace (53 - dg) with (Z.pos k) by lia. reflexivity.
Qed.

Local Open Scope N_scope.

Lemma small_int_value_kept (s : bool) p m e bits :
  of_bits bits = S754_finite s m e -> (Z.pos p < 9007199254740992)%Z -> small_repr p = (m, e) ->
  value_kept (NDec bits None) (write_dec_int s (N.pos p)) = true.
Proof.
  intros Hx Hp Hsr. unfold value_kept. rewrite text_value_dec_int. cbn [lit_value].
  rewrite sg_of_N_pos by assumption. rewrite Hsr. cbn [fst snd]. rewrite <- Hx.
  rewrite of_to_bits by apply valid_of_bits. apply same_f64_refl.
Qed.

Definition number_wf (n : number) : Prop :=
  match n with
  | NHex v _ e => v < 2 ^ 64 /\ (forall ex up, e = Some (ex, up) -> ex < 2 ^ 32)
  | NBin v _ => v < 2 ^ 64
  | NDec bits _ => bits < 2 ^ 64
  end.

Theorem write_number_model_value_kept : forall n t, number_wf n ->
  write_number_model n = Some t -> value_kept n t = true.
Proof.
  intros n t Hwf Hw. destruct n as [bits ex|v u e|v u].
  - destruct (of_bits bits) as [s|s| |s m e] eqn:Hx.
    + unfold write_number_model in Hw. rewrite Hx in Hw. destruct ex; [discriminate|].
      injection Hw as <-. unfold value_kept. rewrite text_value_dec_int. cbn [lit_value].
      rewrite Hx. destruct s; reflexivity.
    + eapply write_nonfinite_value_kept; [right; exists s; exact Hx|exact Hw].
    + eapply write_nonfinite_value_kept; [left; exact Hx|exact Hw].
    + pose proof (valid_of_bits bits) as Hb. rewrite Hx in Hb. unfold valid in Hb.
      cbn [valid_binary] in Hb.
      unfold write_number_model in Hw. rewrite Hx in Hw. destruct ex; [discriminate|].
      cbv beta iota zeta in Hw.
      destruct (Z.leb_spec 0 e) as [He|He].
      * destruct (Z.ltb_spec (Z.pos m * 2 ^ e) 9007199254740992) as [Hv|Hv]; [|discriminate].
        injection Hw as <-.
        destruct (repr_nonneg m e Hb He Hv) as [-> Hsr].
        rewrite Z.pow_0_r, Z.mul_1_r in *. cbn [Z.to_N]. rewrite ?Pos.mul_1_r.
        apply (small_int_value_kept s m m 0%Z bits Hx Hv Hsr).
      * destruct e as [|k|k]; try lia. change (- Z.neg k)%Z with (Z.pos k) in Hw.
        destruct (Z.eqb_spec (Z.pos m mod 2 ^ Z.pos k) 0) as [Hmod|Hmod]; [|discriminate].
        injection Hw as <-.
        destruct (repr_neg m k Hb Hmod) as [p [Hq [Hp Hsr]]]. change (Z.pow_pos 2 k) with (2 ^ Z.pos k)%Z. rewrite Hq. cbn [Z.to_N].
        apply (small_int_value_kept s p m (Z.neg k) bits Hx Hp Hsr).
  - cbn [write_number_model] in Hw. injection Hw as <-. destruct Hwf as [Hv He].
    apply write_hex_value_kept; assumption.
  - cbn [write_number_model] in Hw. injection Hw as <-. apply write_bin_value_kept. exact Hwf.
Qed.

Print Assumptions write_number_model_value_kept.
