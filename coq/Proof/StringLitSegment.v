(** Round trip of interpolated-string segments ([Model/StringLit.v], last section):
    what [segment_bytes] emits for the literal part of a backtick string is read back as the
    same bytes by the reference reader [decode_segment].

    Route: [seg_pre false (segment_bytes s)] is [seg_text s], the same loop with the two extra
    escapes written as the three-digit decimal escapes [\123] and [\096]; that text is then
    decoded by [unescape true 96] exactly as [quote_bytes] is in [quote_bytes_decode]. *)
From DL Require Import Lib.Bytes Model.StringLit Proof.StringLitFacts.
Require Import Lia ZArith ZifyBool ZifyN ZifyNat.
Open Scope N_scope.

Fixpoint seg_text (s : bytes) : bytes :=
  match s with
  | [] => []
  | c :: rest =>
    (if c =? 123 then [92; 49; 50; 51]
     else if c =? 96 then [92; 48; 57; 54]
     else if needs_escaping c then escape c (next_is_digit_b rest)
     else [c]) ++ seg_text rest
  end.

Definition plain (b : N) : bool := negb (b =? 92) && negb (b =? 123).

Lemma seg_pre_plain ds R : forallb plain ds = true ->
  seg_pre false (ds ++ R) = option_map (app ds) (seg_pre false R).
Proof.
  induction ds as [|d ds IH]; intros H; cbn [app].
  - destruct (seg_pre false R); reflexivity.
  - cbn [forallb] in H. apply andb_true_iff in H as [Hd H]. unfold plain in Hd.
    cbn [seg_pre]. assert (d =? 92 = false) as -> by lia. assert (d =? 123 = false) as -> by lia.
    rewrite (IH H). destruct (seg_pre false R); reflexivity.
Qed.

Definition esc_shape (t : bytes) : bool :=
  match t with
  | b :: x :: ds => (b =? 92) && negb (x =? 123) && negb (x =? 96) && forallb plain ds
  | _ => false
  end.

Lemma escape_shape c nd : c < 256 -> esc_shape (escape c nd) = true.
Proof.
  intros Hc. destruct nd.
  - apply (byte_sweep (fun c => esc_shape (escape c true))); [vm_compute; reflexivity | exact Hc].
  - apply (byte_sweep (fun c => esc_shape (escape c false))); [vm_compute; reflexivity | exact Hc].
Qed.

Lemma seg_pre_shape t R : esc_shape t = true ->
  seg_pre false (t ++ R) = option_map (app t) (seg_pre false R).
Proof.
  destruct t as [|b [|x ds]]; try discriminate. cbn [esc_shape].
  intros H. apply andb_true_iff in H as [H Hds]. apply andb_true_iff in H as [H H2].
  apply andb_true_iff in H as [Hb H1]. apply N.eqb_eq in Hb; subst b.
  cbn [app seg_pre]. change (92 =? 92) with true. cbv iota.
  assert (x =? 123 = false) as -> by lia. assert (x =? 96 = false) as -> by lia.
  rewrite (seg_pre_plain ds R Hds). destruct (seg_pre false R); reflexivity.
Qed.

Lemma seg_pre_escape c nd R : c < 256 ->
  seg_pre false (escape c nd ++ R) = option_map (app (escape c nd)) (seg_pre false R).
Proof. intros Hc. apply seg_pre_shape, escape_shape, Hc. Qed.

Lemma seg_pre_raw c R : needs_escaping c = false -> c <> 123 ->
  seg_pre false (c :: R) = option_map (cons c) (seg_pre false R).
Proof.
  intros Hn Hb. apply needs_escaping_false in Hn. cbn [seg_pre].
  assert (c =? 92 = false) as -> by lia. assert (c =? 123 = false) as -> by lia. reflexivity.
Qed.

Lemma seg_pre_segment s : wf_bytes s = true -> seg_pre false (segment_bytes s) = Some (seg_text s).
Proof.
  induction s as [|c rest IH]; intros Hwf; [reflexivity|].
  apply wf_cons in Hwf as [Hc Hwf]. specialize (IH Hwf). cbn [segment_bytes seg_text].
  destruct (N.eqb_spec c 123) as [->|E1].
  { cbn. rewrite IH. reflexivity. }
  destruct (N.eqb_spec c 96) as [->|E2].
  { cbn. rewrite IH. reflexivity. }
  cbn [orb]. destruct (needs_escaping c) eqn:E3.
  - rewrite seg_pre_escape, IH by exact Hc. reflexivity.
  - cbn [app]. rewrite seg_pre_raw, IH by assumption. reflexivity.
Qed.

Lemma seg_text_next_digit rest :
  next_is_digit_b (seg_text rest) = true -> next_is_digit_b rest = true.
Proof.
  destruct rest as [|n rest]; [intros H; exact H|]. cbn [seg_text].
  destruct (n =? 123). { discriminate. }
  destruct (n =? 96). { discriminate. }
  destruct (needs_escaping n) eqn:E.
  { destruct (escape_hd n (next_is_digit_b rest)) as [tl ->]. discriminate. }
  cbn [app next_is_digit_b]. intros H; exact H.
Qed.

Lemma seg_text_decode s : wf_bytes s = true ->
  unescape_from true 96 UNormal (seg_text s) = Some s.
Proof.
  induction s as [|c rest IH]; intros Hwf; [reflexivity|].
  apply wf_cons in Hwf as [Hc Hwf]. specialize (IH Hwf). cbn [seg_text].
  destruct (N.eqb_spec c 123) as [->|E1].
  { cbn [app]. rewrite (dec3 true 96 1 2 3 _ 123), IH by (reflexivity || lia). reflexivity. }
  destruct (N.eqb_spec c 96) as [->|E2].
  { cbn [app]. rewrite (dec3 true 96 0 9 6 _ 96), IH by (reflexivity || lia). reflexivity. }
  destruct (needs_escaping c) eqn:E3.
  - rewrite escape_decode, IH; [reflexivity | exact Hc | apply seg_text_next_digit].
  - cbn [app]. rewrite raw_decode, IH; [reflexivity | exact E2 | exact E3].
Qed.

Theorem segment_roundtrip : forall s,
  wf_bytes s = true -> decode_segment (segment_bytes s) = Some s.
Proof.
  intros s Hwf. unfold decode_segment. rewrite (seg_pre_segment s Hwf).
  exact (seg_text_decode s Hwf).
Qed.

(** non-vacuity: a control byte followed by a digit (padded decimal escape), a brace, a backtick
    and a backslash; the written text is [\0015\{\`\\] *)
Example segment_example :
  let s := [1; 53; 123; 96; 92] in
  wf_bytes s = true /\
  segment_bytes s = [92; 48; 48; 49; 53; 92; 123; 92; 96; 92; 92] /\
  seg_pre false (segment_bytes s) = Some [92; 48; 48; 49; 53; 92; 49; 50; 51; 92; 48; 57; 54; 92; 92] /\
  decode_segment (segment_bytes s) = Some s.
Proof. vm_compute. repeat split. Qed.
