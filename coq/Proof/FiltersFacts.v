(** C20 — proofs about Model/Filters.v. *)
From Coq Require Import List Bool.
From DL Require Import Model.Filters.
Import ListNotations.

Section FiltersFacts.

Variables pattern path text block : Type.
Variable matches : pattern -> path -> bool.
Variable parse : text -> option block.
Variable bundle : path -> block -> option block.
Variable generate : block -> text -> text.

Notation should_apply := (should_apply matches).
Notation selected := (selected matches).
Notation run_rules := (run_rules matches).
Notation process_file := (process_file matches parse bundle generate).
Notation process_tree := (process_tree matches parse bundle generate).
Notation rule := (rule pattern path block).
Notation config := (config pattern path block).

(** the code's two tests as the three boolean facts the specification speaks of *)
Lemma should_apply_selected : forall flt f, should_apply flt f = true <-> selected flt f.
Proof.
  clear parse bundle generate.   (* [intuition] below would make the lemma depend on them *)
  intros [ap sk] f. unfold Filters.should_apply, Filters.selected. cbn [apply_to skip].
  set (m := fun p => matches p f).
  assert (Hnone : forallb (fun p => negb (matches p f)) ap = negb (existsb m ap)).
  { induction ap as [|p ps IH]; cbn; [reflexivity|]. rewrite IH, negb_orb. reflexivity. }
  assert (Hsk : negb (is_empty sk) && existsb m sk = existsb m sk) by (destruct sk; reflexivity).
  assert (Hempty : is_empty ap = true <-> ap = []) by (destruct ap; cbn; split; congruence).
  assert (Hex : existsb m ap = true <-> exists p, In p ap /\ matches p f = true) by apply existsb_exists.
  assert (Hno : existsb m sk = false <-> forall p, In p sk -> matches p f = false).
  { rewrite <- not_true_iff_false, existsb_exists. split.
    - intros H p Hp. destruct (matches p f) eqn:E; [exfalso; apply H; exists p; auto|reflexivity].
    - intros H [p [Hp Hm]]. unfold m in Hm. rewrite (H p Hp) in Hm. discriminate. }
  rewrite Hnone, <- negb_orb, Hsk, <- Hno, <- Hempty, <- Hex.
  destruct (is_empty ap), (existsb m ap), (existsb m sk); cbn; intuition congruence.
Qed.

Lemma should_apply_not_selected : forall flt f, should_apply flt f = false <-> ~ selected flt f.
Proof.
  intros flt f. rewrite <- should_apply_selected. destruct (should_apply flt f); split; intros; congruence.
Qed.

Lemma should_apply_no_filter : forall f, should_apply no_filter f = true.
Proof. reflexivity. Qed.

Lemma process_file_ext : forall (c c' : config) f src,
  should_apply (c_filter c) f = should_apply (c_filter c') f ->
  (forall b, run_rules (c_rules c) f b = run_rules (c_rules c') f b) ->
  process_file c f src = process_file c' f src.
Proof.
  intros c c' f src Hg Hr. unfold Filters.process_file. rewrite Hg.
  destruct (parse src); [|reflexivity]. destruct (bundle f b); [|reflexivity].
  rewrite Hr. reflexivity.
Qed.

Definition set_filter (flt : filter pattern) (c : config) : config := Config flt (c_rules c).

(** A file that parses (and bundles): it is written, transformed by the rules, exactly when the
    top-level filter selects it -- then with the same result as without any top-level filter --
    and otherwise it is left alone (nothing is written), whatever the rules are. *)
Lemma global_filter_spec : forall (c : config) f src b0 b1,
  parse src = Some b0 -> bundle f b0 = Some b1 ->
  (selected (c_filter c) f ->
     process_file c f src = process_file (set_filter no_filter c) f src /\
     process_file c f src <> Skipped) /\
  (~ selected (c_filter c) f -> process_file c f src = Skipped).
Proof.
  intros c f src b0 b1 Hp Hb. unfold Filters.process_file. rewrite Hp, Hb.
  cbn [set_filter c_filter c_rules]. rewrite should_apply_no_filter. cbn [negb].
  split.
  - intros Hs. apply should_apply_selected in Hs. rewrite Hs. cbn [negb].
    split; [reflexivity|]. destruct (run_rules (c_rules c) f b1); discriminate.
  - intros Hs. apply should_apply_not_selected in Hs. rewrite Hs. reflexivity.
Qed.

Lemma global_filter_local : forall (c : config) flt' f src,
  should_apply (c_filter c) f = should_apply flt' f ->
  process_file c f src = process_file (set_filter flt' c) f src.
Proof.
  intros c flt' f src H. apply process_file_ext; [exact H|reflexivity].
Qed.

Inductive rules_agree (f : path) : list rule -> list rule -> Prop :=
| ra_nil : rules_agree f [] []
| ra_cons : forall r r' rs rs',
    r_process r = r_process r' ->
    should_apply (r_filter r) f = should_apply (r_filter r') f ->
    rules_agree f rs rs' -> rules_agree f (r :: rs) (r' :: rs').

Definition configs_agree (f : path) (c c' : config) : Prop :=
  should_apply (c_filter c) f = should_apply (c_filter c') f /\ rules_agree f (c_rules c) (c_rules c').

Lemma run_rules_agree : forall f rs rs', rules_agree f rs rs' -> forall b, run_rules rs f b = run_rules rs' f b.
Proof.
  intros f rs rs' H. induction H as [|r r' rs rs' Hp Hs _ IH]; intros b; [reflexivity|].
  cbn [Filters.run_rules]. rewrite Hs, Hp. destruct (should_apply (r_filter r') f).
  - destruct (r_process r' f b); [apply IH|reflexivity].
  - apply IH.
Qed.

Lemma rules_agree_refl : forall f rs, rules_agree f rs rs.
Proof. intros f rs. induction rs; constructor; auto. Qed.

Lemma rules_agree_one : forall f rs1 rs2 (r : rule) flt',
  should_apply (r_filter r) f = should_apply flt' f ->
  rules_agree f (rs1 ++ r :: rs2) (rs1 ++ with_filter flt' r :: rs2).
Proof.
  intros f rs1 rs2 r flt' H. induction rs1 as [|x rs1 IH]; cbn [app].
  - constructor; [reflexivity|exact H|apply rules_agree_refl].
  - constructor; [reflexivity|reflexivity|exact IH].
Qed.

Lemma run_rules_app : forall (rs1 rs2 : list rule) f b,
  run_rules (rs1 ++ rs2) f b =
  match run_rules rs1 f b with Some b' => run_rules rs2 f b' | None => None end.
Proof.
  induction rs1 as [|r rs1 IH]; intros rs2 f b; cbn [app Filters.run_rules]; [reflexivity|].
  destruct (should_apply (r_filter r) f).
  - destruct (r_process r f b); [apply IH|reflexivity].
  - apply IH.
Qed.

Lemma rule_filter_skip : forall (rs1 rs2 : list rule) (r : rule) f b,
  should_apply (r_filter r) f = false ->
  run_rules (rs1 ++ r :: rs2) f b = run_rules (rs1 ++ rs2) f b.
Proof.
  intros rs1 rs2 r f b H. rewrite !run_rules_app. destruct (run_rules rs1 f b); [|reflexivity].
  cbn [Filters.run_rules]. rewrite H. reflexivity.
Qed.

Lemma rule_filter_local : forall (rs1 rs2 : list rule) (r : rule) flt' f b,
  should_apply (r_filter r) f = should_apply flt' f ->
  run_rules (rs1 ++ r :: rs2) f b = run_rules (rs1 ++ with_filter flt' r :: rs2) f b.
Proof.
  intros rs1 rs2 r flt' f b H. apply run_rules_agree. apply rules_agree_one. exact H.
Qed.

Lemma rule_filter_apply : forall (rs1 rs2 : list rule) (r : rule) f b,
  should_apply (r_filter r) f = true ->
  run_rules (rs1 ++ r :: rs2) f b = run_rules (rs1 ++ unfiltered r :: rs2) f b.
Proof.
  intros rs1 rs2 r f b H. apply rule_filter_local. rewrite H. reflexivity.
Qed.

Definition set_rules (rs : list rule) (c : config) : config := Config (c_filter c) rs.

Lemma file_rule_filter_skip : forall (c : config) rs1 rs2 (r : rule) f src,
  ~ selected (r_filter r) f ->
  process_file (set_rules (rs1 ++ r :: rs2) c) f src = process_file (set_rules (rs1 ++ rs2) c) f src.
Proof.
  intros c rs1 rs2 r f src H. apply process_file_ext; [reflexivity|]. intros b.
  apply rule_filter_skip. apply should_apply_not_selected. exact H.
Qed.

Lemma file_rule_filter_apply : forall (c : config) rs1 rs2 (r : rule) f src,
  selected (r_filter r) f ->
  process_file (set_rules (rs1 ++ r :: rs2) c) f src =
  process_file (set_rules (rs1 ++ unfiltered r :: rs2) c) f src.
Proof.
  intros c rs1 rs2 r f src H. apply process_file_ext; [reflexivity|]. intros b.
  apply rule_filter_apply. apply should_apply_selected. exact H.
Qed.

(** Filters never affect any other file or rule: editing filters anywhere in the configuration
    leaves the outcome of every file on which all the decisions are unchanged exactly as it was,
    position by position in the tree. *)
Lemma filters_local : forall (c c' : config) files,
  length (process_tree c files) = length (process_tree c' files) /\
  forall n f src, nth_error files n = Some (f, src) ->
    configs_agree f c c' ->
    nth_error (process_tree c files) n = Some (f, process_file c f src) /\
    nth_error (process_tree c' files) n = Some (f, process_file c f src).
Proof.
  intros c c' files. unfold Filters.process_tree. split; [rewrite !map_length; reflexivity|].
  intros n f src Hn [Hg Hr]. rewrite !nth_error_map, Hn. cbn [option_map fst snd].
  rewrite (process_file_ext c c' f src Hg (run_rules_agree f _ _ Hr)). split; reflexivity.
Qed.

(** Both levels decide on the same path with the same function: a filter put on every rule selects exactly
    the files the same filter selects at the top level *)
Lemma run_rules_same_filter : forall (rs : list rule) flt f b,
  run_rules (map (with_filter flt) rs) f b =
  if should_apply flt f then run_rules (map unfiltered rs) f b else Some b.
Proof.
  induction rs as [|r rs IH]; intros flt f b; cbn [map Filters.run_rules with_filter unfiltered r_filter r_process].
  - destruct (should_apply flt f); reflexivity.
  - rewrite should_apply_no_filter. destruct (should_apply flt f) eqn:E.
    + destruct (r_process r f b) as [b'|]; [|reflexivity]. rewrite IH, E. reflexivity.
    + rewrite IH, E. reflexivity.
Qed.

Lemma levels_agree : forall (rs : list rule) flt f src b0 b1,
  parse src = Some b0 -> bundle f b0 = Some b1 ->
  (process_file (Config flt (map unfiltered rs)) f src = Skipped <->
   run_rules (map (with_filter flt) rs) f b1 = Some b1 /\ should_apply flt f = false) /\
  (should_apply flt f = true ->
   process_file (Config flt (map unfiltered rs)) f src = process_file (Config no_filter (map (with_filter flt) rs)) f src).
Proof.
  intros rs flt f src b0 b1 Hp Hb. unfold Filters.process_file. rewrite Hp, Hb. cbn [c_filter c_rules].
  rewrite should_apply_no_filter, !run_rules_same_filter. destruct (should_apply flt f); cbn [negb]; split.
  - split; [|intros [_ H]; discriminate]. destruct (run_rules (map unfiltered rs) f b1); discriminate.
  - reflexivity.
  - split; [split|]; reflexivity.
  - discriminate.
Qed.

End FiltersFacts.

Arguments set_filter {pattern path block}.
Arguments set_rules {pattern path block}.
Arguments rules_agree {pattern path block}.
Arguments configs_agree {pattern path block}.
