(** The ancestor pruning of darklua's [clean_files] on file-system resources, which
    [Model/Worker.v] models apart from the memory file system as [prune_ancestors] and
    [clean_one]: it only ever removes directories that have no file below them and were not
    there before the first run, and never a file other than the queued one. *)
From Coq Require Import Arith PeanoNat Lia.
From DL Require Import Lib.Bytes Model.WorkerFs Model.Worker Proof.WorkerBasics.
Open Scope N_scope.

Lemma strict_prefix_spec a b : strict_prefix a b = true <-> starts_with a b = true /\ a <> b.
Proof.
  unfold strict_prefix. rewrite andb_true_iff, negb_true_iff, path_eqb_neq. tauto.
Qed.

Lemma prune_subset snapshot files anc : forall dirs d,
  In d (prune_ancestors snapshot files dirs anc) -> In d dirs.
Proof.
  induction anc as [|a anc IH]; intros dirs d H; cbn [prune_ancestors] in H; [exact H|].
  destruct (negb (mem_path a snapshot) && dir_is_empty files dirs a); [|exact H].
  apply IH in H. apply filter_In in H as [H _]. exact H.
Qed.

Lemma prune_keeps snapshot files anc : forall dirs d,
  In d dirs ->
  (forall a dirs', In d dirs' -> starts_with a d = true ->
                   negb (mem_path a snapshot) && dir_is_empty files dirs' a = false) ->
  In d (prune_ancestors snapshot files dirs anc).
Proof.
  induction anc as [|a anc IH]; intros dirs d Hd Hkeep; cbn [prune_ancestors]; [exact Hd|].
  destruct (negb (mem_path a snapshot) && dir_is_empty files dirs a) eqn:Ea; [|exact Hd].
  apply IH; [|exact Hkeep]. apply filter_In. split; [exact Hd|]. apply negb_true_iff.
  destruct (starts_with a d) eqn:Es; [|reflexivity]. rewrite (Hkeep a dirs Hd Es) in Ea. discriminate.
Qed.

Lemma prune_keeps_snapshot snapshot files anc : forall dirs d,
  In d snapshot -> In d dirs -> In d (prune_ancestors snapshot files dirs anc).
Proof.
  intros dirs d Hs Hd. apply prune_keeps; [exact Hd|]. intros a dirs' Hd' Es.
  destruct (path_eq_dec a d) as [->|Hne].
  - apply mem_path_In in Hs. rewrite Hs. reflexivity.
  - (* [d] itself is a directory below [a] *)
    assert (He : existsb (fun p => strict_prefix a p) dirs' = true).
    { apply existsb_exists. exists d. split; [exact Hd'|]. apply strict_prefix_spec. auto. }
    unfold dir_is_empty. rewrite He, !andb_false_r. reflexivity.
Qed.

Lemma prune_keeps_nonempty snapshot files anc : forall dirs d f,
  In d dirs -> In f files -> starts_with d f = true -> d <> f ->
  In d (prune_ancestors snapshot files dirs anc).
Proof.
  intros dirs d f Hd Hf Hs Hne. apply prune_keeps; [exact Hd|]. intros a dirs' _ Es.
  assert (He : existsb (fun p => strict_prefix a p) files = true).
  { apply existsb_exists. exists f. split; [exact Hf|]. apply strict_prefix_spec.
    split; [eapply starts_with_trans; eassumption|].
    intros ->. apply Hne. apply starts_with_antisym; assumption. }
  unfold dir_is_empty. rewrite He, andb_false_r. cbn. apply andb_false_r.
Qed.

Lemma clean_one_files snapshot files dirs p q :
  In q (fst (clean_one snapshot files dirs p)) <-> In q files /\ q <> p.
Proof.
  unfold clean_one. cbn [fst]. rewrite filter_In, negb_true_iff, path_eqb_neq. tauto.
Qed.
