(** Facts about [Lib/F64] (binary64 as [spec_float]) needed by the evaluator soundness
    proofs: every operation returns a valid (canonical) float on valid inputs, and on valid
    floats the bit pattern determines the float.  Validity of the results of
    [binary_round_aux] is taken from Flocq ([IEEE754.BinarySingleNaN]); that part of Flocq
    is proved over the classical real numbers, whose axioms therefore appear in
    [Print Assumptions] of everything that depends on these lemmas. *)
From Coq Require Import ZArith NArith List Bool Lia.
From Coq Require Import Floats.SpecFloat.
From Flocq Require Import Core.Zaux Core.Raux Core.Digits Core.FLX IEEE754.BinarySingleNaN.
From DL Require Import Lib.Bytes Lib.F64.
Open Scope Z_scope.

#[local] Instance prec_gt_0_53 : Prec_gt_0 53. Proof. reflexivity. Qed.
#[local] Instance prec_lt_emax_53 : Prec_lt_emax 53 1024. Proof. reflexivity. Qed.

Definition valid (x : f64) : Prop := valid_binary prec emax x = true.

Lemma rne_equiv s m l : round_nearest_even m l = choice_mode mode_NE s m l.
Proof.
case l; [reflexivity|intro c].
case c; [ | reflexivity..].
now simpl; unfold Round.cond_incr; case Z.even.
Qed.

Lemma bra_equiv sx mx ex lx :
  SpecFloat.binary_round_aux prec emax sx mx ex lx = binary_round_aux prec emax mode_NE sx mx ex lx.
Proof.
unfold SpecFloat.binary_round_aux, binary_round_aux.
set (mrse' := shr_fexp _ _ _ _ _).
case mrse'; intros mrs' e'; simpl.
now rewrite (rne_equiv sx).
Qed.

Lemma br_equiv s m e : SpecFloat.binary_round prec emax s m e = binary_round prec emax mode_NE s m e.
Proof.
unfold SpecFloat.binary_round, binary_round, shl_align_fexp.
set (mez := shl_align _ _ _); case mez as [mz ez].
apply bra_equiv.
Qed.

Lemma valid_fnorm m e sz : valid (fnorm m e sz).
Proof.
  unfold valid, fnorm, SpecFloat.binary_normalize. destruct m; [reflexivity| |];
  rewrite br_equiv; apply (binary_round_correct prec emax _ _ mode_NE).
Qed.

Lemma valid_fmul x y : valid x -> valid y -> valid (fmul x y).
Proof.
  unfold valid, fmul. destruct x as [sx|sx| |sx mx ex], y as [sy|sy| |sy my ey]; try reflexivity.
  intros Hx Hy. cbn [SFmul]. rewrite bra_equiv. apply (Bmult_correct_aux prec emax _ _ mode_NE); assumption.
Qed.

Lemma valid_fdiv_fin sx mx ex sy my ey : valid (fdiv (S754_finite sx mx ex) (S754_finite sy my ey)).
Proof.
  unfold valid, fdiv. cbn [SFdiv].
  generalize (Bdiv_correct_aux prec emax _ _ mode_NE sx mx ex sy my ey). cbv zeta.
  destruct (SFdiv_core_binary prec emax (Z.pos mx) ex (Z.pos my) ey) as [[mz ez] lz].
  rewrite bra_equiv. intros [H _]. exact H.
Qed.

Lemma valid_fdiv x y : valid (fdiv x y).
Proof.
  destruct x as [sx|sx| |sx mx ex], y as [sy|sy| |sy my ey]; try reflexivity.
  apply valid_fdiv_fin.
Qed.

Lemma valid_fneg x : valid x -> valid (fneg x).
Proof. destruct x; auto. Qed.

Lemma valid_fadd x y : valid x -> valid y -> valid (fadd x y).
Proof.
  destruct x as [sx|sx| |sx mx ex], y as [sy|sy| |sy my ey]; intros Hx Hy; try assumption; try reflexivity;
   try (unfold fadd; cbn [SFadd]; match goal with |- context [if ?c then _ else _] => destruct c end; reflexivity).
  unfold fadd. cbn [SFadd]. apply valid_fnorm.
Qed.

Lemma valid_fsub x y : valid x -> valid y -> valid (fsub x y).
Proof.
  destruct x as [sx|sx| |sx mx ex], y as [sy|sy| |sy my ey]; intros Hx Hy; try assumption; try reflexivity;
   try (unfold fsub; cbn [SFsub]; match goal with |- context [if ?c then _ else _] => destruct c end; reflexivity);
   unfold fsub; cbn [SFsub SFopp]; first [exact Hy | apply valid_fnorm].
Qed.

Lemma valid_fsqrt x : valid x -> valid (fsqrt x).
Proof.
  destruct x as [sx|sx| |sx mx ex]; intros Hx; try reflexivity.
  - destruct sx; reflexivity.
  - unfold fsqrt. cbn [SFsqrt]. destruct sx; [reflexivity|].
    generalize (Bsqrt_correct_aux prec emax _ _ mode_NE mx ex Hx). cbv zeta.
    destruct (SFsqrt_core_binary prec emax (Z.pos mx) ex) as [[mz ez] lz].
    rewrite bra_equiv. intros [H _]. exact H.
Qed.

Lemma valid_ffloor x : valid x -> valid (ffloor x).
Proof.
  destruct x as [sx|sx| |sx mx ex]; intros Hx; try exact Hx.
  unfold ffloor. destruct (0 <=? ex); [exact Hx|]. destruct sx; apply valid_fnorm.
Qed.

Lemma valid_fone : valid fone. Proof. reflexivity. Qed.
Lemma valid_of_Z z : valid (of_Z z). Proof. apply valid_fnorm. Qed.
Lemma valid_of_N n : valid (of_N n). Proof. apply valid_fnorm. Qed.

Lemma valid_fpow x y z : valid x -> fpow x y = Some z -> valid z.
Proof.
  intros Hx. unfold fpow.
  destruct (is_zero y). { intros E; injection E as <-; reflexivity. }
  destruct (same_f64 x fone). { intros E; injection E as <-; reflexivity. }
  destruct (is_nan x || is_nan y). { intros E; injection E as <-; reflexivity. }
  destruct (same_f64 y _).
  { destruct x as [sx|sx| |sx mx ex]; try (intros E; injection E as <-; reflexivity).
    destruct sx; intros E; injection E as <-; [reflexivity|]. exact (valid_fsqrt _ Hx). }
  destruct (is_integer y); [|discriminate]. cbv zeta.
  destruct (Z.abs (to_Z y) <=? _);
    [|destruct x as [sx|sx| |sx mx ex];
      [destruct (0 <? to_Z y); intros E; injection E as <-; reflexivity
      |destruct (0 <? to_Z y); intros E; injection E as <-; reflexivity
      |intros E; injection E as <-; reflexivity
      |destruct (same_f64 _ fone);
        [intros E; injection E as <-; destruct (_ && _); reflexivity|];
       destruct (fleb _ _);
        [intros E; injection E as <-; destruct (0 <? to_Z y); reflexivity|];
       destruct (fleb _ _); [|discriminate];
       intros E; injection E as <-; destruct (0 <? to_Z y); reflexivity]].
  destruct x as [sx|sx| |sx mx ex].
  - destruct (0 <? to_Z y); intros E; injection E as <-; reflexivity.
  - destruct (0 <? to_Z y); intros E; injection E as <-; reflexivity.
  - intros E; injection E as <-; reflexivity.
  - (* the candidate result [r] is valid; the exactness test only decides whether it is returned *)
    match goal with |- match ?r with _ => _ end = Some z -> _ => assert (Hr : valid r); [|destruct r as [s0|s0| |s0 m0 e0] eqn:Er] end.
    + destruct (0 <? to_Z y); [apply valid_fnorm|].
      destruct (_ && _); [apply valid_fnorm|reflexivity].
    + discriminate.
    + intros E; injection E as <-. reflexivity.
    + discriminate.
    + match goal with |- (if ?c then _ else _) = _ -> _ => destruct c end; [|discriminate].
      intros E; injection E as <-. exact Hr.
Qed.

Lemma valid_ffmod a b : valid a -> valid b -> valid (ffmod a b).
Proof.
  intros Ha Hb. destruct a as [sx|sx| |sx mx ex], b as [sy|sy| |sy my ey]; try reflexivity; try exact Ha.
  unfold ffmod. apply valid_fnorm.
Qed.

Lemma valid_fmod_luau a b : valid a -> valid b -> valid (fmod_luau a b).
Proof.
  intros Ha Hb. unfold fmod_luau. pose proof (valid_ffmod a b Ha Hb).
  destruct (_ && _); [apply valid_fadd|]; assumption.
Qed.

Lemma valid_fmod_51 a b : valid a -> valid b -> valid (fmod_51 a b).
Proof.
  intros Ha Hb. unfold fmod_51. apply valid_fsub; [assumption|].
  apply valid_fmul; [|assumption]. apply valid_ffloor. apply valid_fdiv; assumption.
Qed.

Lemma valid_of_decimal s dd X : valid (of_decimal s dd X).
Proof.
  unfold of_decimal. destruct dd; try reflexivity.
  destruct (0 <=? X). { apply valid_fnorm. }
  destruct (10 ^ (- X)); try reflexivity. apply valid_fdiv_fin.
Qed.
Lemma valid_of_decimal_c s dd X : valid (of_decimal_c s dd X).
Proof. apply valid_of_decimal. Qed.

Lemma fmul_comm a b : fmul a b = fmul b a.
Proof.
  unfold fmul. destruct a as [sx|sx| |sx mx ex], b as [sy|sy| |sy my ey]; cbn [SFmul]; try reflexivity;
    try (rewrite xorb_comm; reflexivity).
  rewrite xorb_comm, Pos.mul_comm, Z.add_comm. reflexivity.
Qed.

Lemma same_f64_refl x : same_f64 x x = true.
Proof. apply N.eqb_refl. Qed.

Lemma bra_opp_sign s m e l :
  SFopp (SpecFloat.binary_round_aux prec emax s m e l) = SpecFloat.binary_round_aux prec emax (negb s) m e l.
Proof.
  unfold SpecFloat.binary_round_aux.
  destruct (shr_fexp prec emax m e l) as [mrs e1].
  destruct (shr_fexp prec emax _ e1 loc_Exact) as [mrs2 e2].
  destruct (shr_m mrs2); try reflexivity. destruct (Zle_bool e2 (emax - prec)); reflexivity.
Qed.

Lemma bra_opp m e l :
  SFopp (SpecFloat.binary_round_aux prec emax false m e l) = SpecFloat.binary_round_aux prec emax true m e l.
Proof. apply bra_opp_sign. Qed.

Lemma fneg_fnorm z e : fneg (fnorm z e false) = fnorm (- z) e true.
Proof.
  unfold fnorm, fneg. destruct z as [|p|p]; [reflexivity| |];
    cbn [Z.opp SpecFloat.binary_normalize]; unfold SpecFloat.binary_round;
    destruct (shl_align p e _) as [mz ez]; apply bra_opp_sign.
Qed.

Lemma fneg_of_N v : fneg (of_N v) = fnorm (- Z.of_N v) 0 true.
Proof. apply fneg_fnorm. Qed.

Lemma digits_bounds m : 2 ^ (Z.pos (digits2_pos m) - 1) <= Z.pos m < 2 ^ Z.pos (digits2_pos m).
Proof.
  rewrite Zpos_digits2_pos. pose proof (Zdigits_correct radix2 (Z.pos m)) as H.
  cbn [Z.abs] in H. exact H.
Qed.

Lemma bounded_spec m e : bounded prec emax m e = true <->
  Z.max (Z.pos (digits2_pos m) + e - 53) (-1074) = e /\ e <= 971.
Proof.
  unfold bounded, canonical_mantissa, SpecFloat.fexp, SpecFloat.emin, prec, emax.
  rewrite andb_true_iff. rewrite <- Zeq_is_eq_bool. rewrite <- Zle_is_le_bool. 
  replace (3 - 1024 - 53) with (-1074) by reflexivity. replace (1024 - 53) with 971 by reflexivity. tauto.
Qed.

Lemma fnorm_idem m e : bounded prec emax m e = true -> fnorm (Z.pos m) e false = S754_finite false m e.
Proof.
  intros Hb. pose proof Hb as Hb'. unfold bounded in Hb'. apply andb_true_iff in Hb' as [Hc He].
  unfold canonical_mantissa in Hc. apply Zeq_bool_eq in Hc.
  unfold fnorm, SpecFloat.binary_normalize, SpecFloat.binary_round, shl_align_fexp.
  rewrite Hc. unfold shl_align. rewrite Z.sub_diag.
  unfold SpecFloat.binary_round_aux, shr_fexp. cbn [Zdigits2]. rewrite Hc, Z.sub_diag.
  cbn [shr shr_record_of_loc shr_m loc_of_shr_record shr_r shr_s round_nearest_even Zdigits2].
  rewrite Hc, Z.sub_diag. cbn [shr shr_m]. rewrite He. reflexivity.
Qed.

Ltac Zify.zify_post_hook ::= Z.div_mod_to_equations.

Lemma testbit63 b : 0 <= b < 18446744073709551616 ->
  Z.testbit b 63 = (9223372036854775808 <=? b).
Proof.
  intros H. rewrite Z.testbit_odd, Z.shiftr_div_pow2 by lia.
  change (2 ^ 63) with 9223372036854775808.
  destruct (9223372036854775808 <=? b) eqn:E.
  - assert (b / 9223372036854775808 = 1) as -> by lia. reflexivity.
  - assert (b / 9223372036854775808 = 0) as -> by lia. reflexivity.
Qed.

Lemma pow2_lt_inv a b : 0 <= b -> 2 ^ a < 2 ^ b -> a < b.
Proof. intros Hb H. apply Z.pow_lt_mono_r_iff in H; lia. Qed.

Lemma of_to_bits x : valid x -> of_bits (to_bits x) = x.
Proof.
  destruct x as [s|s| |s m e]; intros Hx.
  - destruct s; reflexivity.
  - destruct s; reflexivity.
  - reflexivity.
  - unfold valid in Hx. cbn [valid_binary] in Hx. unfold to_bits. rewrite (fnorm_idem _ _ Hx).
    apply bounded_spec in Hx as [Hmax He]. pose proof (digits_bounds m) as [Hlo Hhi].
    set (dg := Z.pos (digits2_pos m)) in *. assert (0 < dg) by (unfold dg; lia).
    destruct (Z.pos m <? 4503599627370496) eqn:Em.
    + assert (dg <= 52).
      { assert (dg - 1 < 52); [|lia]. apply pow2_lt_inv; try lia;
        change (2 ^ 52) with 4503599627370496; lia. }
      assert (e = -1074) by lia. subst e.
      unfold of_bits. cbv zeta. rewrite Z2N.id by (destruct s; lia).
      set (b := (if s then 9223372036854775808 else 0) + Z.pos m).
      rewrite testbit63 by (unfold b; destruct s; lia).
      assert ((b / 4503599627370496) mod 2048 = 0) as -> by (unfold b; destruct s; lia).
      assert (b mod 4503599627370496 = Z.pos m) as -> by (unfold b; destruct s; lia).
      cbn [Z.eqb]. f_equal. unfold b; destruct s; lia.
    + assert (53 <= dg).
      { assert (52 < dg); [|lia]. apply pow2_lt_inv; try lia;
        change (2 ^ 52) with 4503599627370496; lia. }
      assert (dg = 53) by lia. assert (-1074 <= e) by lia.
      assert (Z.pos m < 9007199254740992) by (change 9007199254740992 with (2 ^ 53); rewrite <- H1; exact Hhi).
      unfold of_bits. cbv zeta.
      set (b := (if s then 9223372036854775808 else 0) + (e + 1075) * 4503599627370496 + (Z.pos m - 4503599627370496)).
      rewrite Z2N.id by (unfold b; destruct s; lia).
      rewrite testbit63 by (unfold b; destruct s; lia).
      assert ((b / 4503599627370496) mod 2048 = e + 1075) as -> by (unfold b; destruct s; lia).
      assert (b mod 4503599627370496 = Z.pos m - 4503599627370496) as -> by (unfold b; destruct s; lia).
      assert (e + 1075 =? 0 = false) as -> by lia.
      assert (e + 1075 =? 2047 = false) as -> by lia.
      replace (Z.pos m - 4503599627370496 + 4503599627370496) with (Z.pos m) by lia.
      f_equal; [unfold b; destruct s; lia | lia].
Qed.

Lemma to_bits_inj x y : valid x -> valid y -> same_f64 x y = true -> x = y.
Proof.
  intros Hx Hy H. apply N.eqb_eq in H. rewrite <- (of_to_bits x Hx), <- (of_to_bits y Hy). now rewrite H.
Qed.

Lemma valid_of_bits b : valid (of_bits b).
Proof.
  unfold of_bits. cbv zeta. set (z := Z.of_N b).
  set (e := (z / 4503599627370496) mod 2048). set (m := z mod 4503599627370496).
  assert (0 <= e < 2048) by (unfold e; lia). assert (0 <= m < 4503599627370496) by (unfold m; lia).
  destruct (e =? 0) eqn:E0.
  { destruct m as [|p|p] eqn:Em; try reflexivity. unfold valid. cbn [valid_binary]. apply bounded_spec.
    pose proof (digits_bounds p) as [Hlo Hhi]. set (dg := Z.pos (digits2_pos p)) in *.
    assert (0 < dg) by (unfold dg; lia).
    assert (dg - 1 < 52).
    { apply pow2_lt_inv; try lia; change (2 ^ 52) with 4503599627370496; lia. }
    lia. }
  destruct (e =? 2047) eqn:E1.
  { destruct (m =? 0); reflexivity. }
  destruct (m + 4503599627370496) as [|p|p] eqn:Em; try reflexivity.
  unfold valid. cbn [valid_binary]. apply bounded_spec.
  pose proof (digits_bounds p) as [Hlo Hhi]. set (dg := Z.pos (digits2_pos p)) in *.
  assert (0 < dg) by (unfold dg; lia).
  assert (dg - 1 < 53).
  { apply pow2_lt_inv; try lia; change (2 ^ 53) with 9007199254740992; lia. }
  assert (52 < dg).
  { apply pow2_lt_inv; try lia; change (2 ^ 52) with 4503599627370496; lia. }
  lia.
Qed.
