(** Store-extension facts and the behaviour of the primitive operations of the reference
    interpreter on values that carry no metatable ("plain" values). *)
From Coq Require Import ZArith NArith List Bool String Lia.
From Coq Require Import Floats.SpecFloat.
From DL Require Import Lib.Bytes Lib.F64 Lua.Syntax Lua.Sem Model.Evaluator Lua.EvalSpec Proof.SemFacts.
Import ListNotations.
Open Scope N_scope.
Local Notation llen := List.length.

Lemma list_extends_refl {A} (l : list A) : list_extends l l.
Proof. exists []. symmetry; apply app_nil_r. Qed.
Lemma list_extends_trans {A} (a b c : list A) : list_extends a b -> list_extends b c -> list_extends a c.
Proof. intros [x ->] [y ->]. exists (x ++ y). symmetry; apply app_assoc. Qed.
Lemma list_extends_app {A} (l x : list A) : list_extends l (l ++ x).
Proof. exists x; reflexivity. Qed.
Lemma list_extends_length {A} (a b : list A) : list_extends a b -> (llen a <= llen b)%nat.
Proof. intros [x ->]. rewrite app_length. lia. Qed.

Lemma store_extends_refl s : store_extends s s.
Proof. unfold store_extends. repeat split; apply list_extends_refl. Qed.
Lemma store_extends_trans a b c : store_extends a b -> store_extends b c -> store_extends a c.
Proof.
  unfold store_extends. intros (A1 & A2 & A3 & A4 & A5 & A6) (B1 & B2 & B3 & B4 & B5 & B6).
  repeat split; try congruence; eapply list_extends_trans; eauto.
Qed.

Lemma store_extends_tables s s' : store_extends s s' -> (llen (tables s) <= llen (tables s'))%nat.
Proof. intros (_ & _ & _ & _ & H & _). now apply list_extends_length. Qed.
Lemma store_extends_closures s s' : store_extends s s' -> (llen (closures s) <= llen (closures s'))%nat.
Proof. intros (_ & _ & _ & _ & _ & H). now apply list_extends_length. Qed.

Lemma nth_N_extends {A} (l l' : list A) n v : list_extends l l' -> nth_N l n = Some v -> nth_N l' n = Some v.
Proof. intros [x ->]. apply nth_N_app_l. Qed.

Lemma set_nth_app_r {A} (l x : list A) n v : (llen l <= n)%nat ->
  set_nth (l ++ x) n v = l ++ set_nth x (n - llen l) v.
Proof.
  revert n; induction l as [|y l IH]; intros n H; cbn [List.length app] in *.
  - now rewrite Nat.sub_0_r.
  - destruct n as [|n]; [lia|]. cbn [set_nth]. rewrite IH by lia. reflexivity.
Qed.
Lemma set_nth_extends {A} (l l' : list A) n v : list_extends l l' -> (llen l <= n)%nat ->
  list_extends l (set_nth l' n v).
Proof. intros [x ->] H. rewrite set_nth_app_r by exact H. apply list_extends_app. Qed.

Definition plain_tab (s : store) (a : N) : Prop :=
  exists t, nth_N (tables s) (N.to_nat a) = Some t /\ t_meta t = None.
Definition plain (s : store) (v : value) : Prop :=
  match v with VTable a => plain_tab s a | _ => True end.

Lemma tab_extends (P : _ -> Prop) s s' a : store_extends s s' ->
  (exists t, nth_N (tables s) a = Some t /\ P t) -> exists t, nth_N (tables s') a = Some t /\ P t.
Proof.
  intros (_ & _ & _ & _ & Ht & _) (t & H1 & H2). exists t. split; auto. eapply nth_N_extends; eauto.
Qed.
Lemma plain_tab_extends s s' a : store_extends s s' -> plain_tab s a -> plain_tab s' a.
Proof. unfold plain_tab. apply tab_extends. Qed.
Lemma plain_extends s s' v : store_extends s s' -> plain s v -> plain s' v.
Proof. destruct v; cbn; auto. apply plain_tab_extends. Qed.
Lemma strmeta_plain_extends s s' : store_extends s s' -> strmeta_plain s -> strmeta_plain s'.
Proof. unfold strmeta_plain. apply tab_extends. Qed.
(** the globals table is a [plain_tab] *)
Lemma env_plain_extends s s' : store_extends s s' -> env_plain s -> env_plain s'.
Proof.
  intros H [A B]. exact (conj (plain_tab_extends _ _ _ H A) (strmeta_plain_extends _ _ H B)).
Qed.

Lemma get_cell_ok a s v s' : get_cell a s = Ok v s' -> s' = s.
Proof. unfold get_cell. destruct nth_N; intros H; inversion H; auto. Qed.
Lemma get_table_ok a s t s' : get_table a s = Ok t s' -> s' = s /\ nth_N (tables s) (N.to_nat a) = Some t.
Proof. unfold get_table. destruct nth_N; intros H; inversion H; subst; auto. Qed.
Lemma get_table_some a s t : nth_N (tables s) (N.to_nat a) = Some t -> get_table a s = Ok t s.
Proof. unfold get_table. intros ->. reflexivity. Qed.

Lemma new_closure_ok c s a s' : new_closure c s = Ok a s' ->
  store_extends s s' /\ N.to_nat a = llen (closures s) /\ closures s' = closures s ++ [c].
Proof.
  unfold new_closure. intros H; inversion H; subst; clear H. unfold store_extends; cbn.
  rewrite Nat2N.id. repeat split; try apply list_extends_refl. apply list_extends_app.
Qed.

(** [fresh_tab s0 s a]: [s] only extends [s0], and [a] is a table allocated since [s0] that is
    still without metatable.  The table under construction in a table constructor has this
    property, and every step of the construction keeps it. *)
Definition fresh_tab (s0 s : store) (a : N) : Prop :=
  store_extends s0 s /\ (llen (tables s0) <= N.to_nat a)%nat /\ plain_tab s a.

Lemma fresh_tab_extends s0 s s' a : fresh_tab s0 s a -> store_extends s s' -> fresh_tab s0 s' a.
Proof.
  intros (E & L & P) E'. split; [eapply store_extends_trans; eauto|]. split; [exact L|].
  eapply plain_tab_extends; eauto.
Qed.

Lemma new_table_ok t s a s' : new_table t s = Ok a s' -> t_meta t = None -> fresh_tab s s' a.
Proof.
  unfold new_table. intros H Hm; inversion H; subst; clear H. split; [|split].
  - unfold store_extends; cbn. repeat split; try apply list_extends_refl. apply list_extends_app.
  - rewrite Nat2N.id. apply Nat.le_refl.
  - exists t. split; [|exact Hm]. cbn [tables]. rewrite Nat2N.id. apply nth_N_length.
Qed.

Lemma put_ok s0 a k v s s' : put a k v s = Ok tt s' -> fresh_tab s0 s a -> fresh_tab s0 s' a.
Proof.
  unfold put. intros H ((E1 & E2 & E3 & E4 & E5 & E6) & Hlen & t0 & Ht0 & Hm0).
  binv H as t s1 Ht. apply get_table_ok in Ht as [-> Ht]. rewrite Ht0 in Ht. inversion Ht; subst t; clear Ht.
  destruct (norm_key k) as [k'|]; [|discriminate H].
  unfold set_table in H. inversion H; subst s'; clear H.
  split; [|split; [exact Hlen|]].
  - unfold store_extends; cbn. repeat split; auto. apply set_nth_extends; auto.
  - eexists. split; [apply nth_N_set_same; exact (nth_N_lt _ _ _ Ht0)|exact Hm0].
Qed.

Lemma put_pos_ok s0 a pos v s s' : put_pos a pos v s = Ok tt s' -> fresh_tab s0 s a -> fresh_tab s0 s' a.
Proof.
  unfold put_pos. intros H F. destruct v; try (eapply put_ok; eassumption).
  rinv H. exact F.
Qed.

Lemma fill_go_ok s0 a : forall vs pos s u s',
  fill_go a vs pos s = Ok u s' -> fresh_tab s0 s a -> fresh_tab s0 s' a.
Proof.
  induction vs as [|v vs IH]; intros pos s u s' H F; cbn [fill_go] in H.
  - rinv H. exact F.
  - binv H as u1 s1 Hput. destruct u1. eapply IH; [exact H|]. eapply put_pos_ok; eauto.
Qed.

Lemma metamethod_plain_tab s a ev : plain_tab s a -> metamethod (VTable a) ev s = Ok VNil s.
Proof.
  intros (t & Ht & Hm). unfold metamethod, metatable_of, bind, ret.
  rewrite (get_table_some _ _ _ Ht). rewrite Hm. reflexivity.
Qed.

Lemma metamethod_plain s v ev :
  strmeta_plain s -> plain s v -> raw_equal (vstr "__index") (vstr ev) = false ->
  metamethod v ev s = Ok VNil s.
Proof.
  intros (ts & Hts & Hes) Hp Hev. destruct v; try reflexivity.
  - (* a string: the string metatable holds [__index] only *)
    unfold metamethod, metatable_of, bind, ret.
    rewrite (get_table_some _ _ _ Hts). rewrite Hes. cbn [raw_get]. rewrite Hev. reflexivity.
  - now apply metamethod_plain_tab.
Qed.

(** The inversion form, for a hypothesis obtained from [bind_ok]: rewriting inside the whole
    operator body instead is many times dearer to check. *)
Lemma metamethod_plain_ok s v ev h s1 :
  strmeta_plain s -> plain s v -> raw_equal (vstr "__index") (vstr ev) = false ->
  metamethod v ev s = Ok h s1 -> h = VNil /\ s1 = s.
Proof. intros Hs Hp Hev H. rewrite metamethod_plain in H by assumption. now inversion H. Qed.

Lemma metamethod_plain_tab_ok s a ev h s1 :
  plain_tab s a -> metamethod (VTable a) ev s = Ok h s1 -> h = VNil /\ s1 = s.
Proof. intros Hp H. rewrite metamethod_plain_tab in H by assumption. now inversion H. Qed.

(** the handler lookup of the binary arithmetic and concatenation operators finds nothing *)
Lemma handler2_plain {A} s a b ev (k : value -> M A) (r : A) s' :
  strmeta_plain s -> plain s a -> plain s b -> raw_equal (vstr "__index") (vstr ev) = false ->
  (h <- metamethod a ev ;; h <- (match h with VNil => metamethod b ev | _ => ret h end) ;; k h) s = Ok r s' ->
  k VNil s = Ok r s'.
Proof.
  intros Hs Ha Hb Hev H. binv H as h s1 Hh. apply metamethod_plain_ok in Hh as [-> ->]; auto.
  binv H as h s1 Hh. apply metamethod_plain_ok in Hh as [-> ->]; auto.
Qed.

Definition less_prim (strict : bool) (a b : value) : option bool :=
  match a, b with
  | VNum x, VNum y => Some (if strict then fltb x y else fleb x y)
  | VStr x, VStr y => Some (if strict then bytes_ltb x y else bytes_leb x y)
  | _, _ => None
  end.

Lemma less_prim_swap strict strict' a b : less_prim strict a b = None -> less_prim strict' b a = None.
Proof. destruct a, b; try reflexivity; discriminate. Qed.

Section Ops.
Variable d : dialect.

Lemma tostr_plain n v s r s' : strmeta_plain s -> plain s v ->
  tostr d n v s = Ok r s' ->
  s' = s /\ r = VStr match v with
                     | VNil => of_string "nil"
                     | VBool true => of_string "true"
                     | VBool false => of_string "false"
                     | VNum x => tostring_num d x
                     | VStr s => s
                     | VTable _ => of_string "table"
                     | _ => of_string "function"
                     end.
Proof.
  intros Hs Hp H. fuel_S n H. rewrite tostr_S in H. binv H as h s1 Hh.
  apply metamethod_plain_ok in Hh as [-> ->]; [|assumption|assumption|reflexivity].
  rinv H. auto.
Qed.

Lemma arith_plain n o a b s r s' : strmeta_plain s -> plain s a -> plain s b ->
  arith d n o a b s = Ok r s' ->
  s' = s /\ exists x y z, tonum a = Some x /\ tonum b = Some y /\ arith_num d o x y = Some z /\ r = VNum z.
Proof.
  intros Hs Ha Hb H. fuel_S n H. rewrite arith_S in H.
  assert (match arith_name o with
          | None => unsup 21
          | Some ev =>
            h <- metamethod a ev ;;
            h <- (match h with VNil => metamethod b ev | _ => ret h end) ;;
            match h with
            | VNil => fail 14
            | _ => vs <- call d n h [a; b] ;; ret (first vs)
            end
          end s = Ok r s' -> False) as Hno.
  { destruct (arith_name o) as [ev|] eqn:E; [|discriminate].
    intros H'. apply handler2_plain in H'; [discriminate|assumption..|].
    destruct o; inversion E; reflexivity. }
  destruct (tonum a) as [x|]; [|exfalso; auto].
  destruct (tonum b) as [y|]; [|exfalso; auto].
  destruct (arith_num d o x y) as [z|] eqn:E; [|discriminate].
  rinv H. split; auto. exists x, y, z. auto.
Qed.

Lemma concat_plain n a b s r s' : strmeta_plain s -> plain s a -> plain s b ->
  concat d n a b s = Ok r s' ->
  s' = s /\ exists x y, cstr d a = Some x /\ cstr d b = Some y /\ r = VStr (x ++ y).
Proof.
  intros Hs Ha Hb H. fuel_S n H. rewrite concat_S in H.
  assert ((h <- metamethod a "__concat" ;;
           h <- (match h with VNil => metamethod b "__concat" | _ => ret h end) ;;
           match h with
           | VNil => fail 15
           | _ => vs <- call d n h [a; b] ;; ret (first vs)
           end) s = Ok r s' -> False) as Hno.
  { intros H'. apply handler2_plain in H'; [discriminate|assumption..|reflexivity]. }
  destruct (cstr d a) as [x|]; [|exfalso; auto].
  destruct (cstr d b) as [y|]; [|exfalso; auto].
  rinv H. split; auto. exists x, y. auto.
Qed.

Lemma equal_plain n a b s r s' : plain s a -> plain s b ->
  equal d n a b s = Ok r s' -> s' = s /\ r = raw_equal a b.
Proof.
  intros Ha Hb H. fuel_S n H. rewrite equal_S in H.
  destruct (raw_equal a b) eqn:E.
  { rinv H. auto. }
  destruct a; try (rinv H; auto; fail).
  destruct b; try (rinv H; auto; fail).
  binv H as h1 s1 Hh1. apply metamethod_plain_tab_ok in Hh1 as [-> ->]; [|exact Ha].
  binv H as h2 s1 Hh2. apply metamethod_plain_tab_ok in Hh2 as [-> ->]; [|exact Hb].
  destruct d; rinv H; auto.
Qed.

(** [less] is stated in [Lua/Sem.v] by a match on both operands; folding the two primitive
    cases into [less_prim] leaves one metamethod case instead of the twenty of the compiled match *)
Lemma less_S_prim n strict a b :
  less d (S n) strict a b =
  match less_prim strict a b with
  | Some r => ret r
  | None =>
    let ev := if strict then "__lt"%string else "__le"%string in
    h1 <- metamethod a ev ;;
    h2 <- metamethod b ev ;;
    match h1 with
    | VNil =>
      if strict then fail 16
      else r <- less d n true b a ;; ret (negb r)
    | _ =>
      if raw_equal h1 h2 then vs <- call d n h1 [a; b] ;; ret (truthy (first vs))
      else if strict then fail 16 else r <- less d n true b a ;; ret (negb r)
    end
  end.
Proof. rewrite less_S. destruct a, b; reflexivity. Qed.

Lemma less_strict_plain n a b s r s' : strmeta_plain s -> plain s a ->
  less d n true a b s = Ok r s' -> s' = s /\ less_prim true a b = Some r.
Proof.
  intros Hs Ha H. fuel_S n H. rewrite less_S_prim in H.
  destruct (less_prim true a b) as [c|].
  - rinv H. auto.
  - exfalso. cbv zeta in H. binv H as h1 s1 Hh1.
    apply metamethod_plain_ok in Hh1 as [-> ->]; [|assumption|assumption|reflexivity].
    binv H as h2 s1 Hh2. discriminate H.
Qed.

Lemma less_plain n strict a b s r s' : strmeta_plain s -> plain s a -> plain s b ->
  less d n strict a b s = Ok r s' -> s' = s /\ less_prim strict a b = Some r.
Proof.
  intros Hs Ha Hb H. destruct strict; [now apply (less_strict_plain n)|].
  fuel_S n H. rewrite less_S_prim in H.
  destruct (less_prim false a b) as [c|] eqn:E.
  - rinv H. auto.
  - (* [a <= b] falls back on [not (b < a)], which has no primitive answer either *)
    exfalso. cbv zeta in H. binv H as h1 s1 Hh1.
    apply metamethod_plain_ok in Hh1 as [-> ->]; [|assumption|assumption|reflexivity].
    binv H as h2 s1 Hh2.
    apply metamethod_plain_ok in Hh2 as [-> ->]; [|assumption|assumption|reflexivity].
    binv H as c s1 Hc. apply less_strict_plain in Hc as [_ Hc]; auto.
    rewrite (less_prim_swap _ true _ _ E) in Hc. discriminate.
Qed.

Lemma length_plain n v s r s' : strmeta_plain s -> plain s v ->
  length d n v s = Ok r s' ->
  s' = s /\ ((exists x, v = VStr x /\ r = VNum (of_Z (Z.of_nat (List.length x)))) \/
             (exists a, v = VTable a)).
Proof.
  intros Hs Hp H. fuel_S n H. rewrite length_S in H.
  destruct v;
    try (exfalso; binv H as h s1 Hh;
         apply metamethod_plain_ok in Hh as [-> ->]; [|assumption|assumption|reflexivity];
         discriminate).
  - rinv H. split; eauto.
  - binv H as h s1 Hh.
    assert (h = VNil /\ s1 = s) as [-> ->].
    { destruct (is_luau d); [now apply metamethod_plain_tab_ok in Hh|now rinv Hh]. }
    binv H as t s1 Ht. apply get_table_ok in Ht as [-> _]. rinv H. split; eauto.
Qed.

Lemma index_plain_tab n a k s t v s' :
  nth_N (tables s) (N.to_nat a) = Some t -> t_meta t = None -> index d n (VTable a) k s = Ok v s' ->
  s' = s /\ v = raw_get (t_entries t) (match norm_key k with Some k' => k' | None => k end).
Proof.
  intros Ht Hm H. fuel_S n H. rewrite index_S_table in H.
  binv H as t0 s1 Ht0. apply get_table_ok in Ht0 as [-> Ht0].
  rewrite Ht in Ht0. injection Ht0 as <-.
  destruct (raw_get _ _); try (rinv H; auto; fail).
  binv H as h s1 Hh. apply metamethod_plain_tab_ok in Hh as [-> ->]; [|exists t; auto]. rinv H. auto.
Qed.

Lemma index_plain_store n a k s v s' : plain_tab s a -> index d n (VTable a) k s = Ok v s' -> s' = s.
Proof. intros (t & Ht & Hm) H. exact (proj1 (index_plain_tab n a k s t v s' Ht Hm H)). Qed.

End Ops.
