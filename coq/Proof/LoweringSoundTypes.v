(** C06, remove_types at block level: dropping the type declarations of a block
    ([process_block]) does not change what the block does. *)
From Coq Require Import ZArith NArith List Bool String Lia.
From DL Require Import Lib.Bytes Lib.F64 Lua.Syntax Lua.Sem Proof.SemFacts Proof.DefaultRulesSem
  Proof.DefaultRulesSoundBlock Proof.DefaultRulesSoundFuel Proof.LoweringSoundBasic Model.Visit Model.Lowering.
Import ListNotations.
Open Scope N_scope.

Lemma type_stmt_noop d n rho va st s r s' : is_type_stmt st = true ->
  exec_stmt d n rho va st s = Ok r s' -> r = (rho, SigNone) /\ s' = s.
Proof.
  intros T H. fuel_S n H. destruct st; try discriminate T.
  - rewrite types_decl_sound in H. inversion H; auto.
  - rewrite types_function_sound in H. inversion H; auto.
Qed.

(** with the same fuel, type declarations being statements that do nothing ([filter_noop_sound]) *)
Theorem types_stmts_sound : forall d ss n rho va last s r s',
  exec_stmts d n rho va ss last s = Ok r s' ->
  exec_stmts d n rho va (filter (fun st => negb (is_type_stmt st)) ss) last s = Ok r s'.
Proof.
  intros d. apply filter_noop_sound. intros st n rho va s r s' T. apply type_stmt_noop.
  now apply negb_false_iff.
Qed.

Theorem types_block_sound : forall d n rho va b s r s',
  exec_block d n rho va b s = Ok r s' ->
  exists n', exec_block d n' rho va (rw_types_block b) s = Ok r s'.
Proof.
  intros d n rho va [ss last] s r s' H. exists n. fuel_S n H.
  cbn [rw_types_block]. rewrite exec_block_S in H. rewrite exec_block_S. now apply types_stmts_sound.
Qed.

Example types_block_example :
  let b := Block [STypeDecl false [84] None (TyNode 0 [] []); SLocal false [Param [120] None] [ETrue]]
                 (Some (LReturn [EIdent [120]])) in
  rw_types_block b = Block [SLocal false [Param [120] None] [ETrue]] (Some (LReturn [EIdent [120]])) /\
  exists s', exec_block Luau 8 [] [] b (initial_store []) = Ok (SigReturn [VBool true]) s' /\
             exec_block Luau 8 [] [] (rw_types_block b) (initial_store []) = Ok (SigReturn [VBool true]) s'.
Proof. split; [reflexivity|]. vm_compute. eexists. split; reflexivity. Qed.
