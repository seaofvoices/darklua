(** Calling a closure and running a function statement.  [call] on a closure uses four things
    of the closure record (effective parameters, variadic flag, body, captured environment):
    [call_closure] is the call in terms of these, and [call_S_closure] the equation.
    [sfunction_store] is what a function statement does once its closure is allocated, with
    [path_go] the walk along [a.b.c].  (Everything else about a run is in [Proof/SemFacts.v],
    exported from here.) *)
From Coq Require Import ZArith NArith List Bool String Lia.
From DL Require Import Lib.Bytes Lib.F64 Lua.Syntax Lua.Sem.
From DL Require Export Proof.SemFacts.
Import ListNotations.
Open Scope N_scope.

Lemma bind_bind_ret {A B C} (a : A) (f : A -> B) (k : B -> M C) s :
  bind (bind (ret a) (fun x => ret (f x))) k s = k (f a) s.
Proof. reflexivity. Qed.

Section Unfold.
Variable d : dialect.

Lemma exec_block_0 rho va b s : exec_block d 0 rho va b s = Fuel.
Proof. exact (SemFacts.exec_block_0 d rho va b s). Qed.
Lemma exec_stmts_0 rho va ss last s : exec_stmts d 0 rho va ss last s = Fuel.
Proof. exact (SemFacts.exec_stmts_0 d rho va ss last s). Qed.
Lemma exec_stmt_0 rho va st s : exec_stmt d 0 rho va st s = Fuel.
Proof. exact (SemFacts.exec_stmt_0 d rho va st s). Qed.
Lemma eval_list_0 rho va es s : eval_list d 0 rho va es s = Fuel.
Proof. exact (SemFacts.eval_list_0 d rho va es s). Qed.
Lemma eval_args_0 rho va a s : eval_args d 0 rho va a s = Fuel.
Proof. exact (SemFacts.eval_args_0 d rho va a s). Qed.
Lemma exec_while_0 rho va c b s : exec_while d 0 rho va c b s = Fuel.
Proof. exact (SemFacts.exec_while_0 d rho va c b s). Qed.

Definition path_go (n : nat) :=
  fix go (o : value) (ks : list name) : M value :=
    match ks with
    | [] | [_] => ret o
    | k :: rest => o' <- index d n o (VStr k) ;; go o' rest
    end.

Lemma path_go_short n o ks : (List.length ks <= 1)%nat -> path_go n o ks = ret o.
Proof. destruct ks as [|k [|k2 ks]]; cbn [List.length]; intros H; try reflexivity. lia. Qed.
Lemma path_go_cons n o k k2 ks :
  path_go n o (k :: k2 :: ks) = (o' <- index d n o (VStr k) ;; path_go n o' (k2 :: ks)).
Proof. reflexivity. Qed.

Definition sfunction_store (n : nat) (rho : env) (va : list value) (base : name) (path : list name)
           (c : N) : M (env * signal) :=
  match path with
  | [] =>
    t <- eval_target d n rho va (EIdent base) ;;
    _ <- assign_target d n rho t (VClosure c) ;; ret (rho, SigNone)
  | _ =>
    o <- eval1 d n rho va (EIdent base) ;;
    o <- path_go n o path ;;
    _ <- setindex d n o (VStr (last path [])) (VClosure c) ;;
    ret (rho, SigNone)
  end.

Lemma exec_stmt_S_function n rho va base fields method f :
  exec_stmt d (S n) rho va (SFunction base fields method f) =
  (c <- new_closure (mkClosure f rho (match method with Some _ => true | None => false end)) ;;
   sfunction_store n rho va base (fields ++ (match method with Some m => [m] | None => [] end)) c).
Proof. exact (exec_stmt_unf d n rho va (SFunction base fields method f)). Qed.

Definition effective_params (c : closure) : list param :=
  match c_body c with
  | FBody ps _ _ _ _ _ _ => if c_self c then Param (of_string "self") None :: ps else ps
  end.
Definition closure_variadic (c : closure) : bool :=
  match c_body c with FBody _ v _ _ _ _ _ => v end.
Definition closure_block (c : closure) : block :=
  match c_body c with FBody _ _ _ _ _ _ b => b end.

Definition call_closure (n : nat) (ps : list param) (variadic : bool) (body : block) (cenv : env)
           (args : list value) : M (list value) :=
  rho <- bind_params ps args ;;
  let va := if variadic then skipn (List.length ps) args else [] in
  sg <- exec_block d n (rev rho ++ cenv) va body ;;
  match sg with
  | SigReturn vs => ret vs
  | _ => ret []
  end.

Lemma call_S_closure n a args s :
  call d (S n) (VClosure a) args s =
  (c <- get_closure a ;;
   call_closure n (effective_params c) (closure_variadic c) (closure_block c) (c_env c) args) s.
Proof.
  rewrite call_unf. apply bind_eq. intros c s1 _.
  unfold call_closure, effective_params, closure_variadic, closure_block.
  destruct (c_body c). reflexivity.
Qed.

End Unfold.
