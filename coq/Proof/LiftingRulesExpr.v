(** C01, LIFTING - instantiations for the expression-level rules:
    remove_function_call_parens (unconditional) and convert_index_to_field restricted to
    string-LITERAL keys ([..._literal]; the general rule evaluates its key statically and the
    node theorem [index_to_field_sound] needs the store invariant [env_plain] and loses the
    key's fresh allocations, neither of which holds for arbitrary programs: PARTIAL). *)
From Coq Require Import ZArith NArith List Bool String Lia.
From DL Require Import Lib.Bytes Lib.F64 Lua.Syntax Lua.Sem Model.Evaluator Model.DefaultRules.
From DL Require Model.Serializer.
From DL Require Import Proof.LoweringFuel.
From DL Require Import Proof.ListFacts Proof.SemFacts Proof.DefaultRulesSem Proof.RefactorSem.
From DL Require Import Proof.DefaultRulesSoundExpr.
From DL Require Import Proof.LiftingDefs Proof.LiftingSim Proof.LiftingVisit Proof.LiftingConst.
Import ListNotations.
Open Scope N_scope.

Section CallParens.
Variable d : dialect.

Lemma args_string_refines n rho va str :
  refines (eval_args d n rho va (ATuple [EString str])) (eval_args d n rho va (AString str)).
Proof. intros s Hf. eapply call_parens_string_args; [reflexivity|exact Hf]. Qed.

Lemma args_table_refines n rho va ens :
  refines (eval_args d n rho va (ATuple [ETable ens])) (eval_args d n rho va (ATable ens)).
Proof.
  destruct n as [|[|[|n]]]; try (intros s Hf; exfalso; apply Hf; reflexivity).
  intros s Hf. rewrite call_parens_table_args in *.
  apply (eval_args_refines_le d (S n) (S (S (S n)))); [lia|exact Hf].
Qed.

Lemma call_args_refines n rho va p m a a' :
  (forall k, refines (eval_args d k rho va a) (eval_args d k rho va a')) ->
  refines (eval d n rho va (ECall p m a)) (eval d n rho va (ECall p m a')).
Proof.
  intros Ha. destruct n as [|n]; [apply refines_out, eval_0|]. rewrite !eval_S_call.
  apply refines_bind_l. intros o. destruct m as [mname|].
  - apply refines_bind_l. intros f. apply refines_bind; [apply Ha|intros; apply refines_refl].
  - apply refines_bind; [apply Ha|intros; apply refines_refl].
Qed.

Lemma call_parens_refines e : ref_expr d e (rw_call_parens e).
Proof.
  destruct e; try apply ref_expr_refl. destruct a as [es| |]; try apply ref_expr_refl.
  destruct es as [|x es]; try apply ref_expr_refl.
  destruct x; destruct es; try apply ref_expr_refl; cbn [rw_call_parens]; intros n rho va;
    apply call_args_refines; intros k.
  - apply args_string_refines.
  - apply args_table_refines.
Qed.

Theorem lifting_remove_function_call_parens : forall n orc b out,
  run_chunk d n orc b = out -> out <> OutFuel ->
  run_chunk d n orc (rule_remove_function_call_parens b) = out.
Proof.
  apply (lifting_refining_hooks d hooks_call_parens).
  - exact (ref_expr_refl d).
  - exact (ref_expr_refl d).
  - exact (ref_var_refl d).
  - exact call_parens_refines.
  - exact (ref_entries_refl d).
  - exact (ref_stmt_refl d).
  - exact (ref_block_refl d).
Qed.

End CallParens.

Definition rw_index_to_field_lit (e : expr) : expr :=
  match e with
  | EIndex p (EString s) => if Serializer.is_valid_identifier s then EField p s else e
  | _ => e
  end.
Definition rw_index_entry_lit (en : tentry) : tentry :=
  match en with
  | TIndex (EString s) v => if Serializer.is_valid_identifier s then TField s v else en
  | _ => en
  end.
Definition hooks_index_to_field_lit : hooks :=
  mkHooks (fun b => b) (fun s => s) rw_index_to_field_lit rw_index_to_field_lit rw_index_to_field_lit
          (fun e => e) (map rw_index_entry_lit).
Definition rule_convert_index_to_field_literal : block -> block := apply_hooks hooks_index_to_field_lit.

Lemma rw_index_to_field_lit_agrees p s :
  rw_index_to_field (EIndex p (EString s)) = rw_index_to_field_lit (EIndex p (EString s)).
Proof.
  cbn [rw_index_to_field rw_index_to_field_lit]. unfold convert_to_field, hse. cbn [has_side_effects evaluate].
  destruct (Serializer.is_valid_identifier s); reflexivity.
Qed.
Lemma rw_index_entry_lit_agrees s v :
  rw_index_entry (TIndex (EString s) v) = rw_index_entry_lit (TIndex (EString s) v).
Proof.
  cbn [rw_index_entry rw_index_entry_lit]. unfold convert_to_field, hse. cbn [has_side_effects evaluate].
  destruct (Serializer.is_valid_identifier s); reflexivity.
Qed.

Section IndexToField.
Variable d : dialect.

Definition key_is (k : expr) (f : name) : Prop :=
  forall n rho va, refines (eval1 d n rho va k) (ret (VStr f)).

Inductive index_ref : expr -> expr -> Prop :=
| ir_same e : index_ref e e
| ir_field p k f : key_is k f -> index_ref (EIndex p k) (EField p f).

Lemma index_ref_expr e e1 : index_ref e e1 -> ref_expr d e e1.
Proof.
  intros [e0|p k f Hk]; [apply ref_expr_refl|].
  intros [|n] rho va; [apply refines_out, eval_0|]. rewrite eval_S_index, eval_S_field.
  apply refines_bind_l. intros o. eapply refines_bind_const; [apply Hk|apply refines_refl].
Qed.

Lemma index_ref_var e e1 : index_ref e e1 -> ref_var d e e1.
Proof.
  intros [e0|p k f Hk]; [apply ref_var_refl|].
  intros [|n] rho va; [apply refines_out, eval_target_0|]. rewrite eval_target_S_index, eval_target_S_field.
  apply refines_bind_l. intros o. eapply refines_bind_const; [apply Hk|apply refines_refl].
Qed.

Inductive entry_ref : tentry -> tentry -> Prop :=
| er_same en : entry_ref en en
| er_field k v f : key_is k f -> entry_ref (TIndex k v) (TField f v).

Lemma entries_refines ens ens1 : Forall2 entry_ref ens ens1 -> ref_entries d ens ens1.
Proof.
  induction 1 as [|en en1 rest rest1 He Hr IHr]; intros n rho va a pos; [apply refines_refl|].
  destruct n as [|n]; [apply refines_out, fill_table_0|].
  destruct He as [[f v|k v|v] | k v f Hk].
  - rewrite !fill_table_S_field. apply refines_bind_l. intros x. apply refines_bind_l. intros u. apply IHr.
  - rewrite !fill_table_S_index. apply refines_bind_l. intros kv. apply refines_bind_l. intros x.
    apply refines_bind_l. intros u. apply IHr.
  - (* a positional entry is run according to whether it is the last one; the lists have the
       same length *)
    destruct Hr as [|x x1 rest rest1 Hx Hr]; [apply refines_refl|].
    rewrite !fill_table_S_value. apply refines_bind_l. intros y. apply refines_bind_l. intros u. apply IHr.
  - rewrite fill_table_S_index, fill_table_S_field. eapply refines_bind_const; [apply Hk|].
    apply refines_bind_l. intros x. apply refines_bind_l. intros u. apply IHr.
Qed.

Lemma key_literal s : key_is (EString s) s.
Proof. intros n rho va. now apply cval_sound1. Qed.

Lemma index_lit_ref e : index_ref e (rw_index_to_field_lit e).
Proof.
  destruct e; try apply ir_same. destruct e2; try apply ir_same.
  cbn [rw_index_to_field_lit]. destruct (Serializer.is_valid_identifier s); [|apply ir_same].
  apply ir_field, key_literal.
Qed.

Lemma entries_lit_refines ens : ref_entries d ens (map rw_index_entry_lit ens).
Proof.
  apply entries_refines, Forall2_map_r. intros [f v|k v|v]; try apply er_same.
  destruct k; try apply er_same. cbn [rw_index_entry_lit].
  destruct (Serializer.is_valid_identifier s); [|apply er_same]. apply er_field, key_literal.
Qed.

Theorem lifting_convert_index_to_field_literal : forall n orc b out,
  run_chunk d n orc b = out -> out <> OutFuel ->
  run_chunk d n orc (rule_convert_index_to_field_literal b) = out.
Proof.
  apply (lifting_refining_hooks d hooks_index_to_field_lit).
  - intros e. apply index_ref_expr, index_lit_ref.
  - intros e. apply index_ref_expr, index_lit_ref.
  - intros e. apply index_ref_var, index_lit_ref.
  - exact (ref_expr_refl d).
  - exact entries_lit_refines.
  - exact (ref_stmt_refl d).
  - exact (ref_block_refl d).
Qed.

(** the rule itself, on programs in which it only ever fires on string-literal keys *)
Theorem lifting_convert_index_to_field_partial : forall n orc b out,
  rule_convert_index_to_field b = rule_convert_index_to_field_literal b ->
  run_chunk d n orc b = out -> out <> OutFuel ->
  run_chunk d n orc (rule_convert_index_to_field b) = out.
Proof. intros n orc b out ->. apply lifting_convert_index_to_field_literal. Qed.

End IndexToField.
