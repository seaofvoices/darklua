(** Declarations: the [nil] values a generator appends to a [const] value list do not change what
    any variable receives. *)
From DL Require Import Lib.Bytes Model.C02Spec.
Require Import Lia.
Open Scope N_scope.

Lemma receives_nils k i : receives (repeat nilv k) i = RNil.
Proof.
  revert i. induction k as [|k IH]; intros i; [reflexivity|].
  cbn [repeat receives]. destruct (repeat nilv k) as [|w rest] eqn:E.
  - cbn. destruct i; reflexivity.
  - destruct i; [reflexivity|]. apply IH.
Qed.

Lemma receives_app_nils : forall vals k i,
  match last_dval vals with Some v => d_multi v = false | None => True end ->
  receives (vals ++ repeat nilv k) i = receives vals i.
Proof.
  induction vals as [|v rest IH]; intros k i H.
  - apply receives_nils.
  - destruct rest as [|w rest'].
    + (* [v] is the last value: single-valued, so it feeds the first variable only *)
      cbn [last_dval] in H. destruct k as [|k]; [reflexivity|].
      cbn [app repeat receives]. rewrite H.
      destruct i as [|i']; [reflexivity|]. exact (receives_nils (S k) i').
    + destruct i as [|i']; [reflexivity|]. exact (IH k i' H).
Qed.

(** CONST PADDING IS NEUTRAL: when darklua's "the last value provides the rest" decision agrees
    with the semantics on the last value, every variable (any index) receives from the written
    value list exactly what it receives from the tree's value list. *)
Theorem const_padding_neutral : forall (skip : dval -> bool) n vals,
  (forall v, last_dval vals = Some v -> skip v = d_multi v) ->
  forall i, receives (written_values skip n vals) i = receives vals i.
Proof.
  intros skip n vals Hs i. unfold written_values.
  destruct (Nat.leb n (List.length vals)); [reflexivity|]. cbn [orb].
  destruct (last_dval vals) as [v|] eqn:E.
  - rewrite (Hs v eq_refl). destruct (d_multi v) eqn:Em; [reflexivity|].
    apply receives_app_nils. rewrite E. exact Em.
  - apply receives_app_nils. rewrite E. exact I.
Qed.

(** and when it does not agree the padding is NOT neutral: a decision that forgets that [...] is
    multi-valued writes [const a, b = ...] as [const a, b = ..., nil] and [b] becomes nil *)
Theorem const_padding_refuted_for_wrong_decision :
  exists skip n vals i, receives (written_values skip n vals) i <> receives vals i.
Proof.
  exists (fun _ => false), 2%nat, [{| d_id := 1; d_multi := true; d_nil := false |}], 1%nat.
  vm_compute. discriminate.
Qed.
