(** Names of the module accessors (generate_module_name): every name handed out is a valid
    identifier that is not a keyword and not `cache`, and names are pairwise distinct - for
    every number of modules.  The indexed function [module_name] used by the correspondence
    check is the k-th generated name as long as the generator neither runs dry nor reaches
    `cache`; one run of the generator shows that this is so for the first 1000 modules (the
    wide projects of vlib/c05.py bundle up to 965). *)
From Coq Require Import NArith List Bool Lia.
From DL Require Import Lib.Bytes Model.Rename Model.Bundle Proof.RenameStream Proof.BundleBasics Proof.BundleTheorems.
Import ListNotations.
Open Scope N_scope.

Theorem module_names_valid : forall n, Forall (fun x => valid_ident x = true) (module_names n).
Proof.
  intros n. apply Forall_forall. intros x H. unfold module_names in H.
  apply firstn_In in H. apply filter_In in H as [H _].
  exact (proj1 (Forall_forall _ _) (gen_stream_valid (S n)) x H).
Qed.

Theorem module_names_identifier : forall n x, In x (module_names n) ->
  ident_shape x = true /\ ~ In x keywords /\ x <> of_string "cache".
Proof.
  intros n x H.
  pose proof (proj1 (Forall_forall _ _) (module_names_valid n) x H) as V.
  split; [|split].
  - unfold valid_ident in V. apply andb_true_iff in V. tauto.
  - now apply valid_not_keyword.
  - intros E. subst x. exact (module_names_not_cache n H).
Qed.

Theorem module_names_distinct : forall n i j,
  (i < List.length (module_names n))%nat -> (j < List.length (module_names n))%nat ->
  nth i (module_names n) [] = nth j (module_names n) [] -> i = j.
Proof.
  intros n i j Hi Hj E. exact (proj1 (NoDup_nth (module_names n) []) (module_names_nodup n) i j Hi Hj E).
Qed.

Definition names_bound : nat := 1000.

Lemma filter_all {A} (f : A -> bool) l : forallb f l = true -> filter f l = l.
Proof.
  induction l as [|x l IH]; cbn; [reflexivity|]. intros H. apply andb_true_iff in H as [Hx Hl].
  rewrite Hx, IH by exact Hl. reflexivity.
Qed.

Lemma forallb_firstn {A} (f : A -> bool) n l : forallb f l = true -> forallb f (firstn n l) = true.
Proof.
  rewrite !forallb_forall. intros H x Hx. apply H. exact (firstn_In _ _ _ Hx).
Qed.

Lemma nth_firstn_lt {A} (d : A) : forall l k n, (k < n)%nat -> nth k (firstn n l) d = nth k l d.
Proof.
  induction l as [|x l IH]; intros k n H; [now rewrite firstn_nil|].
  destruct n; [lia|]. destruct k; [reflexivity|]. cbn. apply IH. lia.
Qed.

(** While the generator neither runs dry nor reaches `cache` within [S b] names, the module
    names are the generated names themselves, so [module_name k] is the k-th of them. *)
Section Bound.
Variable b : nat.
Hypothesis full : List.length (gen_stream (S b)) = S b.
Hypothesis no_cache : forallb not_cache (gen_stream (S b)) = true.

Lemma module_names_stream n : (n <= b)%nat -> module_names n = firstn n (gen_stream (S b)).
Proof.
  intros H. unfold module_names, gen_stream.
  replace (S b) with (S n + (b - n))%nat by lia. rewrite (gen_stream_from_prefix (S n) (b - n)).
  rewrite filter_all by (apply forallb_firstn; replace (S n + (b - n))%nat with (S b) by lia; exact no_cache).
  rewrite firstn_firstn. f_equal. lia.
Qed.

Lemma module_names_full : List.length (module_names b) = b.
Proof. rewrite module_names_stream, firstn_length, full by lia. lia. Qed.

Lemma module_name_nth k : (k < b)%nat -> module_name k = nth k (module_names b) [].
Proof.
  intros H. unfold module_name.
  rewrite (module_names_stream (S k)) by lia. rewrite (module_names_stream b) by lia.
  rewrite !nth_firstn_lt by lia. reflexivity.
Qed.
End Bound.

(** the two hypotheses at [names_bound]: one run of the generator over 1001 names *)
Lemma stream_bound_computed :
  List.length (gen_stream (S names_bound)) = S names_bound /\
  forallb not_cache (gen_stream (S names_bound)) = true.
Proof. vm_compute. split; reflexivity. Qed.

Lemma module_name_bounded k : (k < names_bound)%nat -> In (module_name k) (module_names names_bound).
Proof.
  intros H. destruct stream_bound_computed as [F C].
  rewrite (module_name_nth names_bound F C k H). apply nth_In.
  rewrite (module_names_full names_bound F C). exact H.
Qed.

Theorem module_name_valid_bounded : forall k, (k < names_bound)%nat ->
  ident_shape (module_name k) = true /\ ~ In (module_name k) keywords /\ module_name k <> of_string "cache".
Proof. intros k Hk. exact (module_names_identifier names_bound _ (module_name_bounded k Hk)). Qed.

Theorem module_name_inj_bounded : forall i j, (i < names_bound)%nat -> (j < names_bound)%nat ->
  module_name i = module_name j -> i = j.
Proof.
  intros i j Hi Hj E. destruct stream_bound_computed as [F C].
  rewrite !(module_name_nth names_bound F C) in E by assumption.
  apply (module_names_distinct names_bound); rewrite ?(module_names_full names_bound F C); assumption.
Qed.

(** non-vacuity: the 54th name is the first two-letter one ("aa": `0`..`9` are skipped), and the
    names around the keywords `do`, `if`, `in`, `or` *)
Example module_name_53 : to_string (module_name 53) = "aa"%string.
Proof. vm_compute. reflexivity. Qed.
Example module_name_skips_do : map (fun k => to_string (module_name k)) [255; 256]%nat = ["dn"; "dp"]%string.
Proof. vm_compute. reflexivity. Qed.
Example module_name_skips_or : map (fun k => to_string (module_name k)) [948; 949]%nat = ["oq"; "os"]%string.
Proof. vm_compute. reflexivity. Qed.
