(** Basic facts about Model/Paths.v: equality tests, accessors on [q ++ [c]],
    [from_iter]/[extend]/[join] on well-shaped lists, and the behaviour of [normalize]
    on the shapes that occur in require resolution (leading "..", names, names undone by
    as many "..", a leading "."). *)
From DL Require Import Lib.Bytes Model.Paths.
Require Import Lia PeanoNat.
From DL Require Import Proof.ListFacts.
Open Scope N_scope.

Lemma comp_eqb_eq a b : comp_eqb a b = true <-> a = b.
Proof.
  destruct a, b; cbn [comp_eqb]; split; intros H; try reflexivity; try discriminate.
  - apply bytes_eqb_eq in H. congruence.
  - inversion H; subst. apply bytes_eqb_refl.
Qed.

Lemma comp_eqb_refl a : comp_eqb a a = true.
Proof. apply comp_eqb_eq. reflexivity. Qed.

Lemma path_eqb_eq a b : path_eqb a b = true <-> a = b.
Proof.
  revert b; induction a as [|x a IH]; intros [|y b]; cbn [path_eqb]; split; intros H;
    try reflexivity; try discriminate.
  - apply andb_true_iff in H as [H1 H2]. apply comp_eqb_eq in H1. apply IH in H2. congruence.
  - inversion H; subst. rewrite comp_eqb_refl. apply IH. reflexivity.
Qed.

Lemma path_eqb_refl a : path_eqb a a = true.
Proof. apply path_eqb_eq. reflexivity. Qed.

Lemma app_nonempty_r {A} (a b : list A) : b <> [] -> a ++ b <> [].
Proof. intros H E. apply app_eq_nil in E as [_ E]. congruence. Qed.

Definition is_norm (c : comp) : bool := match c with Norm _ => true | _ => false end.
(** only names: a path below the working directory, already normalised *)
Definition simple (p : path) : bool := forallb is_norm p.
Definition plain_comp (c : comp) : bool := match c with Root | Cur => false | _ => true end.
Definition plain (p : path) : bool := forallb plain_comp p.

Lemma simple_plain p : simple p = true -> plain p = true.
Proof.
  unfold simple, plain. induction p as [|c p IH]; cbn [forallb]; intros H; [reflexivity|].
  apply andb_true_iff in H as [H1 H2]. rewrite IH by assumption. destruct c; try discriminate; reflexivity.
Qed.

Lemma simple_app a b : simple (a ++ b) = simple a && simple b.
Proof. unfold simple. apply forallb_app. Qed.

Lemma plain_app a b : plain (a ++ b) = plain a && plain b.
Proof. unfold plain. apply forallb_app. Qed.

Lemma plain_pars k s : plain s = true -> plain (repeat Par k ++ s) = true.
Proof. intros H. induction k; [exact H|exact IHk]. Qed.

Lemma simple_rev s : simple (rev s) = simple s.
Proof. apply forallb_rev. Qed.

Lemma simple_no_root p : simple p = true -> has_root p = false.
Proof. destruct p as [|[] p]; cbn; intros; try reflexivity; discriminate. Qed.

Lemma simple_not_relative p : simple p = true -> is_require_relative p = false.
Proof. destruct p as [|[] p]; cbn; intros; try reflexivity; discriminate. Qed.

Lemma simple_snoc_inv (t : path) :
  simple t = true -> t <> [] -> exists y n, t = y ++ [Norm n] /\ simple y = true.
Proof.
  intros H Hne. destruct (exists_last Hne) as (y & c & ->).
  rewrite simple_app in H. apply andb_true_iff in H as [Hy Hc].
  destruct c; try discriminate. eauto.
Qed.

Lemma last_comp_snoc q c : last_comp (q ++ [c]) = Some c.
Proof. unfold last_comp. rewrite rev_app_distr. reflexivity. Qed.

Lemma file_name_snoc q n : file_name (q ++ [Norm n]) = Some n.
Proof. unfold file_name. rewrite last_comp_snoc. reflexivity. Qed.

Lemma file_name_snoc_par q : file_name (q ++ [Par]) = None.
Proof. unfold file_name. rewrite last_comp_snoc. reflexivity. Qed.

Lemma parent_snoc q c : c <> Root -> parent (q ++ [c]) = Some q.
Proof.
  intros H. unfold parent. rewrite rev_app_distr. cbn [rev app].
  destruct c; try congruence; rewrite rev_involutive; reflexivity.
Qed.

Lemma pop_snoc q c : c <> Root -> pop (q ++ [c]) = q.
Proof. intros H. unfold pop. rewrite parent_snoc by assumption. reflexivity. Qed.

Lemma extension_snoc q n : extension (q ++ [Norm n]) = name_ext n.
Proof. unfold extension. rewrite file_name_snoc. reflexivity. Qed.

Lemma file_stem_snoc q n : file_stem (q ++ [Norm n]) = name_stem n.
Proof. unfold file_stem. rewrite file_name_snoc. reflexivity. Qed.

Lemma set_extension_snoc q n e stem :
  name_stem n = Some stem ->
  set_extension (q ++ [Norm n]) e = q ++ [Norm (stem ++ match e with [] => [] | _ => dot :: e end)].
Proof.
  intros H. unfold set_extension. rewrite file_name_snoc, H, removelast_last. reflexivity.
Qed.

Lemma file_name_app x y c : file_name (x ++ y ++ [c]) = file_name (y ++ [c]).
Proof. unfold file_name. rewrite app_assoc, !last_comp_snoc. reflexivity. Qed.

(** the directory a relative require starts from: the directory [d] of the requiring file,
    spelled "." when the file is directly in the working directory *)
Definition or_cur (d : path) : path := match d with [] => [Cur] | _ => d end.

Lemma or_cur_nonempty d : d <> [] -> or_cur d = d.
Proof. destruct d; [congruence|reflexivity]. Qed.

Lemma or_cur_idem d : or_cur (or_cur d) = or_cur d.
Proof. destruct d; reflexivity. Qed.

Lemma get_relative_parent_path_snoc d c : c <> Root -> get_relative_parent_path (d ++ [c]) = or_cur d.
Proof. intros H. unfold get_relative_parent_path. rewrite parent_snoc by exact H. destruct d; reflexivity. Qed.

Lemma extend_plain p l : plain l = true -> extend p l = p ++ l.
Proof.
  unfold extend. revert p. induction l as [|c l IH]; intros p H; cbn [fold_left].
  - rewrite app_nil_r. reflexivity.
  - cbn [plain forallb] in H. apply andb_true_iff in H as [Hc Hl].
    rewrite IH by assumption. destruct c; try discriminate; cbn [push_comp]; rewrite <- app_assoc; reflexivity.
Qed.

Lemma from_iter_plain l : plain l = true -> from_iter l = l.
Proof. apply (extend_plain []). Qed.

Lemma from_iter_cur_plain l : plain l = true -> from_iter (Cur :: l) = Cur :: l.
Proof. apply (extend_plain [Cur]). Qed.

Lemma from_iter_norm_plain n l : plain l = true -> from_iter (Norm n :: l) = Norm n :: l.
Proof. apply (extend_plain [Norm n]). Qed.

Lemma join_plain a b : plain b = true -> join a b = a ++ b.
Proof.
  intros H. unfold join. destruct b as [|c b]; [destruct a; reflexivity|].
  cbn [plain forallb] in H. apply andb_true_iff in H as [Hc _].
  destruct c; try discriminate; cbn [has_root]; destruct a; reflexivity.
Qed.

Lemma join_cur a b : join a (Cur :: b) = or_cur a ++ b.
Proof. destruct a; reflexivity. Qed.

Definition nfold (k : bool) (l : list comp) (racc : list comp) : list comp :=
  fold_left (normalize_step k) l racc.

Lemma nfold_app k a b racc : nfold k (a ++ b) racc = nfold k b (nfold k a racc).
Proof. unfold nfold. apply fold_left_app. Qed.

Lemma nfold_simple k s racc : simple s = true -> nfold k s racc = rev s ++ racc.
Proof.
  unfold nfold. revert racc. induction s as [|c s IH]; intros racc H; cbn [fold_left rev]; [reflexivity|].
  cbn [simple forallb] in H. apply andb_true_iff in H as [Hc Hs].
  destruct c; try discriminate. cbn [normalize_step]. rewrite IH by assumption.
  rewrite <- app_assoc. reflexivity.
Qed.

Lemma nfold_pars_pop k s r : simple s = true -> nfold k (repeat Par (List.length s)) (s ++ r) = r.
Proof.
  unfold nfold. induction s as [|c s IH]; intros H; cbn [List.length repeat fold_left app]; [reflexivity|].
  cbn [simple forallb] in H. apply andb_true_iff in H as [Hc Hs].
  destruct c; try discriminate. cbn [normalize_step]. apply IH. assumption.
Qed.

Lemma nfold_pars_acc k j i : nfold k (repeat Par j) (repeat Par i) = repeat Par (j + i).
Proof.
  unfold nfold. revert i. induction j as [|j IH]; intros i; cbn [repeat fold_left Nat.add]; [reflexivity|].
  replace (normalize_step k (repeat Par i) Par) with (repeat Par (S i)).
  - rewrite IH. rewrite Nat.add_succ_r. reflexivity.
  - destruct i; reflexivity.
Qed.

Lemma rev_repeat {A} (x : A) n : rev (repeat x n) = repeat x n.
Proof.
  induction n; cbn [repeat rev]; [reflexivity|]. rewrite IHn. symmetry. apply repeat_cons.
Qed.

Lemma normalize_finish k p r :
  nfold k p [] = rev r -> r <> [] -> plain r = true -> normalize k p = r.
Proof.
  intros Hf Hr Hpl. unfold normalize. destruct p as [|c p].
  - destruct r as [|c r]; [congruence|]. cbn [nfold fold_left rev] in Hf.
    apply app_cons_not_nil in Hf. destruct Hf.
  - fold (nfold k (c :: p) []). rewrite Hf, rev_involutive.
    destruct r; [congruence|]. apply from_iter_plain. exact Hpl.
Qed.

Lemma normalize_updown k j a d s :
  simple a = true -> simple d = true -> simple s = true -> repeat Par j ++ a ++ s <> [] ->
  normalize k (repeat Par j ++ a ++ d ++ repeat Par (List.length d) ++ s) = repeat Par j ++ a ++ s.
Proof.
  intros Ha Hd Hs Hne. apply normalize_finish.
  - rewrite !nfold_app. pose proof (nfold_pars_acc k j 0) as E. cbn [repeat] in E. rewrite E, Nat.add_0_r.
    rewrite (nfold_simple k a), (nfold_simple k d) by assumption.
    rewrite <- (rev_length d), nfold_pars_pop by (rewrite simple_rev; assumption).
    rewrite nfold_simple by assumption.
    rewrite !rev_app_distr, rev_repeat, app_assoc. reflexivity.
  - exact Hne.
  - apply plain_pars. rewrite plain_app, !simple_plain by assumption. reflexivity.
Qed.

Lemma normalize_simple k s : simple s = true -> normalize k s = s.
Proof.
  intros H. destruct s as [|c s]; [reflexivity|].
  apply (normalize_updown k 0 [] [] (c :: s)); try assumption; try reflexivity. discriminate.
Qed.

Lemma normalize_pars_simple k j s :
  simple s = true -> normalize k (repeat Par (S j) ++ s) = repeat Par (S j) ++ s.
Proof.
  intros H. apply (normalize_updown k (S j) [] [] s); try assumption; try reflexivity. discriminate.
Qed.

Lemma normalize_cancel k a d s :
  simple a = true -> simple d = true -> simple s = true -> a ++ s <> [] ->
  normalize k (a ++ d ++ repeat Par (List.length d) ++ s) = a ++ s.
Proof. apply (normalize_updown k 0). Qed.

Lemma normalize_true_cur_simple s : simple s = true -> normalize true (Cur :: s) = Cur :: s.
Proof.
  intros H. unfold normalize. fold (nfold true (Cur :: s) []).
  change (nfold true (Cur :: s) []) with (nfold true s [Cur]).
  rewrite nfold_simple by assumption. rewrite rev_app_distr, rev_involutive. cbn [rev app].
  apply from_iter_cur_plain. apply simple_plain. assumption.
Qed.

Lemma normalize_false_cur p : p <> [] -> normalize false (Cur :: p) = normalize false p.
Proof. intros H. destruct p; [congruence|]. reflexivity. Qed.
