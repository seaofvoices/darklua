(** C06, local equivalences that need no fuel monotonicity: Luau number literals, [const],
    type annotations on locals, casts and type instantiations.  Each statement is against the
    reference interpreter Lua/Sem.v, for every dialect, fuel, environment, varargs and store.
    First, what the other LoweringSound files share: [eval1] of an and/or node, reading a table
    that has no metatable. *)
From Coq Require Import ZArith NArith List Bool String Lia.
From DL Require Import Lib.Bytes Lib.F64 Lua.Syntax Lua.Sem Model.Evaluator Lua.EvalSpec Lua.EvalSpec2
  Proof.SemFacts Proof.EvaluatorStore Proof.EvaluatorSound Proof.DefaultRulesSem Proof.RefactorSem
  Proof.DefaultRulesSoundBlock Proof.DefaultRulesSoundExpr Model.Visit Model.Lowering.
Import ListNotations.
Open Scope N_scope.
Local Notation llen := List.length.

Lemma eval1_and_S d n rho va l r s :
  eval1 d (S (S n)) rho va (EBinary BAnd l r) s =
  (a <- eval1 d n rho va l ;; if truthy a then eval1 d n rho va r else ret a) s.
Proof.
  rewrite eval1_S, eval_S_and. unfold bind. destruct (eval1 d n rho va l s) as [a s1| | |]; try reflexivity.
  destruct (truthy a); [|reflexivity]. destruct (eval1 d n rho va r s1); reflexivity.
Qed.

Lemma eval1_or_S d n rho va l r s :
  eval1 d (S (S n)) rho va (EBinary BOr l r) s =
  (a <- eval1 d n rho va l ;; if truthy a then ret a else eval1 d n rho va r) s.
Proof.
  rewrite eval1_S, eval_S_or. unfold bind. destruct (eval1 d n rho va l s) as [a s1| | |]; try reflexivity.
  destruct (truthy a); [reflexivity|]. destruct (eval1 d n rho va r s1); reflexivity.
Qed.

Lemma index_plain_table d n a k s t :
  nth_N (tables s) (N.to_nat a) = Some t -> t_meta t = None ->
  index d (S n) (VTable a) k s =
  Ok (raw_get (t_entries t) (match norm_key k with Some k' => k' | None => k end)) s.
Proof.
  intros Ht Hm. destruct (raw_get (t_entries t) _) eqn:Er;
    try (rewrite <- Er; apply index_raw_hit; [exact Ht|rewrite Er; discriminate]).
  apply index_plain_miss with (t := t); assumption.
Qed.

(** convert_luau_number: the value of the literal is unchanged (bit-exact) *)
Theorem luau_number_sound : forall n, number_value (rw_luau_number n) = number_value n.
Proof. destruct n; reflexivity. Qed.

(** ... also as darklua's own evaluator computes it *)
Theorem luau_number_compute_sound : forall n, compute_value (rw_luau_number n) = compute_value n.
Proof. destruct n; reflexivity. Qed.

Theorem luau_number_eval_sound : forall d n rho va x s,
  eval d n rho va (rw_luau_number_expr (ENumber x)) s = eval d n rho va (ENumber x) s.
Proof.
  intros d n rho va x s. cbn [rw_luau_number_expr]. destruct n; [autorewrite with fuel0; reflexivity|].
  rewrite !eval_S_number, luau_number_sound. reflexivity.
Qed.

Example luau_number_example :
  rw_luau_number (NBin 5 true) = NHex 5 false None /\ rw_luau_number (NBin 5 true) <> NBin 5 true /\
  number_value (NBin 5 true) = of_N 5.
Proof. repeat split. discriminate. Qed.

(** make_assignment_local: [const] and [local] declarations execute identically *)
Theorem const_sound : forall d n rho va c vars vals s,
  exec_stmt d n rho va (rw_const (SLocal c vars vals)) s = exec_stmt d n rho va (SLocal c vars vals) s.
Proof. intros. cbn [rw_const]. destruct n; [autorewrite with fuel0; reflexivity|]. rewrite !exec_stmt_S_local. reflexivity. Qed.

Example const_example : rw_const (SLocal true [Param [120] None] [ENil]) = SLocal false [Param [120] None] [ENil].
Proof. reflexivity. Qed.

(** remove_types: annotations on declared names are not looked at by the semantics *)
Lemma local_go_clear : forall vars vs acc s, local_go (map clear_param vars) vs acc s = local_go vars vs acc s.
Proof.
  induction vars as [|[x t] vars IH]; intros vs acc s; [reflexivity|].
  cbn [map clear_param local_go param_name]. apply bind_eq. intros a s1 _. apply IH.
Qed.

Theorem types_local_sound : forall d n rho va c vars vals s,
  exec_stmt d n rho va (rw_types_stmt (SLocal c vars vals)) s = exec_stmt d n rho va (SLocal c vars vals) s.
Proof.
  intros. cbn [rw_types_stmt]. destruct n; [autorewrite with fuel0; reflexivity|]. rewrite !exec_stmt_S_local.
  apply bind_eq. intros vs s1 _. unfold bind. rewrite local_go_clear. reflexivity.
Qed.

Example types_local_example :
  rw_types_stmt (SLocal false [Param [120] (Some (TyNode 0 [] []))] [ENil]) = SLocal false [Param [120] None] [ENil].
Proof. reflexivity. Qed.

Theorem types_decl_sound : forall d n rho va ex x gen t s,
  exec_stmt d (S n) rho va (STypeDecl ex x gen t) s = Ok (rho, SigNone) s.
Proof. intros. rewrite exec_stmt_S_typedecl. reflexivity. Qed.
Theorem types_function_sound : forall d n rho va ex x f s,
  exec_stmt d (S n) rho va (STypeFunction ex x f) s = Ok (rho, SigNone) s.
Proof. intros. rewrite exec_stmt_S_typefunction. reflexivity. Qed.

(** a cast / an instantiation evaluates like the parenthesised expression: the first value *)
Lemma eval_cast_paren d n rho va e t s : eval d n rho va (ETypeCast e t) s = eval d n rho va (EParen e) s.
Proof. destruct n; [autorewrite with fuel0; reflexivity|]. rewrite eval_S_typecast, eval_S_paren. reflexivity. Qed.
Lemma eval_inst_paren d n rho va p tys s : eval d n rho va (ETypeInst p tys) s = eval d n rho va (EParen p) s.
Proof. destruct n; [autorewrite with fuel0; reflexivity|]. rewrite eval_S_typeinst, eval_S_paren. reflexivity. Qed.

Theorem types_cast_first : forall d n rho va e t s,
  eval d (S (S n)) rho va (ETypeCast e t) s = (vs <- eval d n rho va e ;; ret [first vs]) s.
Proof.
  intros. rewrite eval_S_typecast, eval1_S. unfold bind. destruct (eval d n rho va e s); reflexivity.
Qed.

(** one step of the rule is [paren_step]: parentheses when the static check says the callee may
    return several values, the bare callee otherwise *)
Theorem types_cast_sound : forall d n rho va e t s vs s',
  eval d n rho va (ETypeCast e t) s = Ok vs s' ->
  exists n', eval d n' rho va (if can_return_multiple_values e then EParen e else e) s = Ok vs s'.
Proof.
  intros d n rho va e t s vs s' H. rewrite eval_cast_paren in H.
  destruct (paren_step _ _ _ _ _ _ _ _ H) as (n' & _ & H'). exists n'. exact H'.
Qed.

Theorem types_inst_sound : forall d n rho va p tys s vs s',
  eval d n rho va (ETypeInst p tys) s = Ok vs s' ->
  exists n', eval d n' rho va (if can_return_multiple_values p then EParen p else p) s = Ok vs s'.
Proof.
  intros d n rho va p tys s vs s' H. rewrite eval_inst_paren in H.
  destruct (paren_step _ _ _ _ _ _ _ _ H) as (n' & _ & H'). exists n'. exact H'.
Qed.

(** the whole loop of [process_expression]: nested casts / instantiations *)
Theorem strip_types_sound : forall e d n rho va s vs s',
  eval d n rho va e s = Ok vs s' ->
  exists n', (n' <= n)%nat /\ eval d n' rho va (strip_types e) s = Ok vs s'.
Proof.
  assert (forall e d n rho va s vs s',
            (forall n1, eval d n1 rho va e s = Ok vs s' ->
               exists n', (n' <= n1)%nat /\ eval d n' rho va (strip_types e) s = Ok vs s') ->
            eval d n rho va (EParen e) s = Ok vs s' ->
            exists n', (n' <= n)%nat /\
              eval d n' rho va (if can_return_multiple_values e then EParen e else strip_types e) s = Ok vs s') as Hstep.
  { intros e d n rho va s vs s' IH H. destruct (paren_step _ _ _ _ _ _ _ _ H) as (n1 & L1 & H1).
    unfold DefaultRules.paren_if_multi in H1. destruct (can_return_multiple_values e); [eauto|].
    destruct (IH _ H1) as (n2 & L2 & H2). exists n2. split; [lia|exact H2]. }
  induction e; intros d fu rho va st vs st' H; try (exists fu; split; [lia|exact H]); cbn [strip_types].
  - rewrite eval_cast_paren in H. apply Hstep; [|exact H]. intros n1. apply IHe.
  - rewrite eval_inst_paren in H. apply Hstep; [|exact H]. intros n1. apply IHe.
Qed.

(** in prefix position (the callee is then evaluated to one value by the enclosing node) *)
Theorem types_prefix_sound : forall p d n rho va s v s',
  eval1 d n rho va p s = Ok v s' ->
  exists n', (n' <= n)%nat /\ eval1 d n' rho va (rw_types_prefix p) s = Ok v s'.
Proof.
  induction p; intros d fu rho va st v st' H; try (exists fu; split; [lia|exact H]).
  cbn [rw_types_prefix].
  apply eval1_inv in H as (m & ws & -> & Hw & ->).
  fuel_S m Hw. rewrite eval_S_typeinst in Hw. inv_ok Hw. subst. cbn [first].
  destruct (IHp _ _ _ _ _ _ _ H) as (n2 & L2 & H2). exists n2. split; [lia|exact H2].
Qed.

(** the hypotheses are satisfiable: a cast of a call that returns two values *)
Example types_cast_example :
  let e := ECall (EIdent (of_string "ext_f")) None (ATuple []) in
  let s := initial_store [[ONum 0; ONum 1]] in
  exists vs s', eval Luau 10 [] [] (ETypeCast e (TyNode 0 [] [])) s = Ok vs s' /\ llen vs = 1%nat /\
                strip_types (ETypeCast e (TyNode 0 [] [])) = EParen e /\
                eval Luau 10 [] [] (strip_types (ETypeCast e (TyNode 0 [] []))) s = Ok vs s'.
Proof. vm_compute. eexists. eexists. repeat split. Qed.
