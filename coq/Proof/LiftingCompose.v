(** C01, LIFTING - the covered rules in any number, subset and order. *)
From Coq Require Import ZArith NArith List Bool String.
From DL Require Import Lib.Bytes Lib.F64 Lua.Syntax Lua.Sem Model.DefaultRules.
From DL Require Import Proof.LiftingRulesExpr Proof.LiftingRulesBlock Proof.LiftingRulesIf Proof.LiftingRulesConst.
Import ListNotations.
Open Scope N_scope.

Definition rule_sound (r : block -> block) : Prop :=
  forall d n orc b out, run_chunk d n orc b = out -> out <> OutFuel -> run_chunk d n orc (r b) = out.

Definition apply_rules (rs : list (block -> block)) (b : block) : block :=
  fold_left (fun acc r => r acc) rs b.

Theorem rules_sound_compose rs : Forall rule_sound rs -> rule_sound (apply_rules rs).
Proof.
  unfold apply_rules. induction 1 as [|r rs Hr Hrs IH]; intros d n orc b out Hrun Hf; cbn [fold_left].
  - exact Hrun.
  - apply IH; [|exact Hf]. now apply Hr.
Qed.

Definition covered_rules : list (block -> block) :=
  [ rule_remove_function_call_parens; rule_remove_empty_do; rule_filter_after_early_return;
    rule_remove_method_definition; rule_convert_index_to_field_const; rule_remove_unused_while_const;
    rule_remove_unused_if_branch_const; rule_compute_expression_const ].

(** the same without compute_expression (whose constant folding rests on the validity lemmas
    of the float library and, through them, on the classical axioms of the real numbers) *)
Definition covered_rules_nofold : list (block -> block) :=
  [ rule_remove_function_call_parens; rule_remove_empty_do; rule_filter_after_early_return;
    rule_remove_method_definition; rule_convert_index_to_field_const; rule_remove_unused_while_const;
    rule_remove_unused_if_branch_const ].

Lemma rules_drawn_from cs : Forall rule_sound cs ->
  forall rs, (forall r, In r rs -> In r cs) -> rule_sound (apply_rules rs).
Proof.
  intros Hcs rs Hin. apply rules_sound_compose. apply Forall_forall. intros r Hr.
  exact (proj1 (Forall_forall _ _) Hcs r (Hin r Hr)).
Qed.

Lemma covered_rules_nofold_sound : Forall rule_sound covered_rules_nofold.
Proof.
  unfold covered_rules_nofold. repeat constructor; intros d.
  - apply lifting_remove_function_call_parens.
  - apply lifting_remove_empty_do.
  - apply lifting_filter_after_early_return.
  - apply lifting_remove_method_definition.
  - apply lifting_convert_index_to_field_const.
  - apply lifting_remove_unused_while_const.
  - apply lifting_remove_unused_if_branch_const.
Qed.

Lemma covered_rules_sound : Forall rule_sound covered_rules.
Proof.
  change covered_rules with (covered_rules_nofold ++ [rule_compute_expression_const]).
  apply Forall_app. split; [exact covered_rules_nofold_sound|]. constructor; [|constructor].
  intros d. apply lifting_compute_expression_const.
Qed.

Theorem lifting_covered_rules : forall rs, (forall r, In r rs -> In r covered_rules) ->
  forall d n orc b out, run_chunk d n orc b = out -> out <> OutFuel ->
  run_chunk d n orc (apply_rules rs b) = out.
Proof. exact (rules_drawn_from covered_rules covered_rules_sound). Qed.

Theorem lifting_covered_rules_nofold : forall rs, (forall r, In r rs -> In r covered_rules_nofold) ->
  forall d n orc b out, run_chunk d n orc b = out -> out <> OutFuel ->
  run_chunk d n orc (apply_rules rs b) = out.
Proof. exact (rules_drawn_from covered_rules_nofold covered_rules_nofold_sound). Qed.
