(** The accessor the bundler emits around a module ([Model/BundleWrapper.v: accessor_block])
    runs the module body once and caches its value, even when that value is nil or false.

      - [wrapper_hit]   cache hit: the body is not run, the boxed value comes back;
      - [wrapper_miss]  first call: the body runs exactly once, through the single call
                        [__modImpl()], its first result is boxed and stored;
      - [wrapper_once]  after a miss, a second call is a hit returning the same value and
                        leaving the trace alone; [miss_post_box] says what the box holds;
      - [wrapper_hit_call], [wrapper_once_call]  the same through a call of a closure whose
                        body is the accessor.

    Nothing is assumed about the module body except the outcome [call d _ fv [] s1 = Ok vs s2]
    of its single run and the listed frame conditions on [s2]. *)
From Coq Require Import ZArith NArith List Bool String Lia.
From DL Require Import Lib.Bytes Lib.F64 Lua.Syntax Lua.Sem Proof.SemFacts Proof.DefaultRulesSem Proof.RefactorSem
  Model.BundleWrapper
  Proof.BundleWrapperBase.
Import ListNotations.
Open Scope N_scope.
Local Notation llen := List.length.

(** [cache_at s aM tM tblM tc tblC]: in the store [s], the cell [aM] (the one of the local
    [<M>]) holds the table [tM] with content [tblM], whose field [cache] is the table [tc]
    with content [tblC]. *)
Definition cache_at (s : store) (aM tM : N) (tblM : table) (tc : N) (tblC : table) : Prop :=
  nth_N (cells s) (N.to_nat aM) = Some (VTable tM) /\
  nth_N (tables s) (N.to_nat tM) = Some tblM /\
  raw_get (t_entries tblM) (VStr s_cache) = VTable tc /\
  nth_N (tables s) (N.to_nat tc) = Some tblC.

Lemma cache_at_fresh s aM tM tblM tc tblC :
  cache_at s aM tM tblM tc tblC ->
  N.of_nat (llen (cells s)) <> aM /\ N.of_nat (llen (tables s)) <> tM /\ N.of_nat (llen (tables s)) <> tc.
Proof. intros (Hc & Ht & _ & HtC). repeat split; eapply fresh_neq; eassumption. Qed.

Lemma cache_at_upd_cell s a v aM tM tblM tc tblC :
  a <> aM -> cache_at s aM tM tblM tc tblC -> cache_at (upd_cell s a v) aM tM tblM tc tblC.
Proof. intros Ha (Hc & H). split; [rewrite upd_cell_other by exact Ha; exact Hc|exact H]. Qed.

Lemma cache_at_upd_table s a t aM tM tblM tc tblC :
  a <> tM -> a <> tc -> cache_at s aM tM tblM tc tblC -> cache_at (upd_table s a t) aM tM tblM tc tblC.
Proof.
  intros HM HC (Hc & Ht & Hg & HtC). repeat split; [exact Hc| |exact Hg|].
  - rewrite upd_table_other by exact HM. exact Ht.
  - rewrite upd_table_other by exact HC. exact HtC.
Qed.

Lemma cache_at_set s t aM tM tblM tc tblC :
  tc <> tM -> cache_at s aM tM tblM tc tblC -> cache_at (upd_table s tc t) aM tM tblM tc t.
Proof.
  intros HM (Hc & Ht & Hg & HtC). repeat split; [exact Hc| |exact Hg|].
  - rewrite upd_table_other by exact HM. exact Ht.
  - apply upd_table_same. eapply nth_N_lt; exact HtC.
Qed.

(** the content of the box [{ c = v }] *)
Definition box_of (v : value) : table := mkTable (raw_set [] (VStr s_c) v) None.

Lemma box_of_c v : raw_get (t_entries (box_of v)) (VStr s_c) = v.
Proof. apply (raw_get_set_same []). Qed.

(** the store after [v = { c = ... }] in a call that started in [s]: in the store [s2] the
    module body left, the box (address [length (tables s)]) gets its field and the local [v]
    (address [length (cells s)]) points to it *)
Definition box_filled (s s2 : store) (v : value) : store :=
  upd_cell (upd_table s2 (N.of_nat (llen (tables s))) (box_of v))
           (N.of_nat (llen (cells s))) (VTable (N.of_nat (llen (tables s)))).

Section BoxFilled.
Variables (s s2 : store) (v : value).

Lemma box_filled_cache aM tM tblM tc tblC tblM2 tblC2 :
  cache_at s aM tM tblM tc tblC -> cache_at s2 aM tM tblM2 tc tblC2 ->
  cache_at (box_filled s s2 v) aM tM tblM2 tc tblC2.
Proof.
  intros C C2. destruct (cache_at_fresh _ _ _ _ _ _ C) as (Fa & FM & FC).
  apply cache_at_upd_cell; [exact Fa|]. apply cache_at_upd_table; assumption.
Qed.

Lemma box_filled_local :
  (llen (cells s) < llen (cells s2))%nat ->
  nth_N (cells (box_filled s s2 v)) (N.to_nat (N.of_nat (llen (cells s)))) =
  Some (VTable (N.of_nat (llen (tables s)))).
Proof. intros L. apply upd_cell_same. rewrite Nat2N.id. exact L. Qed.

Lemma box_filled_box t :
  nth_N (tables s2) (llen (tables s)) = Some t ->
  nth_N (tables (box_filled s s2 v)) (N.to_nat (N.of_nat (llen (tables s)))) = Some (box_of v).
Proof.
  intros H. apply (upd_table_same s2). rewrite Nat2N.id. eapply nth_N_lt; exact H.
Qed.

End BoxFilled.

Section Steps.
Variable d : dialect.

(** [<M>.cache] *)
Lemma mcache_eval1 n rho va M s aM tM tblM tc tblC :
  lookup rho M = Some aM -> cache_at s aM tM tblM tc tblC ->
  eval1 d (S (S (S (S n)))) rho va (EField (EIdent M) s_cache) s = Ok (VTable tc) s.
Proof.
  intros Hl (Hc & Ht & Hg & _). apply (eval1_of_eval d _ _ _ _ _ [VTable tc]).
  eapply eval_field_get; [eapply eval1_ident_cell; eassumption|exact Ht|exact Hg|left; discriminate].
Qed.

(** [<M>.cache.<name>]: a raw read when the entry is there or the cache has no metatable *)
Lemma cache_slot_eval n rho va M nm s aM tM tblM tc tblC v :
  lookup rho M = Some aM -> cache_at s aM tM tblM tc tblC ->
  raw_get (t_entries tblC) (VStr nm) = v ->
  (v <> VNil \/ t_meta tblC = None) ->
  eval d (S (S (S (S (S n))))) rho va (cache_slot M nm) s = Ok [v] s.
Proof.
  intros Hl C Hv Hm. eapply eval_field_get; [eapply mcache_eval1; eassumption|apply C|exact Hv|exact Hm].
Qed.

Lemma not_ident_eval1 n rho va x s a v :
  lookup rho x = Some a ->
  nth_N (cells s) (N.to_nat a) = Some v ->
  eval1 d (S (S (S (S n)))) rho va (EUnary UNot (EIdent x)) s = Ok (VBool (negb (truthy v))) s.
Proof.
  intros Hl Hc. apply (eval1_of_eval d _ _ _ _ _ [VBool (negb (truthy v))]).
  rewrite eval_S_unary. eapply bind_ok_intro; [eapply eval1_ident_cell; eassumption|reflexivity].
Qed.

(** [__modImpl()] is the call of whatever the local [__modImpl] holds *)
Lemma impl_call_eval n rho va s aI fv r :
  lookup rho s_impl = Some aI ->
  nth_N (cells s) (N.to_nat aI) = Some fv ->
  call d (S (S n)) fv [] s = r ->
  eval d (S (S (S n))) rho va impl_call s = r.
Proof.
  intros Hl Hc Hr. unfold impl_call. rewrite eval_S_call_plain.
  eapply bind_ok_intro; [eapply eval1_ident_cell; eassumption|]. cbv beta.
  eapply bind_ok_intro; [rewrite eval_args_S_tuple, eval_list_S_nil; reflexivity|exact Hr].
Qed.

(** statement 2a: [v = { c = __modImpl() }].  The box is allocated (empty) BEFORE the body
    runs; [s2] is the store the body leaves. *)
Lemma assign_box_step n rho va s av aI fv vs s2 :
  lookup rho s_v = Some av ->
  lookup rho s_impl = Some aI ->
  nth_N (cells s) (N.to_nat aI) = Some fv ->
  call d (S (S n)) fv [] (add_table s (mkTable [] None)) = Ok vs s2 ->
  nth_N (tables s2) (llen (tables s)) = Some (mkTable [] None) ->
  exec_stmt d (S (S (S (S (S (S (S (S n)))))))) rho va
            (SAssign [EIdent s_v] [ETable [TField s_c impl_call]]) s =
  Ok (rho, SigNone)
     (upd_cell (upd_table s2 (N.of_nat (llen (tables s))) (box_of (first vs)))
               av (VTable (N.of_nat (llen (tables s))))).
Proof.
  intros Hlv Hli HcI Hcall Hbox. eapply assign1_step.
  - rewrite eval_target_S_ident, Hlv. reflexivity.
  - rewrite eval_S_table. eapply bind_ok_intro; [apply new_table_eq|]. cbv beta.
    eapply bind_ok_intro; [|reflexivity].
    rewrite fill_table_S_field. eapply bind_ok_intro.
    { apply eval1_of_eval. eapply impl_call_eval; [exact Hli|exact HcI|exact Hcall]. }
    cbv beta. eapply bind_ok_intro; [|rewrite fill_table_S_nil; reflexivity].
    unfold put. unfold bind at 1. unfold get_table at 1. rewrite Nat2N.id, Hbox.
    apply set_table_eq.
  - rewrite assign_target_S_cell. apply set_cell_eq.
Qed.

(** statement 2b: [<M>.cache.<name> = v] *)
Lemma assign_cache_step n rho va M nm s aM tM tblM tc tblC av v :
  lookup rho M = Some aM -> cache_at s aM tM tblM tc tblC ->
  t_meta tblC = None ->
  lookup rho s_v = Some av ->
  nth_N (cells s) (N.to_nat av) = Some v ->
  exec_stmt d (S (S (S (S (S (S n)))))) rho va (SAssign [cache_slot M nm] [EIdent s_v]) s =
  Ok (rho, SigNone) (upd_table s tc (mkTable (raw_set (t_entries tblC) (VStr nm) v) None)).
Proof.
  intros Hl C Hm Hlv Hcv. eapply assign1_step.
  - unfold cache_slot. rewrite eval_target_S_field.
    eapply bind_ok_intro; [eapply mcache_eval1; eassumption|reflexivity].
  - eapply eval_ident_cell; eassumption.
  - rewrite assign_target_S_index. eapply setindex_table_raw; [apply C|exact Hm].
Qed.

(** the final [return v.c] *)
Lemma return_step n rho va s av tb tblB v :
  lookup rho s_v = Some av ->
  nth_N (cells s) (N.to_nat av) = Some (VTable tb) ->
  nth_N (tables s) (N.to_nat tb) = Some tblB ->
  t_meta tblB = None ->
  raw_get (t_entries tblB) (VStr s_c) = v ->
  exec_stmts d (S (S (S (S (S n))))) rho va [] (Some (LReturn [EField (EIdent s_v) s_c])) s =
  Ok (SigReturn [v]) s.
Proof.
  intros Hl Hc Ht Hm Hv. rewrite exec_stmts_S_nil, eval_list_S_one.
  eapply bind_ok_intro; [|reflexivity].
  eapply eval_field_get; [eapply eval1_ident_cell; eassumption|exact Ht|exact Hv|right; exact Hm].
Qed.

End Steps.

(** the store in which the module body starts: the local [v] (nil) and the still empty box
    [{}] have been allocated ([ETable] allocates before it fills) *)
Definition miss_pre (s : store) : store := add_table (add_cell s VNil) (mkTable [] None).

(** the store a first call ends in, from the store [s2] the body left: the box (address
    [length (tables s)]) gets its field [c], the local (address [length (cells s)]) and the
    cache entry [nm] of table [tc] (whose content in [s2] is [tblC2]) point to the box *)
Definition miss_post (s s2 : store) (tc : N) (tblC2 : table) (nm : name) (v : value) : store :=
  upd_table
    (upd_cell
       (upd_table s2 (N.of_nat (llen (tables s))) (mkTable (raw_set [] (VStr s_c) v) None))
       (N.of_nat (llen (cells s))) (VTable (N.of_nat (llen (tables s)))))
    tc (mkTable (raw_set (t_entries tblC2) (VStr nm) (VTable (N.of_nat (llen (tables s))))) None).

Lemma miss_post_trace s s2 tc tblC2 nm v : trace (miss_post s s2 tc tblC2 nm v) = trace s2.
Proof. reflexivity. Qed.
Lemma miss_post_closures s s2 tc tblC2 nm v : closures (miss_post s s2 tc tblC2 nm v) = closures s2.
Proof. reflexivity. Qed.
Lemma miss_post_oracle s s2 tc tblC2 nm v : oracle (miss_post s s2 tc tblC2 nm v) = oracle s2.
Proof. reflexivity. Qed.

(** [miss_post] is [box_filled] with the cache entry written; the cache is where it was, and
    the box, which holds [{ c = v }] and nothing else (for [v = nil]: nothing at all, a raw
    set of nil stores no entry), is not the cache table *)
Lemma miss_post_cache s s2 aM tM tblM tc tblC tblM2 tblC2 nm v :
  cache_at s aM tM tblM tc tblC -> cache_at s2 aM tM tblM2 tc tblC2 -> tM <> tc ->
  cache_at (miss_post s s2 tc tblC2 nm v) aM tM tblM2 tc
           (mkTable (raw_set (t_entries tblC2) (VStr nm) (VTable (N.of_nat (llen (tables s))))) None).
Proof.
  intros C C2 Hne. eapply (cache_at_set (box_filled s s2 v)); [congruence|].
  eapply box_filled_cache; eassumption.
Qed.

Lemma miss_post_box s s2 aM tM tblM tc tblC tblC2 nm v t :
  cache_at s aM tM tblM tc tblC ->
  nth_N (tables s2) (llen (tables s)) = Some t ->
  nth_N (tables (miss_post s s2 tc tblC2 nm v)) (N.to_nat (N.of_nat (llen (tables s)))) = Some (box_of v).
Proof.
  intros C Hbox. destruct (cache_at_fresh _ _ _ _ _ _ C) as (_ & _ & FC).
  unfold miss_post. rewrite upd_table_other by congruence. exact (box_filled_box s s2 v t Hbox).
Qed.

Section Wrapper.
Variable d : dialect.

(** a hit, for every fuel from 9 on; [M] may even be called [v]: it is read before the local
    [v] comes into scope *)
Lemma accessor_hit n M nm rho va s aM tM tblM tc tblC tb tblB :
  (9 <= n)%nat ->
  lookup rho M = Some aM -> cache_at s aM tM tblM tc tblC ->
  raw_get (t_entries tblC) (VStr nm) = VTable tb ->
  nth_N (tables s) (N.to_nat tb) = Some tblB ->
  t_meta tblB = None ->
  exec_block d n rho va (accessor_block M nm) s =
  Ok (SigReturn [raw_get (t_entries tblB) (VStr s_c)]) (add_cell s (VTable tb)).
Proof.
  intros Hn Hl C Hslot HtB HmB. replace n with (9 + (n - 9))%nat by lia. cbn [Nat.add].
  unfold accessor_block. rewrite exec_block_S. eapply exec_stmts_step.
  { apply local1_step. eapply cache_slot_eval; [exact Hl|exact C|exact Hslot|left; discriminate]. }
  eapply exec_stmts_step.
  { eapply if1_step; [eapply not_ident_eval1; [apply lookup_head|apply add_cell_new]|reflexivity]. }
  eapply return_step; [apply lookup_head|apply add_cell_new|exact HtB|exact HmB|reflexivity].
Qed.

Theorem wrapper_hit n0 M nm rho va s aM tM tblM tc tblC tb tblB :
  M <> s_v ->
  lookup rho M = Some aM ->
  nth_N (cells s) (N.to_nat aM) = Some (VTable tM) ->
  nth_N (tables s) (N.to_nat tM) = Some tblM ->
  raw_get (t_entries tblM) (VStr s_cache) = VTable tc ->
  nth_N (tables s) (N.to_nat tc) = Some tblC ->
  raw_get (t_entries tblC) (VStr nm) = VTable tb ->
  nth_N (tables s) (N.to_nat tb) = Some tblB ->
  t_meta tblB = None ->
  exec_block d (9 + n0) rho va (accessor_block M nm) s =
  Ok (SigReturn [raw_get (t_entries tblB) (VStr s_c)]) (add_cell s (VTable tb)).
Proof.
  intros _ Hl Hc HtM Hg HtC.
  apply (accessor_hit _ M nm rho va s aM tM tblM tc tblC); [lia|exact Hl|repeat split; assumption].
Qed.

Lemma hit_store_frame s v :
  cells (add_cell s v) = cells s ++ [v] /\ tables (add_cell s v) = tables s /\
  closures (add_cell s v) = closures s /\ trace (add_cell s v) = trace s /\
  oracle (add_cell s v) = oracle s /\ fresh (add_cell s v) = fresh s.
Proof. repeat split. Qed.

Corollary wrapper_hit_ge n M nm rho va s aM tM tblM tc tblC tb tblB :
  (9 <= n)%nat ->
  M <> s_v ->
  lookup rho M = Some aM ->
  nth_N (cells s) (N.to_nat aM) = Some (VTable tM) ->
  nth_N (tables s) (N.to_nat tM) = Some tblM ->
  raw_get (t_entries tblM) (VStr s_cache) = VTable tc ->
  nth_N (tables s) (N.to_nat tc) = Some tblC ->
  raw_get (t_entries tblC) (VStr nm) = VTable tb ->
  nth_N (tables s) (N.to_nat tb) = Some tblB ->
  t_meta tblB = None ->
  exec_block d n rho va (accessor_block M nm) s =
  Ok (SigReturn [raw_get (t_entries tblB) (VStr s_c)]) (add_cell s (VTable tb)).
Proof.
  intros Hn _ Hl Hc HtM Hg HtC.
  apply (accessor_hit _ M nm rho va s aM tM tblM tc tblC); [exact Hn|exact Hl|repeat split; assumption].
Qed.

(** calling a closure whose body is the accessor (any arguments: it has no parameters) *)
Lemma call_accessor n a args c M nm s r :
  nth_N (closures s) (N.to_nat a) = Some c ->
  c_body c = accessor M nm -> c_self c = false ->
  exec_block d n (c_env c) [] (accessor_block M nm) s = r ->
  call d (S n) (VClosure a) args s =
  match r with
  | Ok (SigReturn vs) s' => Ok vs s'
  | Ok _ s' => Ok [] s'
  | Err e s' => Err e s'
  | Fuel => Fuel
  | Unsup w => Unsup w
  end.
Proof.
  intros Hcl Hb Hs Hr. destruct c as [body env self]. cbn [c_body c_self c_env] in Hb, Hs, Hr. subst body self.
  rewrite call_S_closure. eapply bind_ok_intro; [unfold get_closure; rewrite Hcl; reflexivity|].
  unfold call_closure, effective_params, closure_variadic, closure_block.
  cbn [c_body c_self c_env accessor bind_params]. unfold bind. cbn [ret rev app]. rewrite Hr.
  destruct r as [[| | |vs] s'|e s'| |w]; reflexivity.
Qed.

Theorem wrapper_hit_call n0 a args c M nm s aM tM tblM tc tblC tb tblB :
  nth_N (closures s) (N.to_nat a) = Some c ->
  c_body c = accessor M nm -> c_self c = false ->
  M <> s_v ->
  lookup (c_env c) M = Some aM ->
  nth_N (cells s) (N.to_nat aM) = Some (VTable tM) ->
  nth_N (tables s) (N.to_nat tM) = Some tblM ->
  raw_get (t_entries tblM) (VStr s_cache) = VTable tc ->
  nth_N (tables s) (N.to_nat tc) = Some tblC ->
  raw_get (t_entries tblC) (VStr nm) = VTable tb ->
  nth_N (tables s) (N.to_nat tb) = Some tblB ->
  t_meta tblB = None ->
  call d (10 + n0) (VClosure a) args s =
  Ok [raw_get (t_entries tblB) (VStr s_c)] (add_cell s (VTable tb)).
Proof.
  intros Hcl Hb Hs HM Hl Hc HtM Hg HtC Hslot HtB HmB.
  change (10 + n0)%nat with (S (9 + n0)).
  rewrite (call_accessor _ a args c M nm s _ Hcl Hb Hs eq_refl).
  rewrite (wrapper_hit n0 M nm (c_env c) [] s aM tM tblM tc tblC tb tblB); auto.
Qed.

Theorem wrapper_miss n0 M nm rho va s aM tM tblM tc tblC aI fv vs s2 tblM2 tblC2 :
  M <> s_v ->
  lookup rho M = Some aM ->
  nth_N (cells s) (N.to_nat aM) = Some (VTable tM) ->
  nth_N (tables s) (N.to_nat tM) = Some tblM ->
  raw_get (t_entries tblM) (VStr s_cache) = VTable tc ->
  nth_N (tables s) (N.to_nat tc) = Some tblC ->
  raw_get (t_entries tblC) (VStr nm) = VNil ->
  t_meta tblC = None ->
  lookup rho s_impl = Some aI ->
  nth_N (cells s) (N.to_nat aI) = Some fv ->
  (* the single run of the module body *)
  call d (2 + n0) fv [] (miss_pre s) = Ok vs s2 ->
  (* frame conditions on the store it leaves *)
  nth_N (cells s2) (N.to_nat aM) = Some (VTable tM) ->
  nth_N (tables s2) (N.to_nat tM) = Some tblM2 ->
  raw_get (t_entries tblM2) (VStr s_cache) = VTable tc ->
  nth_N (tables s2) (N.to_nat tc) = Some tblC2 ->
  t_meta tblC2 = None ->
  nth_N (tables s2) (llen (tables s)) = Some (mkTable [] None) ->
  (llen (cells s) < llen (cells s2))%nat ->
  exec_block d (14 + n0) rho va (accessor_block M nm) s =
  Ok (SigReturn [first vs]) (miss_post s s2 tc tblC2 nm (first vs)).
Proof.
  intros HM Hl Hc HtM Hg HtC Hslot HmC Hli HcI Hcall Hc2 HtM2 Hg2 HtC2 HmC2 Hbox Hlen.
  assert (C : cache_at s aM tM tblM tc tblC) by (repeat split; assumption).
  assert (C2 : cache_at s2 aM tM tblM2 tc tblC2) by (repeat split; assumption).
  cbn [Nat.add] in *. unfold accessor_block. rewrite exec_block_S. eapply exec_stmts_step.
  { apply local1_step. eapply cache_slot_eval; [exact Hl|exact C|exact Hslot|right; exact HmC]. }
  eapply exec_stmts_step.
  { eapply if1_step; [eapply not_ident_eval1; [apply lookup_head|apply add_cell_new]|].
    cbn [truthy negb].
    rewrite exec_block_S. eapply exec_stmts_step.
    { eapply assign_box_step; [apply lookup_head|exact Hli|apply add_cell_old; exact HcI| |exact Hbox].
      exact Hcall. }
    eapply exec_stmts_step; [|rewrite exec_stmts_S_nil; reflexivity].
    eapply (assign_cache_step d _ _ va M nm (box_filled s s2 (first vs))).
    - rewrite lookup_skip by exact HM. exact Hl.
    - eapply box_filled_cache; eassumption.
    - exact HmC2.
    - apply lookup_head.
    - apply box_filled_local. exact Hlen. }
  eapply return_step.
  - apply lookup_head.
  - exact (box_filled_local s s2 _ Hlen).
  - exact (miss_post_box s s2 aM tM tblM tc tblC tblC2 nm _ _ C Hbox).
  - reflexivity.
  - apply box_of_c.
Qed.

(** in the store a miss ends in, the hypotheses of a hit hold *)

Theorem wrapper_once n0 M nm rho va s aM tM tblM tc tblC aI fv vs s2 tblM2 tblC2 :
  M <> s_v ->
  lookup rho M = Some aM ->
  nth_N (cells s) (N.to_nat aM) = Some (VTable tM) ->
  nth_N (tables s) (N.to_nat tM) = Some tblM ->
  raw_get (t_entries tblM) (VStr s_cache) = VTable tc ->
  nth_N (tables s) (N.to_nat tc) = Some tblC ->
  raw_get (t_entries tblC) (VStr nm) = VNil ->
  t_meta tblC = None ->
  tM <> tc ->
  lookup rho s_impl = Some aI ->
  nth_N (cells s) (N.to_nat aI) = Some fv ->
  call d (2 + n0) fv [] (miss_pre s) = Ok vs s2 ->
  nth_N (cells s2) (N.to_nat aM) = Some (VTable tM) ->
  nth_N (tables s2) (N.to_nat tM) = Some tblM2 ->
  raw_get (t_entries tblM2) (VStr s_cache) = VTable tc ->
  nth_N (tables s2) (N.to_nat tc) = Some tblC2 ->
  t_meta tblC2 = None ->
  nth_N (tables s2) (llen (tables s)) = Some (mkTable [] None) ->
  (llen (cells s) < llen (cells s2))%nat ->
  let s4 := miss_post s s2 tc tblC2 nm (first vs) in
  (* first call: runs the body (the events of [s2]) *)
  exec_block d (14 + n0) rho va (accessor_block M nm) s = Ok (SigReturn [first vs]) s4 /\
  trace s4 = trace s2 /\
  (* any later call from [s4] (any fuel >= 9, any varargs): same value, one more cell, the
     trace, the tables and the closures are those of [s4] *)
  forall m va',
    exec_block d (9 + m) rho va' (accessor_block M nm) s4 =
    Ok (SigReturn [first vs]) (add_cell s4 (VTable (N.of_nat (llen (tables s))))) /\
    trace (add_cell s4 (VTable (N.of_nat (llen (tables s))))) = trace s2.
Proof.
  intros HM Hl Hc HtM Hg HtC Hslot HmC Hne Hli HcI Hcall Hc2 HtM2 Hg2 HtC2 HmC2 Hbox Hlen s4.
  split; [eapply wrapper_miss; eassumption|]. split; [reflexivity|].
  intros m va'. split; [|reflexivity].
  assert (C : cache_at s aM tM tblM tc tblC) by (repeat split; assumption).
  rewrite <- (box_of_c (first vs)) at 1.
  eapply (accessor_hit _ M nm rho va' s4 aM tM tblM2 tc _ _ (box_of (first vs))).
  - lia.
  - exact Hl.
  - apply (miss_post_cache s s2 aM tM tblM tc tblC); [exact C|repeat split; assumption|exact Hne].
  - apply raw_get_set_same.
  - exact (miss_post_box s s2 aM tM tblM tc tblC tblC2 nm _ _ C Hbox).
  - reflexivity.
Qed.

(** both calls through a closure of the accessor: [a] is its address, it must survive the
    body's run (closures are never removed by the interpreter; stated as a hypothesis) *)
Theorem wrapper_once_call n0 a c args M nm s aM tM tblM tc tblC aI fv vs s2 tblM2 tblC2 :
  nth_N (closures s) (N.to_nat a) = Some c ->
  nth_N (closures s2) (N.to_nat a) = Some c ->
  c_body c = accessor M nm -> c_self c = false ->
  M <> s_v ->
  lookup (c_env c) M = Some aM ->
  nth_N (cells s) (N.to_nat aM) = Some (VTable tM) ->
  nth_N (tables s) (N.to_nat tM) = Some tblM ->
  raw_get (t_entries tblM) (VStr s_cache) = VTable tc ->
  nth_N (tables s) (N.to_nat tc) = Some tblC ->
  raw_get (t_entries tblC) (VStr nm) = VNil ->
  t_meta tblC = None ->
  tM <> tc ->
  lookup (c_env c) s_impl = Some aI ->
  nth_N (cells s) (N.to_nat aI) = Some fv ->
  call d (2 + n0) fv [] (miss_pre s) = Ok vs s2 ->
  nth_N (cells s2) (N.to_nat aM) = Some (VTable tM) ->
  nth_N (tables s2) (N.to_nat tM) = Some tblM2 ->
  raw_get (t_entries tblM2) (VStr s_cache) = VTable tc ->
  nth_N (tables s2) (N.to_nat tc) = Some tblC2 ->
  t_meta tblC2 = None ->
  nth_N (tables s2) (llen (tables s)) = Some (mkTable [] None) ->
  (llen (cells s) < llen (cells s2))%nat ->
  let s4 := miss_post s s2 tc tblC2 nm (first vs) in
  call d (15 + n0) (VClosure a) args s = Ok [first vs] s4 /\
  trace s4 = trace s2 /\
  forall m args',
    call d (10 + m) (VClosure a) args' s4 =
    Ok [first vs] (add_cell s4 (VTable (N.of_nat (llen (tables s))))) /\
    trace (add_cell s4 (VTable (N.of_nat (llen (tables s))))) = trace s2.
Proof.
  intros Hcl Hcl2 Hb Hs HM Hl Hc HtM Hg HtC Hslot HmC Hne Hli HcI Hcall Hc2 HtM2 Hg2 HtC2 HmC2
         Hbox Hlen s4.
  destruct (wrapper_once n0 M nm (c_env c) [] s aM tM tblM tc tblC aI fv vs s2 tblM2 tblC2)
    as (H1 & H2 & H3); try assumption.
  fold s4 in H1, H2, H3.
  split; [|split].
  - change (15 + n0)%nat with (S (14 + n0)).
    rewrite (call_accessor _ a args c M nm s _ Hcl Hb Hs eq_refl). rewrite H1. reflexivity.
  - exact H2.
  - intros m args'. split; [|reflexivity].
    change (10 + m)%nat with (S (9 + m)).
    assert (Hcl4 : nth_N (closures s4) (N.to_nat a) = Some c) by exact Hcl2.
    rewrite (call_accessor _ a args' c M nm s4 _ Hcl4 Hb Hs eq_refl).
    destruct (H3 m []) as [H3' _]. rewrite H3'. reflexivity.
Qed.

End Wrapper.
