(** The delimiter [get_quote_symbol] picks for a quoted literal. *)
From DL Require Import Lib.Bytes Model.StringLit.
Open Scope N_scope.

Lemma quote_symbol_is_quote s : get_quote_symbol s = 39 \/ get_quote_symbol s = 34.
Proof. unfold get_quote_symbol. destruct (existsb _ s); [left; reflexivity|]. destruct (existsb _ s); auto. Qed.

(** the delimiter never occurs in the value unless the value holds both kinds of quote,
    in which case it is the single quote (and gets escaped by the [c =? q] arm) *)
Lemma quote_symbol_choice s :
  (existsb (N.eqb 34) s = true -> get_quote_symbol s = 39) /\
  (existsb (N.eqb 34) s = false -> existsb (N.eqb 39) s = true -> get_quote_symbol s = 34).
Proof. unfold get_quote_symbol. split; [intros ->; reflexivity | intros -> ->; reflexivity]. Qed.

Lemma write_quoted_delimited s :
  exists q, (q = 39 \/ q = 34) /\ write_quoted s = q :: quoted_body s ++ [q].
Proof. exists (get_quote_symbol s). split; [apply quote_symbol_is_quote | reflexivity]. Qed.
