(** Round-trip theorems for the string-literal writer model ([Model/StringLit.v]):
    what [write_string] / [write_quoted] / [write_long_bracket] emit is decoded back
    to the original bytes by the reference decoders. *)
From DL Require Import Lib.Bytes Model.StringLit Proof.StringLitBasics.
Require Import Lia ZArith ZifyBool ZifyN ZifyNat.
Ltac Zify.zify_post_hook ::= Z.div_mod_to_equations.
Open Scope N_scope.

Definition all_bytes : list N := map N.of_nat (seq 0 256).

Lemma byte_sweep (P : N -> bool) :
  forallb P all_bytes = true -> forall c, c < 256 -> P c = true.
Proof.
  intros H c Hc. rewrite forallb_forall in H. apply H.
  unfold all_bytes. rewrite in_map_iff. exists (N.to_nat c). split.
  - apply N2Nat.id.
  - apply in_seq. lia.
Qed.

Lemma wf_cons c s : wf_bytes (c :: s) = true -> c < 256 /\ wf_bytes s = true.
Proof.
  unfold wf_bytes. cbn [forallb]. intros H. apply andb_true_iff in H as [H1 H2].
  unfold is_byte in H1. split; [lia | exact H2].
Qed.

(** [lia] is slow on the quotients and remainders of a code point written with the decoder's
    subtractions; the encoder's digits are read off its base-64 form with these two instead *)
Lemma div64 h l : l < 64 -> (h * 64 + l) / 64 = h.
Proof. lia. Qed.
Lemma mod64 h l : l < 64 -> (h * 64 + l) mod 64 = l.
Proof. lia. Qed.

(** The encoder on the code point of a well-formed sequence of two, three or four bytes
    (Unicode table 3-7, as [utf8_decode] tests it): the same bytes.  The restricted second byte
    after 224 and 240 is what keeps the code point out of the shorter forms, after 244 what
    keeps it below U+110000; the surrogate restriction after 237 plays no part. *)
Lemma utf8_encode_2 b0 b1 : in_range 194 223 b0 = true -> is_cont b1 = true ->
  let c := (b0 - 192) * 64 + (b1 - 128) in utf8_encode c = [b0; b1] /\ c <= 1114111.
Proof.
  intros H0 H1 c. unfold in_range, is_cont in H0, H1. unfold utf8_encode.
  assert (c <? 128 = false) as -> by lia.
  assert (c <? 2048 = true) as -> by lia.
  split; [repeat f_equal; lia|lia].
Qed.

Lemma utf8_encode_3 b0 b1 b2 : in_range 224 239 b0 = true ->
  (if b0 =? 224 then in_range 160 191 b1
   else if b0 =? 237 then in_range 128 159 b1 else is_cont b1) && is_cont b2 = true ->
  let c := (b0 - 224) * 4096 + (b1 - 128) * 64 + (b2 - 128) in
  utf8_encode c = [b0; b1; b2] /\ c <= 1114111.
Proof.
  intros H0 H c. unfold in_range, is_cont in H0, H.
  assert (Hb : 128 <= b1 <= 191 /\ (b0 = 224 -> 160 <= b1) /\ 128 <= b2 <= 191)
    by (destruct (N.eqb_spec b0 224); [|destruct (N.eqb_spec b0 237)]; lia).
  clear H. unfold utf8_encode.
  assert (c <? 128 = false) as -> by lia.
  assert (c <? 2048 = false) as -> by lia.
  assert (c <? 65536 = true) as -> by lia.
  split; [|lia].
  assert (c = ((b0 - 224) * 64 + (b1 - 128)) * 64 + (b2 - 128)) as -> by lia.
  change 4096 with (64 * 64). rewrite <- !N.div_div by discriminate.
  rewrite !div64, !mod64 by lia. repeat f_equal; lia.
Qed.

Lemma utf8_encode_4 b0 b1 b2 b3 : in_range 240 244 b0 = true ->
  (if b0 =? 240 then in_range 144 191 b1
   else if b0 =? 244 then in_range 128 143 b1 else is_cont b1) && is_cont b2 && is_cont b3 = true ->
  let c := (b0 - 240) * 262144 + (b1 - 128) * 4096 + (b2 - 128) * 64 + (b3 - 128) in
  utf8_encode c = [b0; b1; b2; b3] /\ c <= 1114111.
Proof.
  intros H0 H c. unfold in_range, is_cont in H0, H.
  assert (Hb : 128 <= b1 <= 191 /\ (b0 = 240 -> 144 <= b1) /\ (b0 = 244 -> b1 <= 143) /\
               128 <= b2 <= 191 /\ 128 <= b3 <= 191)
    by (destruct (N.eqb_spec b0 240); [|destruct (N.eqb_spec b0 244)]; lia).
  clear H. unfold utf8_encode.
  assert (c <? 128 = false) as -> by lia.
  assert (c <? 2048 = false) as -> by lia.
  assert (c <? 65536 = false) as -> by lia.
  split; [|lia].
  assert (c = (((b0 - 240) * 64 + (b1 - 128)) * 64 + (b2 - 128)) * 64 + (b3 - 128)) as -> by lia.
  change 262144 with (64 * 64 * 64). change 4096 with (64 * 64). rewrite <- !N.div_div by discriminate.
  rewrite !div64, !mod64 by lia. repeat f_equal; lia.
Qed.

Lemma option_map_cons_inv {A} (c : A) o cps : option_map (cons c) o = Some cps ->
  exists l, o = Some l /\ cps = c :: l.
Proof. destruct o as [l|]; [|discriminate]. intros H. injection H as <-. exists l. auto. Qed.

Lemma utf8_decode_step s cps : utf8_decode s = Some cps ->
  match cps with
  | [] => s = []
  | c :: cps' => exists t, s = utf8_encode c ++ t /\ utf8_decode t = Some cps' /\ c <= 1114111
  end.
Proof.
  destruct s as [|b0 t0]; cbn [utf8_decode]; intros H.
  { injection H as <-. reflexivity. }
  destruct (b0 <? 128) eqn:E0.
  { apply option_map_cons_inv in H as (l & E & ->). exists t0. unfold utf8_encode. rewrite E0.
    split; [reflexivity|]. split; [exact E|lia]. }
  destruct t0 as [|b1 t1]; [discriminate|].
  destruct (in_range 194 223 b0) eqn:E1.
  { destruct (is_cont b1) eqn:C; [|discriminate].
    apply option_map_cons_inv in H as (l & E & ->). exists t1.
    destruct (utf8_encode_2 b0 b1 E1 C) as [-> Hc]. auto. }
  destruct t1 as [|b2 t2]; [discriminate|].
  destruct (in_range 224 239 b0) eqn:E2.
  { match type of H with (if ?c then _ else _) = _ => destruct c eqn:C; [|discriminate] end.
    apply option_map_cons_inv in H as (l & E & ->). exists t2.
    destruct (utf8_encode_3 b0 b1 b2 E2 C) as [-> Hc]. auto. }
  destruct t2 as [|b3 t3]; [discriminate|].
  destruct (in_range 240 244 b0) eqn:E3; [|discriminate].
  match type of H with (if ?c then _ else _) = _ => destruct c eqn:C; [|discriminate] end.
  apply option_map_cons_inv in H as (l & E & ->). exists t3.
  destruct (utf8_encode_4 b0 b1 b2 b3 E3 C) as [-> Hc]. auto.
Qed.

Lemma utf8_decode_spec : forall cps s, utf8_decode s = Some cps ->
  flat_map utf8_encode cps = s /\ Forall (fun c => c <= 1114111) cps.
Proof.
  induction cps as [|c cps IH]; intros s H; apply utf8_decode_step in H.
  - subst s. split; [reflexivity|constructor].
  - destruct H as (t & -> & Ht & Hc). destruct (IH t Ht) as [IH1 IH2].
    cbn [flat_map]. rewrite IH1. split; [reflexivity|constructor; assumption].
Qed.

Theorem utf8_roundtrip : forall s cps, utf8_decode s = Some cps -> flat_map utf8_encode cps = s.
Proof. intros s cps H. exact (proj1 (utf8_decode_spec cps s H)). Qed.

Lemma un_nil_normal luau q : unescape_from luau q UNormal [] = Some [].
Proof. reflexivity. Qed.

Lemma un_normal_cons luau q c rest :
  unescape_from luau q UNormal (c :: rest) =
  if c =? 92 then unescape_from luau q UEsc rest
  else if (c =? q) || (c =? 10) || (c =? 13) then None
  else emit [c] (unescape_from luau q UNormal rest).
Proof. reflexivity. Qed.

Lemma un_normal_bs luau q rest :
  unescape_from luau q UNormal (92 :: rest) = unescape_from luau q UEsc rest.
Proof. reflexivity. Qed.

Lemma un_esc_simple luau q c v rest : simple_escape c = Some v ->
  unescape_from luau q UEsc (c :: rest) = emit [v] (unescape_from luau q UNormal rest).
Proof. intros H. cbn [unescape_from]. rewrite H. reflexivity. Qed.

Lemma un_dec_cons luau q v k c rest :
  unescape_from luau q (UDec v k) (c :: rest) =
  if is_digit c && Nat.ltb k 3 then unescape_from luau q (UDec (v * 10 + (c - 48)) (S k)) rest
  else if v <? 256 then emit [v] (unescape_from luau q UNormal (c :: rest)) else None.
Proof. reflexivity. Qed.

Lemma un_code_cons luau q v k c rest :
  unescape_from luau q (UCode v k) (c :: rest) =
  if is_hexdigit c then
    if v * 16 + unhexdigit c <=? 1114111
    then unescape_from luau q (UCode (v * 16 + unhexdigit c) (S k)) rest else None
  else if (c =? 125) && Nat.ltb 0 k then emit (utf8_encode v) (unescape_from luau q UNormal rest)
  else None.
Proof. reflexivity. Qed.

Lemma un_u_prefix q rest :
  unescape_from true q UNormal (92 :: 117 :: 123 :: rest) = unescape_from true q (UCode 0 0) rest.
Proof. reflexivity. Qed.

Lemma emit_some c r : emit c (Some r) = Some (c ++ r).
Proof. reflexivity. Qed.

Lemma simple_escape_digit x : is_digit x = true -> simple_escape x = None.
Proof.
  unfold is_digit. intros H.
  assert (E : forall n, n < 48 \/ 57 < n -> x =? n = false) by lia.
  unfold simple_escape. rewrite !E by lia. reflexivity.
Qed.

Lemma un_esc_digit luau q d rest : is_digit d = true ->
  unescape_from luau q UEsc (d :: rest) = unescape_from luau q (UDec (d - 48) 1) rest.
Proof.
  intros H. cbn [unescape_from]. rewrite (simple_escape_digit d H), H. reflexivity.
Qed.

Lemma un_dec_step luau q v k d rest : is_digit d = true -> (k < 3)%nat ->
  unescape_from luau q (UDec v k) (d :: rest) =
  unescape_from luau q (UDec (v * 10 + (d - 48)) (S k)) rest.
Proof.
  intros H Hk. rewrite un_dec_cons, H.
  assert (Nat.ltb k 3 = true) as -> by (apply Nat.ltb_lt; exact Hk). reflexivity.
Qed.

Lemma un_dec_stop luau q v k R : v < 256 -> (k = 3%nat \/ next_is_digit_b R = false) ->
  unescape_from luau q (UDec v k) R = emit [v] (unescape_from luau q UNormal R).
Proof.
  intros Hv Hk. assert (Hv' : v <? 256 = true) by lia. destruct R as [|d R].
  - cbn [unescape_from]. rewrite Hv'. reflexivity.
  - rewrite un_dec_cons, Hv'.
    assert (is_digit d && Nat.ltb k 3 = false) as ->; [|reflexivity].
    destruct Hk as [->|Hk].
    + apply andb_false_r.
    + cbn [next_is_digit_b] in Hk. rewrite Hk. reflexivity.
Qed.

Lemma digit_byte a : a < 10 -> is_digit (48 + a) = true /\ 48 + a - 48 = a.
Proof. unfold is_digit. lia. Qed.

Lemma dec1 luau q a R : a < 10 -> next_is_digit_b R = false ->
  unescape_from luau q UNormal (92 :: 48 + a :: R) = emit [a] (unescape_from luau q UNormal R).
Proof.
  intros Ha HR. destruct (digit_byte a Ha) as [Da Va].
  rewrite un_normal_bs, (un_esc_digit _ _ _ _ Da), Va.
  apply un_dec_stop; [lia | right; exact HR].
Qed.

Lemma dec2 luau q a b R v : a < 10 -> b < 10 -> v = a * 10 + b -> next_is_digit_b R = false ->
  unescape_from luau q UNormal (92 :: 48 + a :: 48 + b :: R) = emit [v] (unescape_from luau q UNormal R).
Proof.
  intros Ha Hb -> HR. destruct (digit_byte a Ha) as [Da Va]. destruct (digit_byte b Hb) as [Db Vb].
  rewrite un_normal_bs, (un_esc_digit _ _ _ _ Da), Va, (un_dec_step _ _ _ _ _ _ Db), Vb by lia.
  apply un_dec_stop; [lia | right; exact HR].
Qed.

Lemma dec3 luau q a b d R v : a < 10 -> b < 10 -> d < 10 -> v = (a * 10 + b) * 10 + d -> v < 256 ->
  unescape_from luau q UNormal (92 :: 48 + a :: 48 + b :: 48 + d :: R)
  = emit [v] (unescape_from luau q UNormal R).
Proof.
  intros Ha Hb Hd -> Hv. destruct (digit_byte a Ha) as [Da Va].
  destruct (digit_byte b Hb) as [Db Vb]. destruct (digit_byte d Hd) as [Dd Vd].
  rewrite un_normal_bs, (un_esc_digit _ _ _ _ Da), Va, (un_dec_step _ _ _ _ _ _ Db), Vb by lia.
  rewrite (un_dec_step _ _ _ _ _ _ Dd), Vd by lia.
  apply un_dec_stop; [exact Hv | left; reflexivity].
Qed.

Definition dec_spec (c : N) : bytes :=
  if c <? 10 then [48 + c]
  else if c <? 100 then [48 + c / 10; 48 + c mod 10]
  else [48 + c / 100; 48 + (c / 10) mod 10; 48 + c mod 10].

Lemma dec_digits_byte c : c < 256 -> dec_digits c = dec_spec c.
Proof.
  intros Hc. apply bytes_eqb_eq.
  apply (byte_sweep (fun c => bytes_eqb (dec_digits c) (dec_spec c))); [vm_compute; reflexivity | exact Hc].
Qed.

Lemma dec_escape_decode luau q c nd R :
  c < 256 -> (next_is_digit_b R = true -> nd = true) ->
  unescape_from luau q UNormal ((92 :: (if nd then pad3 (dec_digits c) else dec_digits c)) ++ R)
  = emit [c] (unescape_from luau q UNormal R).
Proof.
  intros Hc Hnd. rewrite (dec_digits_byte c Hc). unfold dec_spec.
  assert (HR : nd = false -> next_is_digit_b R = false).
  { intros ->. destruct (next_is_digit_b R); [discriminate (Hnd eq_refl) | reflexivity]. }
  destruct (c <? 10) eqn:E1; [|destruct (c <? 100) eqn:E2]; destruct nd; cbn [pad3 app].
  - apply (dec3 luau q 0 0 c); lia.
  - apply dec1; [lia | auto].
  - apply (dec3 luau q 0 (c / 10) (c mod 10)); lia.
  - apply dec2; [lia | lia | lia | auto].
  - apply dec3; lia.
  - apply dec3; lia.
Qed.

Lemma escape_cases c nd :
  (exists x, simple_escape x = Some c /\ escape c nd = [92; x]) \/
  escape c nd = 92 :: (if nd then pad3 (dec_digits c) else dec_digits c).
Proof.
  unfold escape.
  destruct (N.eqb_spec c 10) as [->|_]; [left; now exists 110|].
  destruct (N.eqb_spec c 9) as [->|_]; [left; now exists 116|].
  destruct (N.eqb_spec c 92) as [->|_]; [left; now exists 92|].
  destruct (N.eqb_spec c 13) as [->|_]; [left; now exists 114|].
  destruct (N.eqb_spec c 7) as [->|_]; [left; now exists 97|].
  destruct (N.eqb_spec c 8) as [->|_]; [left; now exists 98|].
  destruct (N.eqb_spec c 11) as [->|_]; [left; now exists 118|].
  destruct (N.eqb_spec c 12) as [->|_]; [left; now exists 102|].
  right; reflexivity.
Qed.

Lemma escape_hd c nd : exists tl, escape c nd = 92 :: tl.
Proof. destruct (escape_cases c nd) as [(x & _ & ->)| ->]; eexists; reflexivity. Qed.

Lemma escape_decode luau q c nd R :
  c < 256 -> (next_is_digit_b R = true -> nd = true) ->
  unescape_from luau q UNormal (escape c nd ++ R) = emit [c] (unescape_from luau q UNormal R).
Proof.
  intros Hc Hnd. destruct (escape_cases c nd) as [(x & Hx & ->)| ->].
  - cbn [app]. rewrite un_normal_bs. apply un_esc_simple, Hx.
  - apply dec_escape_decode; assumption.
Qed.

Lemma hex_digits_fuel_S f n acc :
  hex_digits_fuel (S f) n acc =
  if n <? 16 then hexdigit n :: acc else hex_digits_fuel f (n / 16) (hexdigit (n mod 16) :: acc).
Proof. reflexivity. Qed.

Lemma hex_digits_fuel_app f n acc : hex_digits_fuel f n acc = hex_digits_fuel f n [] ++ acc.
Proof.
  revert n acc; induction f as [|f IH]; intros n acc; [reflexivity|].
  rewrite !hex_digits_fuel_S. destruct (n <? 16); [reflexivity|].
  rewrite IH. rewrite (IH _ [_]). rewrite <- app_assoc. reflexivity.
Qed.

Lemma hexdigit_ok n : n < 16 -> is_hexdigit (hexdigit n) = true /\ unhexdigit (hexdigit n) = n.
Proof.
  intros Hn.
  pose (P := fun n => negb (n <? 16) || (is_hexdigit (hexdigit n) && (unhexdigit (hexdigit n) =? n))).
  assert (H : P n = true) by (apply byte_sweep; [vm_compute; reflexivity | lia]).
  unfold P in H; clear P. assert (n <? 16 = true) as E by lia. rewrite E in H. cbn [negb orb] in H.
  apply andb_true_iff in H as [H1 H2]. apply N.eqb_eq in H2. split; assumption.
Qed.

Lemma fuel_ok n : n < 2 ^ N.of_nat (S (N.to_nat (N.log2 n))).
Proof.
  rewrite Nat2N.inj_succ, N2Nat.id. destruct (N.eq_dec n 0) as [->|Hn].
  - reflexivity.
  - apply N.log2_spec. lia.
Qed.

(** The hexadecimal text follows the number: one digit below 16, or the text of [n / 16]
    followed by the digit [n mod 16]; the accumulator and the fuel of [hex_digits] end here. *)
Lemma hex_digits_ind (P : N -> bytes -> Prop) :
  (forall n, n < 16 -> P n [hexdigit n]) ->
  (forall n l, 16 <= n -> P (n / 16) l -> P n (l ++ [hexdigit (n mod 16)])) ->
  forall n, P n (hex_digits n).
Proof.
  intros Hone Hsnoc.
  assert (Hfuel : forall f n, n < 2 ^ N.of_nat (S f) -> P n (hex_digits_fuel (S f) n [])).
  { induction f as [|f IH]; intros n Hn; rewrite hex_digits_fuel_S;
      destruct (N.ltb_spec n 16) as [Hlt|Hge].
    - apply Hone, Hlt.
    - change (2 ^ N.of_nat 1) with 2 in Hn. lia.
    - apply Hone, Hlt.
    - rewrite hex_digits_fuel_app. apply Hsnoc; [exact Hge|]. apply IH.
      rewrite Nat2N.inj_succ, N.pow_succ_r' in Hn. remember (2 ^ N.of_nat (S f)) as p. lia. }
  intros n. apply Hfuel, fuel_ok.
Qed.

Lemma ucode_hex_digits luau q n : n <= 1114111 ->
  (0 < List.length (hex_digits n))%nat /\
  forall k R, unescape_from luau q (UCode 0 k) (hex_digits n ++ R)
              = unescape_from luau q (UCode n (k + List.length (hex_digits n))) R.
Proof.
  revert n. apply (hex_digits_ind (fun n l => n <= 1114111 ->
    (0 < List.length l)%nat /\
    forall k R, unescape_from luau q (UCode 0 k) (l ++ R)
                = unescape_from luau q (UCode n (k + List.length l)) R)).
  - intros n Hn Hmax. split; [cbn [List.length]; lia|]. intros k R.
    destruct (hexdigit_ok n Hn) as [A B].
    cbn [app List.length]. rewrite un_code_cons, A, B.
    assert (0 * 16 + n <=? 1114111 = true) as -> by lia.
    rewrite Nat.add_1_r. reflexivity.
  - intros n l Hge IH Hmax. destruct IH as [_ IH]; [lia|].
    split; [rewrite app_length; cbn [List.length]; lia|]. intros k R.
    destruct (hexdigit_ok (n mod 16)) as [A B]; [lia|].
    rewrite <- app_assoc, IH. cbn [app]. rewrite un_code_cons, A, B.
    assert (n / 16 * 16 + n mod 16 = n) as -> by lia.
    assert (n <=? 1114111 = true) as -> by lia.
    rewrite app_length, Nat.add_assoc. cbn [List.length]. rewrite Nat.add_1_r. reflexivity.
Qed.

Lemma un_code_close luau q v k R : (0 < k)%nat ->
  unescape_from luau q (UCode v k) (125 :: R) = emit (utf8_encode v) (unescape_from luau q UNormal R).
Proof. intros Hk. destruct k; [lia|]. reflexivity. Qed.

Lemma u_escape_decode q c R : c <= 1114111 ->
  unescape_from true q UNormal (92 :: 117 :: 123 :: hex_digits c ++ 125 :: R)
  = emit (utf8_encode c) (unescape_from true q UNormal R).
Proof.
  intros Hc. destruct (ucode_hex_digits true q c Hc) as [Hlen Hread].
  rewrite un_u_prefix, Hread. apply un_code_close. lia.
Qed.

Lemma simple_escape_quote q : q = 39 \/ q = 34 -> simple_escape q = Some q.
Proof. intros [->| ->]; reflexivity. Qed.

Lemma needs_escaping_false c : needs_escaping c = false ->
  c <> 92 /\ c <> 10 /\ c <> 13 /\ c < 128.
Proof. unfold needs_escaping, is_graphic. intros H. lia. Qed.

Lemma raw_decode luau q c R : c <> q -> needs_escaping c = false ->
  unescape_from luau q UNormal (c :: R) = emit [c] (unescape_from luau q UNormal R).
Proof.
  intros Hq Hn. apply needs_escaping_false in Hn. rewrite un_normal_cons.
  assert (c =? 92 = false) as -> by lia.
  assert ((c =? q) || (c =? 10) || (c =? 13) = false) as -> by lia.
  reflexivity.
Qed.

Lemma quote_decode luau q R : q = 39 \/ q = 34 ->
  unescape_from luau q UNormal (92 :: q :: R) = emit [q] (unescape_from luau q UNormal R).
Proof. intros Hq. rewrite un_normal_bs. apply un_esc_simple, simple_escape_quote, Hq. Qed.

(** the look-ahead of a decimal escape sees a digit in the written text only when the next
    byte of the value is that digit: every other piece starts with a backslash *)
Lemma quote_bytes_next_digit q rest :
  next_is_digit_b (quote_bytes q rest) = true -> next_is_digit_b rest = true.
Proof.
  destruct rest as [|n rest]; [intros H; exact H|]. cbn [quote_bytes].
  destruct (n =? q) eqn:E1.
  { discriminate. }
  destruct (needs_escaping n) eqn:E2.
  { destruct (escape_hd n (next_is_digit_b rest)) as [tl ->]. discriminate. }
  cbn [app next_is_digit_b]. intros H; exact H.
Qed.

Lemma quote_bytes_decode luau q s : q = 39 \/ q = 34 -> wf_bytes s = true ->
  unescape_from luau q UNormal (quote_bytes q s) = Some s.
Proof.
  intros Hq. induction s as [|c rest IH]; intros Hwf; [reflexivity|].
  apply wf_cons in Hwf as [Hc Hwf]. specialize (IH Hwf). cbn [quote_bytes].
  destruct (c =? q) eqn:E1.
  { apply N.eqb_eq in E1; subst c. cbn [app]. rewrite quote_decode, IH by exact Hq. reflexivity. }
  destruct (needs_escaping c) eqn:E2.
  { rewrite escape_decode, IH; [reflexivity | exact Hc | apply quote_bytes_next_digit]. }
  cbn [app]. rewrite raw_decode, IH; [reflexivity | lia | exact E2].
Qed.

Lemma quote_chars_next_digit q rest :
  next_is_digit_b (quote_chars q rest) = true -> next_is_digit_c rest = true.
Proof.
  destruct rest as [|n rest]; [intros H; exact H|]. cbn [quote_chars].
  destruct (n =? q) eqn:E1.
  { discriminate. }
  destruct ((128 <=? n) || needs_escaping n) eqn:E2.
  { destruct (n <? 128) eqn:E3.
    - destruct (escape_hd n (next_is_digit_c rest)) as [tl ->]. discriminate.
    - discriminate. }
  cbn [app next_is_digit_b next_is_digit_c]. intros H.
  rewrite N.mod_small by lia. exact H.
Qed.

Lemma quote_chars_decode q cps : q = 39 \/ q = 34 -> Forall (fun c => c <= 1114111) cps ->
  unescape_from true q UNormal (quote_chars q cps) = Some (flat_map utf8_encode cps).
Proof.
  intros Hq. induction cps as [|c rest IH]; intros Hb; [reflexivity|].
  inversion Hb as [|? ? Hc Hb']; subst. specialize (IH Hb'). cbn [quote_chars flat_map].
  destruct (c =? q) eqn:E1.
  { apply N.eqb_eq in E1; subst c. cbn [app]. rewrite quote_decode, IH by exact Hq.
    unfold utf8_encode. assert (q <? 128 = true) as -> by lia. reflexivity. }
  destruct ((128 <=? c) || needs_escaping c) eqn:E2.
  { destruct (c <? 128) eqn:E3.
    - rewrite escape_decode, IH; [| lia | apply quote_chars_next_digit].
      unfold utf8_encode. rewrite E3. reflexivity.
    - rewrite <- !app_assoc. cbn [app]. rewrite u_escape_decode, IH by exact Hc. reflexivity. }
  apply orb_false_iff in E2 as [E2 E3].
  cbn [app]. rewrite raw_decode, IH; [| lia | exact E3].
  unfold utf8_encode. assert (c <? 128 = true) as -> by lia. reflexivity.
Qed.

Lemma quote_chars_ascii q s : forallb (fun c => c <? 128) s = true -> quote_chars q s = quote_bytes q s.
Proof.
  induction s as [|c rest IH]; intros H; [reflexivity|].
  cbn [forallb] in H. apply andb_true_iff in H as [Hc H]. cbn [quote_chars quote_bytes].
  rewrite (IH H), Hc.
  assert (128 <=? c = false) as -> by lia. cbn [orb].
  assert (next_is_digit_c rest = next_is_digit_b rest) as ->; [|reflexivity].
  destruct rest as [|n rest]; [reflexivity|]. cbn [next_is_digit_c next_is_digit_b].
  cbn [forallb] in H. apply andb_true_iff in H as [Hn _]. rewrite N.mod_small by lia. reflexivity.
Qed.

Lemma utf8_decode_ascii s : forallb (fun c => c <? 128) s = true -> utf8_decode s = Some s.
Proof.
  induction s as [|c rest IH]; intros H; [reflexivity|].
  cbn [forallb] in H. apply andb_true_iff in H as [Hc H]. cbn [utf8_decode].
  rewrite Hc, (IH H). reflexivity.
Qed.

Lemma decode_quoted_wrap luau q body : q = 39 \/ q = 34 ->
  decode_quoted luau (q :: body ++ [q]) = unescape luau q body.
Proof.
  intros Hq. unfold decode_quoted.
  assert ((q =? 34) || (q =? 39) = true) as -> by lia.
  rewrite rev_unit, N.eqb_refl, rev_involutive. reflexivity.
Qed.

(** Either set of escape rules reads the literal back, provided Lua 5.1 is not asked to read a
    [\u{...}] escape: those are written only for a value that is valid UTF-8 and not pure ASCII. *)
Theorem quoted_roundtrip luau s : wf_bytes s = true ->
  (luau = true \/ utf8_decode s = None \/ forallb (fun c => c <? 128) s = true) ->
  decode_quoted luau (write_quoted s) = Some s.
Proof.
  intros Hwf H. unfold write_quoted. cbv zeta.
  pose proof (quote_symbol_is_quote s) as Hq.
  rewrite decode_quoted_wrap by exact Hq. unfold unescape, quoted_body. cbv zeta.
  destruct H as [->|[H|H]].
  - destruct (utf8_decode s) as [cps|] eqn:E; [|apply quote_bytes_decode; assumption].
    destruct (utf8_decode_spec cps s E) as [R B].
    rewrite quote_chars_decode, R by assumption. reflexivity.
  - rewrite H. apply quote_bytes_decode; assumption.
  - rewrite (utf8_decode_ascii s H), (quote_chars_ascii _ s H).
    apply quote_bytes_decode; assumption.
Qed.

Theorem quoted_roundtrip_luau : forall s, wf_bytes s = true -> decode_quoted true (write_quoted s) = Some s.
Proof. intros s Hwf. apply quoted_roundtrip; [exact Hwf|left; reflexivity]. Qed.

Theorem quoted_roundtrip_51 : forall s, wf_bytes s = true ->
  (utf8_decode s = None \/ forallb (fun c => c <? 128) s = true) ->
  decode_quoted false (write_quoted s) = Some s.
Proof. intros s Hwf H. apply quoted_roundtrip; [exact Hwf|right; exact H]. Qed.

Lemma find_sub_unfold p s :
  find_sub p s = prefix_b p s || match s with [] => false | _ :: s' => find_sub p s' end.
Proof. destruct s; reflexivity. Qed.

Lemma suffix_b_unfold p s :
  suffix_b p s = bytes_eqb p s || match s with [] => false | _ :: s' => suffix_b p s' end.
Proof. destruct s; reflexivity. Qed.

Lemma take_until_closer_unfold cl s :
  take_until_closer cl s =
  if prefix_b cl s then Some ([], skipn (List.length cl) s)
  else match s with
       | [] => None
       | c :: s' => match take_until_closer cl s' with
                    | Some (a, b) => Some (c :: a, b)
                    | None => None
                    end
       end.
Proof. destruct s; reflexivity. Qed.

Lemma suffix_b_len p s : suffix_b p s = true -> (List.length p <= List.length s)%nat.
Proof.
  induction s as [|y s IH]; rewrite suffix_b_unfold; intros H; apply orb_true_iff in H as [H|H];
    try (apply bytes_eqb_eq in H; subst; lia).
  - discriminate.
  - apply IH in H. cbn [List.length]. lia.
Qed.

Lemma find_sub_app p a b : prefix_b p b = true -> find_sub p (a ++ b) = true.
Proof.
  intros H. induction a as [|x a IH]; rewrite find_sub_unfold; cbn [app].
  - rewrite H. reflexivity.
  - rewrite IH. apply orb_true_r.
Qed.

Lemma suffix_b_app p a : suffix_b p (a ++ p) = true.
Proof.
  induction a as [|x a IH]; rewrite suffix_b_unfold; cbn [app].
  - rewrite bytes_eqb_refl. reflexivity.
  - rewrite IH. apply orb_true_r.
Qed.

Lemma closer_len i : List.length (closer i) = (i + 2)%nat.
Proof. unfold closer. cbn [List.length]. rewrite app_length, repeat_length. cbn [List.length]. lia. Qed.

Lemma half_closer_len i : List.length (half_closer i) = (i + 1)%nat.
Proof. unfold half_closer. cbn [List.length]. rewrite repeat_length. lia. Qed.

(** a level above the length of the text leaves no room for an occurrence, so the search ends
    before its fuel does *)
Lemma find_level_exit : forall f s i, (List.length s < i + f)%nat ->
  let j := find_level f s i in
  find_sub (closer j) s = false /\ suffix_b (half_closer j) s = false.
Proof.
  induction f as [|f IH]; intros s i Hlen; cbn [find_level].
  - cbv zeta. split.
    + destruct (find_sub (closer i) s) eqn:E; [|reflexivity].
      apply find_sub_length in E. rewrite closer_len in E. lia.
    + destruct (suffix_b (half_closer i) s) eqn:E; [|reflexivity].
      apply suffix_b_len in E. rewrite half_closer_len in E. lia.
  - destruct (find_sub (closer i) s || suffix_b (half_closer i) s) eqn:E.
    + apply IH. lia.
    + cbv zeta. apply orb_false_iff in E. exact E.
Qed.

Lemma long_bracket_level_exit s :
  let j := long_bracket_level s in
  find_sub (closer j) s = false /\ suffix_b (half_closer j) s = false.
Proof. unfold long_bracket_level. apply find_level_exit. destruct (ends_with_b s 93); lia. Qed.

(** matching "="^j "]" against [b' ++ "]" ...]: the match lies inside [b'], or [b'] is "="^j *)
Lemma eqs_match j : forall b' T,
  prefix_b (repeat 61 j ++ [93]) (b' ++ 93 :: T) = true ->
  prefix_b (repeat 61 j ++ [93]) b' = true \/ b' = repeat 61 j.
Proof.
  induction j as [|j IH]; intros b' T H; cbn [repeat app] in *.
  - destruct b' as [|x b']; [right; reflexivity|]. left. cbn [app prefix_b] in *. exact H.
  - destruct b' as [|x b']; cbn [app prefix_b] in H.
    + apply andb_true_iff in H as [H _]. vm_compute in H. discriminate H.
    + apply andb_true_iff in H as [H1 H2]. apply N.eqb_eq in H1. subst x.
      destruct (IH _ _ H2) as [H|H].
      * left. cbn [prefix_b]. rewrite H. reflexivity.
      * right. rewrite H. reflexivity.
Qed.

Lemma no_early_closer i s : find_sub (closer i) s = false -> suffix_b (half_closer i) s = false ->
  forall a b, s = a ++ b -> b <> [] -> prefix_b (closer i) (b ++ closer i) = false.
Proof.
  intros H1 H2 a b -> Hb.
  destruct (prefix_b (closer i) (b ++ closer i)) eqn:E; [exfalso|reflexivity].
  destruct b as [|x b']; [congruence|].
  unfold closer in E at 1 2. cbn [app prefix_b] in E.
  apply andb_true_iff in E as [Ex E]. apply N.eqb_eq in Ex. subst x.
  apply eqs_match in E as [E|E].
  - rewrite find_sub_app in H1; [discriminate|].
    unfold closer. cbn [prefix_b]. rewrite E. reflexivity.
  - subst b'. change (93 :: repeat 61 i) with (half_closer i) in H2.
    rewrite suffix_b_app in H2. discriminate.
Qed.

Lemma take_until_closer_exact cl : forall s,
  (forall a b, s = a ++ b -> b <> [] -> prefix_b cl (b ++ cl) = false) ->
  take_until_closer cl (s ++ cl) = Some (s, []).
Proof.
  induction s as [|c s IH]; intros H; rewrite take_until_closer_unfold; cbn [app].
  - pose proof (prefix_b_app cl []) as Hp. rewrite app_nil_r in Hp.
    rewrite Hp, skipn_all. reflexivity.
  - change (c :: s ++ cl) with ((c :: s) ++ cl). rewrite (H [] (c :: s)) by (reflexivity || discriminate).
    cbn [app]. rewrite IH; [reflexivity|].
    intros a b -> Hb. apply (H (c :: a) b); [reflexivity | exact Hb].
Qed.

Definition strip_nl (t2 : bytes) : bytes :=
  match t2 with
  | 13 :: 10 :: t' => t'
  | 10 :: 13 :: t' => t'
  | 10 :: t' => t'
  | 13 :: t' => t'
  | _ => t2
  end.

Lemma decode_long_eq t :
  decode_long (91 :: t) =
  let '(n, t1) := strip_eqs t 0 in
  match t1 with
  | 91 :: t2 => take_until_closer (closer n) (strip_nl t2)
  | _ => None
  end.
Proof. reflexivity. Qed.

Lemma strip_eqs_repeat i : forall n X, strip_eqs (repeat 61 i ++ 91 :: X) n = ((n + i)%nat, 91 :: X).
Proof.
  induction i as [|i IH]; intros n X; cbn [repeat app].
  - rewrite Nat.add_0_r. reflexivity.
  - change (strip_eqs (61 :: repeat 61 i ++ 91 :: X) n) with (strip_eqs (repeat 61 i ++ 91 :: X) (S n)).
    rewrite IH. f_equal. lia.
Qed.

Lemma strip_nl_other c t : c <> 10 -> c <> 13 -> strip_nl (c :: t) = c :: t.
Proof.
  intros H10 H13. unfold strip_nl. destruct c as [|p]; [reflexivity|].
  repeat (destruct p as [p|p|]; try reflexivity); congruence.
Qed.

Lemma no_quoted_no_cr : forall s, existsb needs_quoted_string s = false -> existsb (N.eqb 13) s = false.
Proof.
  induction s as [|c r IH]; intros H; [reflexivity|].
  cbn [existsb] in *. apply orb_false_iff in H as [Hc Hr].
  rewrite (IH Hr), orb_false_r.
  destruct (13 =? c) eqn:E; [|reflexivity].
  apply N.eqb_eq in E. subst c. discriminate.
Qed.

(** the line feed the writer adds after the opening bracket of a value that starts with one is
    the one line break the reader drops there; without carriage returns nothing else goes *)
Lemma strip_nl_written s i : existsb (N.eqb 13) s = false ->
  strip_nl (match s with 10 :: _ => [10] | _ => [] end ++ s ++ closer i) = s ++ closer i.
Proof.
  destruct s as [|c s']; [reflexivity|]. cbn [existsb]. intros H.
  apply orb_false_iff in H as [Hc _]. apply N.eqb_neq in Hc.
  destruct (N.eq_dec c 10) as [->|H10]; [reflexivity|].
  assert (match c :: s' with 10 :: _ => [10] | _ => [] end = []) as ->.
  { destruct c as [|p]; [reflexivity|].
    repeat (destruct p as [p|p|]; try reflexivity); congruence. }
  apply strip_nl_other; congruence.
Qed.

Theorem long_roundtrip : forall s t, wf_bytes s = true -> existsb needs_quoted_string s = false ->
  write_long_bracket s = Some t -> decode_long t = Some (s, []).
Proof.
  intros s t Hwf Hnq H. unfold write_long_bracket in H.
  destruct (utf8_decode s) as [cps|]; [|discriminate]. cbv zeta in H. injection H as <-.
  set (i := long_bracket_level s).
  pose proof (long_bracket_level_exit s) as [L1 L2]. fold i in L1, L2.
  cbn [app]. rewrite decode_long_eq, strip_eqs_repeat. cbn [Nat.add].
  change (93 :: repeat 61 i ++ [93]) with (closer i).
  rewrite strip_nl_written by apply no_quoted_no_cr, Hnq.
  apply take_until_closer_exact. apply (no_early_closer i s L1 L2).
Qed.

Lemma decode_literal_quoted luau s :
  decode_literal luau (write_quoted s) = decode_quoted luau (write_quoted s).
Proof.
  unfold write_quoted. cbv zeta. destruct (quote_symbol_is_quote s) as [-> | ->]; reflexivity.
Qed.

Lemma norm_newlines_id luau : forall s,
  existsb (N.eqb 13) s = false -> norm_newlines luau s = s.
Proof.
  induction s as [|c r IH]; intros H; [reflexivity|].
  cbn [existsb] in H. apply orb_false_iff in H as [Hc Hr].
  cbn [norm_newlines].
  assert (Hc' : (c =? 13) = false) by (rewrite N.eqb_sym; exact Hc).
  rewrite Hc'.
  destruct (c =? 10) eqn:E10.
  - apply N.eqb_eq in E10. subst c.
    destruct r as [|d r']; [reflexivity|].
    cbn [existsb] in Hr. apply orb_false_iff in Hr as [Hd Hr'].
    assert (Hd13 : d <> 13) by (intros ->; discriminate).
    rewrite (IH (proj2 (orb_false_iff _ _) (conj Hd Hr'))).
    destruct d as [|p]; [reflexivity|].
    do 4 (destruct p as [p|p|]; try reflexivity); exfalso; apply Hd13; reflexivity.
  - rewrite (IH Hr). reflexivity.
Qed.

(** a single byte is never written as a [\u{...}] escape, so both sets of rules read it back *)
Lemma write_string_single luau c : c < 256 -> decode_literal luau (write_string [c]) = Some [c].
Proof.
  intros Hc.
  pose (P := fun c => match decode_literal luau (write_string [c]) with
                      | Some r => bytes_eqb r [c]
                      | None => false
                      end).
  assert (H : P c = true)
    by (apply byte_sweep; [destruct luau; vm_compute; reflexivity | exact Hc]).
  unfold P in H; clear P.
  destruct (decode_literal luau (write_string [c])) as [r|]; [|discriminate].
  apply bytes_eqb_eq in H. rewrite H. reflexivity.
Qed.

(** Whatever form [write_string] picks, either set of escape rules reads the literal back, under
    the one proviso of [quoted_roundtrip]: long brackets hold no escapes at all. *)
Theorem write_string_roundtrip_any luau s : wf_bytes s = true ->
  (luau = true \/ utf8_decode s = None \/ forallb (fun c => c <? 128) s = true) ->
  decode_literal luau (write_string s) = Some s.
Proof.
  intros Hwf Hl.
  assert (HQ : decode_literal luau (write_quoted s) = Some s).
  { rewrite decode_literal_quoted. apply quoted_roundtrip; assumption. }
  destruct s as [|c1 [|c2 s']].
  - reflexivity.
  - apply wf_cons in Hwf as [Hc _]. apply write_string_single, Hc.
  - cbn [write_string]. remember (c1 :: c2 :: s') as s eqn:Es.
    match goal with |- context [if ?c then _ else _] => destruct c eqn:C end; [|exact HQ].
    destruct (write_long_bracket s) as [t|] eqn:W; [|exact HQ].
    apply andb_true_iff in C as [C _]. apply andb_true_iff in C as [C _].
    apply negb_true_iff in C.
    pose proof (long_roundtrip s t Hwf C W) as D.
    assert (exists t', t = 91 :: t') as [t' ->].
    { unfold write_long_bracket in W. destruct (utf8_decode s); [|discriminate].
      cbv zeta in W. injection W as <-. eexists; reflexivity. }
    cbn [decode_literal]. rewrite D.
    rewrite (norm_newlines_id luau s (no_quoted_no_cr s C)). reflexivity.
Qed.

Theorem write_string_roundtrip : forall s, wf_bytes s = true -> decode_literal true (write_string s) = Some s.
Proof. intros s Hwf. apply write_string_roundtrip_any; [exact Hwf|left; reflexivity]. Qed.
