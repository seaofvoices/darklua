(** Bundler model (Model/Bundle.v): list facts, termination on [enough_fuel], fuel monotonicity. *)
From Coq Require Import NArith Arith PeanoNat List Bool Lia.
From DL Require Import Lib.Bytes Model.Rename Model.Bundle Proof.BundleSpec.
From DL Require Import Proof.ListFacts.
Import ListNotations.
Open Scope N_scope.

Lemma nth_error_app_some {A} (l m : list A) k x :
  nth_error l k = Some x -> nth_error (l ++ m) k = Some x.
Proof.
  intros H. rewrite nth_error_app1; [exact H|]. apply nth_error_Some. congruence.
Qed.

Lemma nth_error_snoc_len {A} (l : list A) x : nth_error (l ++ [x]) (List.length l) = Some x.
Proof. rewrite nth_error_app2 by lia. now rewrite Nat.sub_diag. Qed.

Lemma nth_error_snoc_inv {A} (l : list A) x k y :
  nth_error (l ++ [x]) k = Some y ->
  nth_error l k = Some y \/ (k = List.length l /\ y = x).
Proof.
  intros H. destruct (Nat.lt_ge_cases k (List.length l)) as [L|L].
  - left. now rewrite nth_error_app1 in H.
  - right. rewrite nth_error_app2 in H by exact L.
    destruct (k - List.length l)%nat as [|d] eqn:E.
    + cbn in H. split; [lia|congruence].
    + cbn in H. destruct d; discriminate.
Qed.

Lemma nth_error_map_fst {A B} (l : list (A * B)) k a b :
  nth_error l k = Some (a, b) -> nth_error (map fst l) k = Some a.
Proof. intros H. now rewrite (map_nth_error fst _ _ H). Qed.

Lemma nth_error_map_fst_inv {A B} (l : list (A * B)) k a :
  nth_error (map fst l) k = Some a -> exists b, nth_error l k = Some (a, b).
Proof.
  rewrite nth_error_map. destruct (nth_error l k) as [[a' b]|]; [|discriminate].
  intros [= ->]. now exists b.
Qed.

Lemma nth_error_NoDup_inj {A} (l : list A) i j x :
  NoDup l -> nth_error l i = Some x -> nth_error l j = Some x -> i = j.
Proof.
  intros ND Hi Hj. apply (proj1 (NoDup_nth_error l) ND); [|congruence].
  apply nth_error_Some. congruence.
Qed.

Lemma firstn_In {A} (x : A) n l : In x (firstn n l) -> In x l.
Proof.
  revert l; induction n as [|n IH]; intros [|y l] H; cbn in *; try contradiction.
  destruct H as [H|H]; [now left|right; now apply IH].
Qed.

Lemma firstn_NoDup {A} n (l : list A) : NoDup l -> NoDup (firstn n l).
Proof.
  revert l; induction n as [|n IH]; intros [|y l] H; cbn; try constructor.
  - inversion H; subst. intros C. apply firstn_In in C. contradiction.
  - inversion H; subst. now apply IH.
Qed.

Lemma Forall2_weaken {A B} (R1 R2 : A -> B -> Prop) l1 l2 :
  (forall a b, R1 a b -> R2 a b) -> Forall2 R1 l1 l2 -> Forall2 R2 l1 l2.
Proof. intros I; induction 1; constructor; auto. Qed.

Lemma index_of_none f l : index_of f l = None <-> ~ In f l.
Proof.
  induction l as [|x l IH]; cbn [index_of In]; [tauto|].
  destruct (N.eqb_spec x f) as [E|NE]; [intuition discriminate|].
  destruct (index_of f l) as [i|]; [|tauto].
  split; [discriminate|]. intros H. assert (C : Some i = None) by (apply IH; tauto). discriminate.
Qed.

Lemma index_of_some f l i :
  index_of f l = Some i -> (i < List.length l)%nat /\ exists tl, skipn i l = f :: tl.
Proof.
  revert i; induction l as [|x l IH]; intros i H; cbn [index_of] in H; [discriminate|].
  destruct (N.eqb_spec x f) as [E|NE].
  - injection H as <-. subst x. cbn. split; [lia|now exists l].
  - destruct (index_of f l) as [j|]; [|discriminate]. injection H as <-.
    destruct (IH j eq_refl) as [L [tl E]]. cbn. split; [lia|now exists tl].
Qed.

Lemma memf_true f l : memf f l = true -> l <> [].
Proof. destruct l; discriminate. Qed.

Lemma lookup_In g f k : lookup g f = Some k -> In (f, k) g.
Proof.
  induction g as [|[f' k'] g IH]; cbn [lookup In]; [discriminate|].
  destruct (N.eqb_spec f' f) as [->|NE]; [intros [= ->]; now left|]. intros H. right. now apply IH.
Qed.

Lemma lookup_files_of g f k : lookup g f = Some k -> In f (files_of g).
Proof. intros H. apply lookup_In in H. exact (in_map fst _ _ H). Qed.

Lemma inline_S g fuel' stack f s :
  inline g (S fuel') stack f s =
    match cache_get (cache s) f with
    | Some k => Some (s, inl k)
    | None =>
      match index_of f stack with
      | Some i => Some (s, inr (ECyclic (skipn i stack ++ [f])))
      | None =>
        match lookup g f with
        | None | Some KBroken => Some (s, inr (EResource f))
        | Some KData => let '(s', k) := define f [] s in Some (s', inl k)
        | Some (KLua reqs returns) =>
          match visit (try_inline (inline g fuel' (stack ++ [f]))) reqs s with
          | None => None
          | Some (s', sites) =>
            match returns with
            | Some 1%nat => let '(s'', k) := define f sites s' in Some (s'', inl k)
            | _ => Some (s', inr (EModule f))
            end
          end
        end
      end
    end.
Proof. reflexivity. Qed.

Lemma visit_total rec : (forall r s, rec r s <> None) -> forall rs s, visit rec rs s <> None.
Proof.
  intros T rs; induction rs as [|r rs IH]; intros s; cbn [visit]; [discriminate|].
  destruct (rec r s) as [[s1 x]|] eqn:E; [|now apply T in E].
  destruct (visit rec rs s1) as [[s2 xs]|] eqn:E2; [discriminate|now apply IH in E2].
Qed.

Lemma try_inline_total irec :
  (forall f s, irec f s <> None) -> forall r s, try_inline irec r s <> None.
Proof.
  intros T [f|lit] s; cbn [try_inline]; [|discriminate].
  destruct (memf f (skip s)); [discriminate|].
  destruct (irec f s) as [[s' [k|e]]|] eqn:E; try discriminate. now apply T in E.
Qed.

Lemma inline_total g : forall fuel stack f s,
  NoDup stack -> incl stack (files_of g) -> (List.length g < fuel + List.length stack)%nat ->
  inline g fuel stack f s <> None.
Proof.
  induction fuel as [|fuel IH]; intros stack f s ND INC L.
  - exfalso. pose proof (NoDup_incl_length ND INC) as B. unfold files_of in B.
    rewrite map_length in B. lia.
  - rewrite inline_S.
    destruct (cache_get (cache s) f); [discriminate|].
    destruct (index_of f stack) eqn:Ei; [discriminate|].
    destruct (lookup g f) as [[reqs ret| |]|] eqn:El; try discriminate.
    assert (NI : ~ In f stack) by now apply index_of_none.
    assert (ND' : NoDup (stack ++ [f])) by now apply NoDup_snoc.
    assert (INC' : incl (stack ++ [f]) (files_of g)).
    { intros x Hx. apply in_app_or in Hx as [Hx|[<-|[]]]; [now apply INC|].
      eapply lookup_files_of; exact El. }
    assert (L' : (List.length g < fuel + List.length (stack ++ [f]))%nat).
    { rewrite app_length. cbn. lia. }
    destruct (visit (try_inline (inline g fuel (stack ++ [f]))) reqs s) as [[s' sites]|] eqn:Ev.
    + destruct ret as [[|[|n]]|]; discriminate.
    + exfalso. revert Ev. apply visit_total. apply try_inline_total.
      intros f0 s0. now apply IH.
Qed.

Lemma run_entry_total g roots : run_entry g (enough_fuel g) roots <> None.
Proof.
  unfold run_entry. apply visit_total. apply try_inline_total. intros f s.
  apply inline_total; [constructor|intros x []|]. unfold enough_fuel. cbn. lia.
Qed.

Lemma visit_mono (rec rec' : req -> state -> option (state * site)) :
  (forall r s x, rec r s = Some x -> rec' r s = Some x) ->
  forall rs s x, visit rec rs s = Some x -> visit rec' rs s = Some x.
Proof.
  intros M rs; induction rs as [|r rs IH]; intros s x H; cbn [visit] in *; [exact H|].
  destruct (rec r s) as [[s1 y]|] eqn:E; [|discriminate]. rewrite (M _ _ _ E).
  destruct (visit rec rs s1) as [[s2 ys]|] eqn:E2; [|discriminate]. now rewrite (IH _ _ E2).
Qed.

Lemma try_inline_mono (i i' : file -> state -> option (state * inlined)) :
  (forall f s x, i f s = Some x -> i' f s = Some x) ->
  forall r s x, try_inline i r s = Some x -> try_inline i' r s = Some x.
Proof.
  intros M [f|lit] s x H; cbn [try_inline] in *; [|exact H].
  destruct (memf f (skip s)); [exact H|].
  destruct (i f s) as [p|] eqn:E; [|discriminate]. now rewrite (M _ _ _ E).
Qed.

Lemma inline_mono g : forall n m stack f s x, (n <= m)%nat ->
  inline g n stack f s = Some x -> inline g m stack f s = Some x.
Proof.
  induction n as [|n IH]; intros [|m] stack f s x L H; try discriminate; [lia|].
  rewrite inline_S in H. rewrite inline_S.
  destruct (cache_get (cache s) f); [exact H|].
  destruct (index_of f stack); [exact H|].
  destruct (lookup g f) as [[reqs ret| |]|]; try exact H.
  destruct (visit (try_inline (inline g n (stack ++ [f]))) reqs s) as [p|] eqn:Ev; [|discriminate].
  apply (visit_mono _ (try_inline (inline g m (stack ++ [f])))) in Ev; [rewrite Ev; exact H|].
  apply try_inline_mono. intros f0 s0 x0. apply IH. lia.
Qed.

Lemma run_entry_mono g n m roots x : (n <= m)%nat ->
  run_entry g n roots = Some x -> run_entry g m roots = Some x.
Proof.
  intros L. unfold run_entry. apply visit_mono. apply try_inline_mono.
  intros f s y. now apply inline_mono.
Qed.
