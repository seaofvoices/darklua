(** Basic facts about paths, the memory file system and the slot / ext containers of the
    worker model. *)
From Coq Require Import Arith PeanoNat Lia.
From DL Require Import Lib.Bytes Model.WorkerFs Model.Worker.
Open Scope N_scope.

Lemma path_eqb_eq a b : path_eqb a b = true <-> a = b.
Proof.
  revert b; induction a as [|x a IH]; intros [|y b]; cbn [path_eqb]; split; intros H;
    try reflexivity; try discriminate.
  - apply andb_true_iff in H as [H1 H2]. apply String.eqb_eq in H1. apply IH in H2. congruence.
  - inversion H; subst. rewrite String.eqb_refl. apply IH. reflexivity.
Qed.

Lemma path_eqb_refl a : path_eqb a a = true.
Proof. apply path_eqb_eq. reflexivity. Qed.

Lemma path_eqb_neq a b : path_eqb a b = false <-> a <> b.
Proof.
  split; intros H.
  - intros E. apply path_eqb_eq in E. congruence.
  - destruct (path_eqb a b) eqn:E; [|reflexivity]. apply path_eqb_eq in E. contradiction.
Qed.

Lemma path_eqb_sym a b : path_eqb a b = path_eqb b a.
Proof.
  destruct (path_eqb a b) eqn:E.
  - apply path_eqb_eq in E. subst. symmetry. apply path_eqb_refl.
  - symmetry. apply path_eqb_neq. apply path_eqb_neq in E. congruence.
Qed.

Lemma path_eq_dec (a b : path) : {a = b} + {a <> b}.
Proof. destruct (path_eqb a b) eqn:E; [left; apply path_eqb_eq, E | right; apply path_eqb_neq, E]. Qed.

Lemma starts_with_refl p : starts_with p p = true.
Proof. induction p as [|x p IH]; cbn; [reflexivity|]. rewrite String.eqb_refl. exact IH. Qed.

Lemma starts_with_app pre p : starts_with pre p = true <-> exists s, p = (pre ++ s)%list.
Proof.
  revert p; induction pre as [|a pre IH]; intros p; cbn [starts_with].
  - split; [intros _; exists p; reflexivity | reflexivity].
  - destruct p as [|b p].
    + split; [discriminate | intros [s Hs]; discriminate].
    + split.
      * intros H. apply andb_true_iff in H as [H1 H2]. apply String.eqb_eq in H1. subst b.
        apply IH in H2 as [s ->]. exists s. reflexivity.
      * intros [s Hs]. inversion Hs; subst. rewrite String.eqb_refl. apply IH. exists s. reflexivity.
Qed.

Lemma starts_with_trans a b c :
  starts_with a b = true -> starts_with b c = true -> starts_with a c = true.
Proof.
  intros H1 H2. apply starts_with_app in H1 as [s1 ->]. apply starts_with_app in H2 as [s2 ->].
  apply starts_with_app. exists (s1 ++ s2)%list. rewrite app_assoc. reflexivity.
Qed.

Lemma prefixes_comparable a b p :
  starts_with a p = true -> starts_with b p = true ->
  starts_with a b = true \/ starts_with b a = true.
Proof.
  revert b p; induction a as [|x a IH]; intros b p Ha Hb.
  - left. reflexivity.
  - destruct b as [|y b]; [right; reflexivity|].
    destruct p as [|z p]; [discriminate|].
    cbn [starts_with] in *. apply andb_true_iff in Ha as [Ha1 Ha2]. apply andb_true_iff in Hb as [Hb1 Hb2].
    apply String.eqb_eq in Ha1, Hb1. subst. rewrite String.eqb_refl. cbn.
    eapply IH; eassumption.
Qed.

Lemma starts_with_antisym a b :
  starts_with a b = true -> starts_with b a = true -> a = b.
Proof.
  intros H1 H2. apply starts_with_app in H1 as [s1 H1]. apply starts_with_app in H2 as [s2 H2].
  subst b. rewrite <- app_assoc in H2. rewrite <- (app_nil_r a) in H2 at 1.
  apply app_inv_head in H2. symmetry in H2. apply app_eq_nil in H2 as [-> _]. rewrite app_nil_r. reflexivity.
Qed.

Lemma mem_path_In p l : mem_path p l = true <-> In p l.
Proof.
  induction l as [|q l IH]; cbn [mem_path In]; [split; [discriminate|tauto]|].
  rewrite orb_true_iff, IH, path_eqb_eq. split; intros [H|H]; auto.
Qed.

Lemma rebase_app from to s : rebase from to (from ++ s) = (to ++ s)%list.
Proof.
  unfold rebase. f_equal. induction from as [|x from IH]; cbn; [reflexivity|exact IH].
Qed.

Lemma rebase_starts from to p : starts_with to (rebase from to p) = true.
Proof. apply starts_with_app. eexists. reflexivity. Qed.

Lemma rebase_inj from to p q :
  starts_with from p = true -> starts_with from q = true ->
  rebase from to p = rebase from to q -> p = q.
Proof.
  intros Hp Hq H. apply starts_with_app in Hp as [s ->]. apply starts_with_app in Hq as [s' ->].
  rewrite !rebase_app in H. apply app_inv_head in H. subst. reflexivity.
Qed.

Lemma rebase_prefix from to p q :
  starts_with from p = true -> starts_with from q = true ->
  starts_with (rebase from to p) (rebase from to q) = true -> starts_with p q = true.
Proof.
  intros Hp Hq H. apply starts_with_app in Hp as [s ->]. apply starts_with_app in Hq as [s' ->].
  rewrite !rebase_app in H. apply starts_with_app in H as [u Hu].
  rewrite <- app_assoc in Hu. apply app_inv_head in Hu. subst s'.
  apply starts_with_app. exists u. rewrite app_assoc. reflexivity.
Qed.

Lemma fs_get_filter (drop : path -> bool) f q :
  fs_get (filter (fun e => negb (drop (fst e))) f) q = if drop q then None else fs_get f q.
Proof.
  induction f as [|[r c] f IH]; cbn [filter fs_get fst]; [destruct (drop q); reflexivity|].
  destruct (path_eqb r q) eqn:Erq.
  - apply path_eqb_eq in Erq. subst r. destruct (drop q); cbn [negb fs_get]; [exact IH|].
    rewrite path_eqb_refl. reflexivity.
  - destruct (drop r); cbn [negb fs_get]; rewrite ?Erq; exact IH.
Qed.

Lemma fs_get_del f p q : fs_get (fs_del f p) q = if path_eqb p q then None else fs_get f q.
Proof. rewrite (path_eqb_sym p q). exact (fs_get_filter (fun r => path_eqb r p) f q). Qed.

Lemma fs_get_write f p c q :
  fs_get (fs_write f p c) q = if path_eqb p q then Some c else fs_get f q.
Proof.
  unfold fs_write. cbn [fs_get]. destruct (path_eqb p q) eqn:E; [reflexivity|].
  rewrite fs_get_del, E. reflexivity.
Qed.

Lemma fs_get_del_under f d q :
  fs_get (fs_del_under f d) q = if starts_with d q then None else fs_get f q.
Proof. exact (fs_get_filter (starts_with d) f q). Qed.

Lemma fs_get_In f p : fs_get f p <> None <-> In p (map fst f).
Proof.
  induction f as [|[r c] f IH]; cbn [fs_get map fst In]; [tauto|].
  destruct (path_eqb r p) eqn:E.
  - apply path_eqb_eq in E. subst. split; [auto | discriminate].
  - apply path_eqb_neq in E. rewrite IH. split; [auto | intros [H|H]; [contradiction|exact H]].
Qed.

Lemma fs_is_dir_spec f p :
  fs_is_dir f p = true <-> exists q, fs_get f q <> None /\ q <> p /\ starts_with p q = true.
Proof.
  unfold fs_is_dir. rewrite existsb_exists. split.
  - intros [[q c] [Hin H]]. cbn [fst] in H. apply andb_true_iff in H as [H1 H2].
    exists q. repeat split; [| |exact H2].
    + apply fs_get_In. apply in_map_iff. exists (q, c). auto.
    + apply negb_true_iff, path_eqb_neq in H1. exact H1.
  - intros [q [H1 [H2 H3]]]. apply fs_get_In, in_map_iff in H1 as [[q' c] [E Hin]]. cbn in E. subst q'.
    exists (q, c). split; [exact Hin|]. cbn [fst]. apply andb_true_iff. split; [|exact H3].
    apply negb_true_iff, path_eqb_neq. exact H2.
Qed.

Lemma fs_get_remove_leaf f p q :
  (forall r, fs_get f r <> None -> starts_with p r = true -> r = p) ->
  fs_get (fs_remove f p) q = if path_eqb p q then None else fs_get f q.
Proof.
  intros Hleaf. unfold fs_remove, fs_is_file.
  destruct (fs_get f p) eqn:Ep.
  - apply fs_get_del.
  - destruct (fs_is_dir f p) eqn:Ed.
    + apply fs_is_dir_spec in Ed as [r [H1 [H2 H3]]]. exfalso. apply H2. apply Hleaf; assumption.
    + destruct (path_eqb p q) eqn:E; [|reflexivity]. apply path_eqb_eq in E. subst. exact Ep.
Qed.

Lemma fs_collect_spec f loc q :
  In q (fs_collect f loc) <-> fs_get f q <> None /\ starts_with loc q = true /\ is_lua_path q = true.
Proof.
  unfold fs_collect, fs_walk. rewrite !filter_In, fs_get_In. tauto.
Qed.

Lemma get_set_slot s i j v :
  (i < List.length s)%nat ->
  get_slot (set_slot s i v) j = if Nat.eqb i j then v else get_slot s j.
Proof.
  unfold get_slot. revert i j; induction s as [|x s IH]; intros i j Hi; cbn in *; [lia|].
  destruct i, j; cbn; try reflexivity. apply IH. lia.
Qed.

Lemma set_slot_length s i v : List.length (set_slot s i v) = List.length s.
Proof. revert i; induction s as [|x s IH]; intros i; cbn; [reflexivity|]. destruct i; cbn; auto. Qed.

Lemma get_slot_beyond s i : (List.length s <= i)%nat -> get_slot s i = None.
Proof. apply nth_overflow. Qed.

Lemma get_slot_some_lt s i it : get_slot s i = Some it -> (i < List.length s)%nat.
Proof.
  intros H. destruct (Nat.lt_ge_cases i (List.length s)) as [L|L]; [exact L|].
  rewrite get_slot_beyond in H by exact L. discriminate.
Qed.

Lemma get_slot_app s v j :
  get_slot (s ++ [v]) j = if Nat.eqb (List.length s) j then v else get_slot s j.
Proof.
  unfold get_slot. destruct (Nat.eqb_spec (List.length s) j) as [<-|Hne].
  - rewrite app_nth2, Nat.sub_diag by lia. reflexivity.
  - destruct (Nat.lt_ge_cases j (List.length s)) as [L|L]; [apply app_nth1; exact L|].
    rewrite !nth_overflow by (rewrite ?app_length; cbn; lia). reflexivity.
Qed.

Lemma get_slot_map_reset s j :
  get_slot (map (option_map item_reset) s) j = option_map item_reset (get_slot s j).
Proof.
  unfold get_slot. change (@None item) with (option_map item_reset None) at 1. apply map_nth.
Qed.

Lemma reset_slot t j it :
  get_slot (slots (reset t)) j = Some it <-> exists x, get_slot (slots t) j = Some x /\ it = item_reset x.
Proof.
  cbn [reset slots set_ext set_slots]. rewrite get_slot_map_reset.
  destruct (get_slot (slots t) j) as [x|]; cbn [option_map]; split.
  - intros [= <-]. eauto.
  - intros [y [[= <-] ->]]. reflexivity.
  - discriminate.
  - intros [y [H _]]. discriminate.
Qed.

Lemma count_pending_cons o s :
  count_pending (o :: s) =
  ((match o with Some it => if is_done (i_st it) then 0 else 1 | None => 0 end) + count_pending s)%nat.
Proof.
  unfold count_pending. cbn [filter]. destruct o as [it|]; [|reflexivity].
  destruct (is_done (i_st it)); reflexivity.
Qed.

Lemma count_pending_zero s :
  count_pending s = 0%nat -> forall j it, get_slot s j = Some it -> is_done (i_st it) = true.
Proof.
  unfold get_slot. induction s as [|o s IH]; intros H j it Hj; [destruct j; discriminate|].
  rewrite count_pending_cons in H. destruct j; cbn in Hj; [|apply (IH ltac:(lia) j it Hj)].
  subst o. destruct (is_done (i_st it)); [reflexivity|lia].
Qed.

(** the occupied slots with their indices, counted from [k]: [find_src], [nodes_under] and
    [all_items] are searches in this list *)
Fixpoint occupied (s : list (option item)) (k : nat) : list (nat * item) :=
  match s with
  | [] => []
  | Some it :: s' => (k, it) :: occupied s' (S k)
  | None :: s' => occupied s' (S k)
  end.

Lemma occupied_spec s : forall k i it,
  In (i, it) (occupied s k) <-> exists j, i = (k + j)%nat /\ nth j s None = Some it.
Proof.
  induction s as [|o s IH]; intros k i it; cbn [occupied].
  - split; [intros []|intros [[|j] [_ H]]; discriminate].
  - assert (Htl : In (i, it) (occupied s (S k)) <->
                  exists j, i = (k + S j)%nat /\ nth (S j) (o :: s) None = Some it).
    { rewrite IH. split; intros [j [-> H]]; exists j; (split; [lia|exact H]). }
    destruct o as [x|]; cbn [In]; rewrite Htl; split.
    + intros [[= <- <-]|[j H]]; [exists 0%nat; split; [lia|reflexivity]|eauto].
    + intros [[|j] [-> H]]; [left; injection H as ->; f_equal; lia|right; eauto].
    + intros [j H]. eauto.
    + intros [[|j] [-> H]]; [discriminate|eauto].
Qed.

Lemma occupied_slot t i it : In (i, it) (occupied (slots t) 0) <-> get_slot (slots t) i = Some it.
Proof. rewrite occupied_spec. unfold get_slot. split; [intros [j [-> H]]; exact H|intros H; exists i; auto]. Qed.

Lemma find_src_occupied s p : forall k,
  find_src s p k = option_map fst (find (fun x => path_eqb (i_src (snd x)) p) (occupied s k)).
Proof.
  induction s as [|[it|] s IH]; intros k; cbn [find_src occupied find snd]; [reflexivity| |apply IH].
  destruct (path_eqb (i_src it) p); [reflexivity|apply IH].
Qed.

Lemma nodes_under_occupied s p : forall k,
  nodes_under s p k = map fst (filter (fun x => starts_with p (i_src (snd x))) (occupied s k)).
Proof.
  induction s as [|[it|] s IH]; intros k; cbn [nodes_under occupied filter snd]; [reflexivity| |apply IH].
  destruct (starts_with p (i_src it)); cbn [map fst]; rewrite IH; reflexivity.
Qed.

Lemma all_items_occupied t : all_items t = map snd (occupied (slots t) 0).
Proof.
  unfold all_items. generalize 0%nat.
  induction (slots t) as [|[it|] s IH]; intros k; cbn; [reflexivity|f_equal|]; apply IH.
Qed.

Lemma all_items_spec t it : In it (all_items t) <-> exists i, get_slot (slots t) i = Some it.
Proof.
  rewrite all_items_occupied, in_map_iff. split.
  - intros [[i x] [<- H]]. exists i. apply occupied_slot, H.
  - intros [i H]. exists (i, it). split; [reflexivity|apply occupied_slot, H].
Qed.

Lemma item_out_dec t p :
  (exists i it, get_slot (slots t) i = Some it /\ i_out it = p) \/
  (forall i it, get_slot (slots t) i = Some it -> i_out it <> p).
Proof.
  destruct (in_dec path_eq_dec p (map i_out (all_items t))) as [H|H].
  - left. apply in_map_iff in H as [it [Ho Hin]]. apply all_items_spec in Hin as [i Hi]. eauto.
  - right. intros i it Hi Ho. apply H, in_map_iff. exists it. split; [exact Ho|apply all_items_spec; eauto].
Qed.

Lemma node_of_some t p i :
  node_of t p = Some i -> exists it, get_slot (slots t) i = Some it /\ i_src it = p.
Proof.
  unfold node_of. rewrite find_src_occupied.
  destruct (find _ _) as [[j x]|] eqn:Ef; [|discriminate]. intros [= <-].
  apply find_some in Ef as [Hin Hp]. exists x. split; [apply occupied_slot, Hin|apply path_eqb_eq, Hp].
Qed.

Lemma node_of_none t p :
  node_of t p = None -> forall i it, get_slot (slots t) i = Some it -> i_src it <> p.
Proof.
  unfold node_of. rewrite find_src_occupied.
  destruct (find _ _) eqn:Ef; [discriminate|]. intros _ i it Hi.
  apply occupied_slot in Hi. apply path_eqb_neq, (find_none _ _ Ef _ Hi).
Qed.

Lemma node_of_exists t p i it :
  get_slot (slots t) i = Some it -> i_src it = p -> node_of t p <> None.
Proof. intros H1 H2 Hn. exact (node_of_none t p Hn i it H1 H2). Qed.

Lemma node_of_ne_none t q :
  node_of t q <> None -> exists i it, get_slot (slots t) i = Some it /\ i_src it = q.
Proof.
  destruct (node_of t q) as [i|] eqn:En; [|congruence]. intros _.
  apply node_of_some in En as [it [H1 H2]]. eauto.
Qed.

Lemma nodes_under_in t p i :
  In i (nodes_under (slots t) p 0) <->
  exists it, get_slot (slots t) i = Some it /\ starts_with p (i_src it) = true.
Proof.
  rewrite nodes_under_occupied, in_map_iff. split.
  - intros [[j x] [<- H]]. apply filter_In in H as [H1 H2]. exists x. split; [apply occupied_slot|]; assumption.
  - intros [it [H1 H2]]. exists (i, it). split; [reflexivity|]. apply filter_In. split; [apply occupied_slot|]; assumption.
Qed.

Lemma remove_nat_In i j l : In j (remove_nat i l) <-> In j l /\ j <> i.
Proof.
  unfold remove_nat. rewrite filter_In, negb_true_iff, Nat.eqb_neq. intuition congruence.
Qed.

Lemma mem_nat_In i l : mem_nat i l = true <-> In i l.
Proof.
  unfold mem_nat. rewrite existsb_exists. split.
  - intros [x [H1 H2]]. apply Nat.eqb_eq in H2. subst. exact H1.
  - intros H. exists i. split; [exact H|apply Nat.eqb_refl].
Qed.

Lemma ext_get_unlink e p i q j :
  In j (ext_get (ext_unlink e p i) q) <-> In j (ext_get e q) /\ ~ (p = q /\ j = i).
Proof.
  induction e as [|[r l] e IH]; cbn [ext_unlink ext_get].
  - cbn. tauto.
  - destruct (path_eqb r p) eqn:Erp.
    + apply path_eqb_eq in Erp. subst r. cbn [ext_get].
      destruct (path_eqb p q) eqn:Epq.
      * apply path_eqb_eq in Epq. subst q. rewrite remove_nat_In. intuition.
      * apply path_eqb_neq in Epq. intuition.
    + cbn [ext_get]. destruct (path_eqb r q) eqn:Erq.
      * apply path_eqb_eq in Erq. subst r. apply path_eqb_neq in Erp. intuition congruence.
      * exact IH.
Qed.

Lemma ext_get_link e p i q j :
  In j (ext_get (ext_link e p i) q) <-> In j (ext_get e q) \/ (p = q /\ j = i).
Proof.
  induction e as [|[r l] e IH]; cbn [ext_link ext_get].
  - destruct (path_eqb p q) eqn:Epq.
    + apply path_eqb_eq in Epq. subst. cbn. intuition.
    + apply path_eqb_neq in Epq. cbn. intuition.
  - destruct (path_eqb r p) eqn:Erp.
    + apply path_eqb_eq in Erp. subst r. cbn [ext_get].
      destruct (path_eqb p q) eqn:Epq.
      * apply path_eqb_eq in Epq. subst q.
        destruct (mem_nat i l) eqn:Em.
        -- apply mem_nat_In in Em. split; [auto | intros [H|[_ ->]]; [exact H | exact Em]].
        -- cbn [In]. split; [intros [->|H]; auto | intros [H|[_ ->]]; auto].
      * apply path_eqb_neq in Epq. intuition.
    + cbn [ext_get]. destruct (path_eqb r q) eqn:Erq.
      * apply path_eqb_eq in Erq. subst r. apply path_eqb_neq in Erp. intuition congruence.
      * exact IH.
Qed.

Lemma ext_get_unlink_all e ds i q j :
  In j (ext_get (fold_left (fun e d => ext_unlink e d i) ds e) q) <->
  In j (ext_get e q) /\ ~ (In q ds /\ j = i).
Proof.
  revert e; induction ds as [|d ds IH]; intros e; cbn [fold_left].
  - cbn. tauto.
  - rewrite IH, ext_get_unlink. cbn [In]. intuition.
Qed.

Lemma ext_get_link_all e ds i q j :
  In j (ext_get (fold_left (fun e d => ext_link e d i) ds e) q) <->
  In j (ext_get e q) \/ (In q ds /\ j = i).
Proof.
  revert e; induction ds as [|d ds IH]; intros e; cbn [fold_left].
  - cbn. tauto.
  - rewrite IH, ext_get_link. cbn [In]. intuition.
Qed.
