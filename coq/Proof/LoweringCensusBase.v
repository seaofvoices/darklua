(** Basis of the C07 proofs: [f_*], the feature census of [Lua/Census.v] read at one index, as
    plain sums in [N], and the bridge [nth i (c_x x) 0 = f_x i x] with [length (c_x x) = 9], by
    the structural induction of Proof/ResolveInd.v. *)
From Coq Require Import ZArith NArith List Bool Lia ZifyBool ZifyN ZifyNat.
From DL Require Import Lib.Bytes Lua.Syntax Lua.Census Model.Visit Proof.ResolveInd.
Import ListNotations.
Local Open Scope nat_scope.

Definition sumN (l : list N) : N := fold_right N.add 0%N l.
Definition optN {A} (f : A -> N) (o : option A) : N := match o with Some a => f a | None => 0%N end.

Lemma sumN_app a b : sumN (a ++ b) = (sumN a + sumN b)%N.
Proof. induction a as [|x a IH]; cbn [sumN fold_right app]; [reflexivity|]. fold (sumN (a ++ b)) (sumN a). lia. Qed.

Lemma sumN_cons x a : sumN (x :: a) = (x + sumN a)%N.
Proof. reflexivity. Qed.

Lemma sumN_flat_map {A B} (f : B -> N) (g : A -> list B) l :
  sumN (map f (flat_map g l)) = sumN (map (fun x => sumN (map f (g x))) l).
Proof.
  induction l as [|x l IH]; [reflexivity|].
  cbn [flat_map map]. rewrite map_app, sumN_app, IH. reflexivity.
Qed.

Lemma sumN_zero l : sumN l = 0%N <-> Forall (fun x => x = 0%N) l.
Proof.
  induction l as [|x l IH]; [split; [constructor|reflexivity]|].
  rewrite sumN_cons. split.
  - intros H. constructor; [lia|]. apply IH. lia.
  - intros H. inversion H; subst. apply IH in H3. lia.
Qed.

Lemma sumN_map_zero {A} (f : A -> N) l : (forall x, In x l -> f x = 0%N) -> sumN (map f l) = 0%N.
Proof. intros H. apply sumN_zero. apply Forall_forall. intros y Hy. apply in_map_iff in Hy as (x & <- & Hx). auto. Qed.

Lemma sumN_map_zero_inv {A} (f : A -> N) l : sumN (map f l) = 0%N -> forall x, In x l -> f x = 0%N.
Proof. intros H x Hx. apply sumN_zero in H. rewrite Forall_forall in H. apply H. apply in_map. exact Hx. Qed.

Lemma sumN_map_ext {A} (f g : A -> N) l : (forall x, In x l -> f x = g x) -> sumN (map f l) = sumN (map g l).
Proof.
  induction l as [|x l IH]; intros H; [reflexivity|]. cbn [map]. rewrite !sumN_cons.
  rewrite (H x (or_introl eq_refl)), IH; [reflexivity|]. intros; apply H; right; assumption.
Qed.

Lemma sum_app a b : sum (a ++ b) = sum a + sum b.
Proof. induction a as [|x a IH]; cbn [sum fold_right app]; [reflexivity|]. fold (sum (a ++ b)) (sum a). lia. Qed.

Lemma sum_cons x a : sum (x :: a) = x + sum a.
Proof. reflexivity. Qed.

Lemma sum_in {A} (f : A -> nat) l x : In x l -> f x <= sum (map f l).
Proof.
  induction l as [|y l IH]; intros H; [contradiction|]. cbn [map]. rewrite sum_cons.
  destruct H as [->|H]; [lia|]. apply IH in H. lia.
Qed.

Lemma sum_map_le_pointwise {A} (f g : A -> nat) l : (forall x, In x l -> f x <= g x) -> sum (map f l) <= sum (map g l).
Proof.
  induction l as [|x l IH]; intros H; [cbn; lia|]. cbn [map]. rewrite !sum_cons.
  pose proof (H x (or_introl eq_refl)).
  assert (sum (map f l) <= sum (map g l)) by (apply IH; intros; apply H; right; assumption). lia.
Qed.

Lemma sum_map_le {A} (f : A -> nat) (g : A -> A) l :
  (forall x, In x l -> f (g x) <= f x) -> sum (map f (map g l)) <= sum (map f l).
Proof. rewrite map_map. apply sum_map_le_pointwise. Qed.

Lemma sum_flat_map {A B} (f : B -> nat) (g : A -> list B) l :
  sum (map f (flat_map g l)) = sum (map (fun x => sum (map f (g x))) l).
Proof.
  induction l as [|x l IH]; [reflexivity|].
  cbn [flat_map map]. rewrite map_app, sum_app, IH. reflexivity.
Qed.

Definition u (i j : nat) : N := if Nat.eqb i j then 1%N else 0%N.

Fixpoint f_ty (i : nat) (t : ty) {struct t} : N :=
  match t with
  | TyNode _ subs es => (u i 7 + (sumN (map (f_ty i) subs) + sumN (map (f_expr i) es)))%N
  end

with f_expr (i : nat) (e : expr) {struct e} : N :=
  match e with
  | ENil | ETrue | EFalse | EString _ | EVarArgs | EIdent _ => 0%N
  | ENumber n => if luau_number n then u i 5 else 0%N
  | EInterp segs => (u i 3 + sumN (map (f_iseg i) segs))%N
  | EField p _ => f_expr i p
  | EIndex p k => (f_expr i p + f_expr i k)%N
  | ECall p _ a => (f_expr i p + f_args i a)%N
  | EFunction f => f_fbody i f
  | EIf bs els => (u i 2 + (sumN (map (f_ebranch i) bs) + f_expr i els))%N
  | EParen e' => f_expr i e'
  | ETable entries => sumN (map (f_tentry i) entries)
  | EUnary _ e' => f_expr i e'
  | EBinary op l r => ((match op with BIDiv => u i 4 | _ => 0 end) + (f_expr i l + f_expr i r))%N
  | ETypeCast e' t => (u i 7 + (f_expr i e' + f_ty i t))%N
  | ETypeInst p tys => (u i 7 + (f_expr i p + sumN (map (f_ty i) tys)))%N
  end

with f_iseg (i : nat) (s : iseg) {struct s} : N :=
  match s with ISStr _ => 0%N | ISExpr e => f_expr i e end

with f_ebranch (i : nat) (b : ebranch) {struct b} : N :=
  match b with EBranch c r => (f_expr i c + f_expr i r)%N end

with f_args (i : nat) (a : args) {struct a} : N :=
  match a with
  | ATuple es => sumN (map (f_expr i) es)
  | AString _ => 0%N
  | ATable entries => sumN (map (f_tentry i) entries)
  end

with f_tentry (i : nat) (t : tentry) {struct t} : N :=
  match t with
  | TField _ v => f_expr i v
  | TIndex k v => (f_expr i k + f_expr i v)%N
  | TValue v => f_expr i v
  end

with f_fbody (i : nat) (f : fbody) {struct f} : N :=
  match f with
  | FBody ps _ vt rt gen attrs body =>
    (sumN (map (f_param i) ps) + (optN (f_ty i) vt + (optN (f_ty i) rt + (optN (f_ty i) gen
       + ((if (attrs =? 0)%N then 0 else u i 8) + f_block i body)))))%N
  end

with f_param (i : nat) (p : param) {struct p} : N :=
  match p with Param _ t => optN (f_ty i) t end

with f_stmt (i : nat) (s : stmt) {struct s} : N :=
  match s with
  | SAssign vars vals => (sumN (map (f_expr i) vars) + sumN (map (f_expr i) vals))%N
  | SDo b => f_block i b
  | SCall c => f_expr i c
  | SCompound op var v =>
    (u i 0 + ((match op with BIDiv => u i 4 | _ => 0 end) + (f_expr i var + f_expr i v)))%N
  | SFunction _ _ _ f => f_fbody i f
  | SGenericFor vars es b => (sumN (map (f_param i) vars) + (sumN (map (f_expr i) es) + f_block i b))%N
  | SIf bs els => (sumN (map (f_sbranch i) bs) + optN (f_block i) els)%N
  | SLocal is_const vars vals =>
    ((if is_const then u i 6 else 0) + (sumN (map (f_param i) vars) + sumN (map (f_expr i) vals)))%N
  | SLocalFunction _ f => f_fbody i f
  | SNumericFor var a b step body =>
    (f_param i var + (f_expr i a + (f_expr i b + (optN (f_expr i) step + f_block i body))))%N
  | SRepeat b c => (f_block i b + f_expr i c)%N
  | SWhile c b => (f_expr i c + f_block i b)%N
  | STypeDecl _ _ gen t => (u i 7 + (optN (f_ty i) gen + f_ty i t))%N
  | STypeFunction _ _ f => (u i 7 + f_fbody i f)%N
  end

with f_sbranch (i : nat) (b : sbranch) {struct b} : N :=
  match b with SBranch c body => (f_expr i c + f_block i body)%N end

with f_block (i : nat) (b : block) {struct b} : N :=
  match b with
  | Block stmts last => (sumN (map (f_stmt i) stmts) + optN (f_last i) last)%N
  end

with f_last (i : nat) (l : laststmt) {struct l} : N :=
  match l with
  | LBreak => 0%N
  | LContinue => u i 1
  | LReturn es => sumN (map (f_expr i) es)
  end.

(** unfold [w_*] / [f_*] on constructors: [cbn] leaves the raw mutual fixpoint under [map],
    [fold] restores the constants *)
Ltac wunf :=
  cbn [w_ty w_expr w_iseg w_ebranch w_args w_tentry w_fbody w_param w_stmt w_sbranch w_block w_last];
  fold w_ty w_expr w_iseg w_ebranch w_args w_tentry w_fbody w_param w_stmt w_sbranch w_block w_last.
Ltac wunf_in H :=
  cbn [w_ty w_expr w_iseg w_ebranch w_args w_tentry w_fbody w_param w_stmt w_sbranch w_block w_last] in H;
  fold w_ty w_expr w_iseg w_ebranch w_args w_tentry w_fbody w_param w_stmt w_sbranch w_block w_last in H.
Ltac funf :=
  cbn [f_ty f_expr f_iseg f_ebranch f_args f_tentry f_fbody f_param f_stmt f_sbranch f_block f_last];
  fold f_ty f_expr f_iseg f_ebranch f_args f_tentry f_fbody f_param f_stmt f_sbranch f_block f_last.

Lemma sum_nil : sum [] = 0. Proof. reflexivity. Qed.
Lemma sumN_nil : sumN [] = 0%N. Proof. reflexivity. Qed.

(** the same, through lists and options given by their elements *)
Ltac wsimp := repeat (progress (wunf; cbn [map wopt]; rewrite ?sum_cons, ?sum_nil)).
Ltac fsimp := repeat (progress (funf; cbn [map optN]; rewrite ?sumN_cons, ?sumN_nil)).

Definition Vok (v : vec) (g : nat -> N) : Prop :=
  List.length v = 9 /\ forall i, i < 9 -> nth i v 0%N = g i.

Lemma Vok_ext v g g' : Vok v g -> (forall i, g i = g' i) -> Vok v g'.
Proof. intros [L H] E. split; [exact L|]. intros i Hi. rewrite <- E. apply H, Hi. Qed.

Lemma vadd_length a b : List.length a = 9 -> List.length b = 9 -> List.length (vadd a b) = 9.
Proof.
  intros Ha Hb.
  do 10 (destruct a as [|? a]; try discriminate Ha). do 10 (destruct b as [|? b]; try discriminate Hb).
  reflexivity.
Qed.

Lemma vadd_nth a b i : List.length a = 9 -> List.length b = 9 -> i < 9 ->
  nth i (vadd a b) 0%N = (nth i a 0 + nth i b 0)%N.
Proof.
  intros Ha Hb Hi.
  do 10 (destruct a as [|? a]; try discriminate Ha). do 10 (destruct b as [|? b]; try discriminate Hb).
  do 9 (destruct i as [|i]; [reflexivity|]). lia.
Qed.

Lemma Vok_vadd a b ga gb : Vok a ga -> Vok b gb -> Vok (vadd a b) (fun i => (ga i + gb i)%N).
Proof.
  intros [La Ha] [Lb Hb]. split; [apply vadd_length; assumption|].
  intros i Hi. rewrite vadd_nth by assumption. rewrite Ha, Hb by assumption. reflexivity.
Qed.

Lemma Vok_vzero : Vok vzero (fun _ => 0%N).
Proof. split; [reflexivity|]. intros i Hi. do 9 (destruct i as [|i]; [reflexivity|]). lia. Qed.

Lemma Vok_unit j : j < 9 -> Vok (unit_at j) (fun i => u i j).
Proof.
  intros Hj. do 9 (destruct j as [|j]; [split; [reflexivity|]; intros i Hi;
    do 9 (destruct i as [|i]; [reflexivity|]); lia|]). lia.
Qed.

Lemma Vok_if (c : bool) a b ga gb : Vok a ga -> Vok b gb -> Vok (if c then a else b) (fun i => if c then ga i else gb i).
Proof. destruct c; intros A B; [exact A|exact B]. Qed.

Lemma Vok_floordiv op :
  Vok (match op with BIDiv => F_floordiv | _ => vzero end) (fun i => match op with BIDiv => u i 4 | _ => 0%N end).
Proof. destruct op; try exact Vok_vzero. apply (Vok_unit 4); lia. Qed.

Lemma Vok_vsum {A} (c : A -> vec) (f : nat -> A -> N) l :
  Forall (fun x => Vok (c x) (fun i => f i x)) l -> Vok (vsum (map c l)) (fun i => sumN (map (f i) l)).
Proof.
  induction 1 as [|x l Hx _ IH]; [exact Vok_vzero|].
  cbn [map vsum fold_right]. fold (vsum (map c l)). exact (Vok_vadd _ _ (fun i => f i x) _ Hx IH).
Qed.

Lemma Vok_opt {A} (c : A -> vec) (f : nat -> A -> N) o :
  OptP (fun x => Vok (c x) (fun i => f i x)) o -> Vok (opt c o) (fun i => optN (f i) o).
Proof. destruct o as [x|]; intros IH; [exact IH|exact Vok_vzero]. Qed.

Lemma w_ty_pos t : 1 <= w_ty t. Proof. destruct t; cbn [w_ty]; lia. Qed.
Lemma w_expr_pos e : 1 <= w_expr e. Proof. destruct e; cbn [w_expr]; try lia. destruct op; lia. Qed.
Lemma w_stmt_pos s : 1 <= w_stmt s. Proof. destruct s; cbn [w_stmt]; lia. Qed.
Lemma w_block_pos b : 1 <= w_block b. Proof. destruct b; cbn [w_block]; lia. Qed.

Lemma w_binop_bounds op : 1 <= match op with BIDiv => 8 | _ => 1 end <= 8.
Proof. destruct op; lia. Qed.

(** [c_x] and [f_x] are the same sum, one of vectors and one of their entries at [i].  On a
    goal [Vok (c_x node) (fun i => f_x i node)] for one constructor, [vok] follows the census
    expression down ([vok_step], one operation of the vector sum each) to the sub-trees, which
    the induction hypotheses in the context cover, and checks by [reflexivity] that the
    entries so collected are [f_x i node]. *)
Local Ltac vok_step :=
  match goal with
  | |- Vok vzero _ => exact Vok_vzero
  | |- Vok (vadd _ _) _ => apply Vok_vadd
  | |- Vok (vsum (map _ _)) _ => eapply Vok_vsum; eassumption
  | |- Vok (opt _ _) _ => eapply Vok_opt; eassumption
  | |- Vok (if _ then _ else _) _ => apply Vok_if
  | |- Vok (match _ with BIDiv => _ | _ => _ end) _ => apply Vok_floordiv
  | IH : Vok ?v _ |- Vok ?v _ => exact IH
  | |- Vok _ _ => apply Vok_unit; lia
  end.
Local Ltac vok := eapply Vok_ext; [solve [repeat vok_step]|intros i; reflexivity].

Lemma bridge_block : forall b, Vok (c_block b) (fun i => f_block i b).
Proof.
  apply (ind_block
    (fun t => Vok (c_ty t) (fun i => f_ty i t)) (fun e => Vok (c_expr e) (fun i => f_expr i e))
    (fun s => Vok (c_iseg s) (fun i => f_iseg i s)) (fun b => Vok (c_ebranch b) (fun i => f_ebranch i b))
    (fun a => Vok (c_args a) (fun i => f_args i a)) (fun t => Vok (c_tentry t) (fun i => f_tentry i t))
    (fun f => Vok (c_fbody f) (fun i => f_fbody i f)) (fun p => Vok (c_param p) (fun i => f_param i p))
    (fun s => Vok (c_stmt s) (fun i => f_stmt i s)) (fun b => Vok (c_sbranch b) (fun i => f_sbranch i b))
    (fun b => Vok (c_block b) (fun i => f_block i b)) (fun l => Vok (c_last l) (fun i => f_last i l)));
    intros; cbn [c_ty c_expr c_iseg c_ebranch c_args c_tentry c_fbody c_param c_stmt c_sbranch c_block c_last]; vok.
Qed.

Theorem feature_f_block i b : i < 9 -> feature i b = f_block i b.
Proof.
  intros Hi. exact (proj2 (bridge_block b) i Hi).
Qed.

Lemma census_length b : List.length (census b) = 9.
Proof. exact (proj1 (bridge_block b)). Qed.

Lemma lua51_tree_iff b : lua51_tree b = true <-> forall i, i < 9 -> feature i b = 0%N.
Proof.
  unfold lua51_tree, feature. pose proof (census_length b) as L.
  destruct (census b) as [|x0 [|x1 [|x2 [|x3 [|x4 [|x5 [|x6 [|x7 [|x8 [|]]]]]]]]]]; try discriminate L.
  cbn [forallb]. rewrite !andb_true_iff, !N.eqb_eq. split.
  - intros H i Hi. do 9 (destruct i as [|i]; [cbn; lia|]). lia.
  - intros H.
    pose proof (H 0 ltac:(lia)). pose proof (H 1 ltac:(lia)). pose proof (H 2 ltac:(lia)).
    pose proof (H 3 ltac:(lia)). pose proof (H 4 ltac:(lia)). pose proof (H 5 ltac:(lia)).
    pose proof (H 6 ltac:(lia)). pose proof (H 7 ltac:(lia)). pose proof (H 8 ltac:(lia)).
    cbn in *. repeat split; auto; lia.
Qed.
