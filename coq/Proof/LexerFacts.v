(** Facts about the reference lexer ([Model/Lexer.v]) used by the no-fusion proof. *)
From DL Require Import Lib.Bytes Model.Lexer.
Open Scope N_scope.

Lemma run_app : forall x y k,
  run k (x ++ y) =
  let '(o1, k1) := run k x in
  let '(o2, k2) := run k1 y in
  (o1 ++ o2, k2).
Proof.
  induction x as [|c x IH]; intros y k; cbn [run app].
  - destruct (run k y) as [o2 k2]. reflexivity.
  - destruct (step k c) as [o k'].
    rewrite IH.
    destruct (run k' x) as [o1 k1].
    destruct (run k1 y) as [o2 k2].
    rewrite app_assoc. reflexivity.
Qed.

Lemma run_app_eq : forall x y z k,
  run k x = run k y -> run k (x ++ z) = run k (y ++ z).
Proof. intros x y z k H. rewrite !run_app, H. reflexivity. Qed.

Lemma run_one : forall k c, run k [c] = step k c.
Proof.
  intros k c. cbn [run]. destruct (step k c) as [o k']. rewrite app_nil_r. reflexivity.
Qed.

Definition ws (c : N) : Prop := c = 32 \/ c = 10.

Lemma is_ws_ws c : ws c -> is_ws c = true.
Proof. intros [->| ->]; reflexivity. Qed.

Lemma step_start_ws stk c : ws c -> step (stk, LStart) c = ([], (stk, LStart)).
Proof. intros H. cbn [step]. unfold start. rewrite (is_ws_ws c H). reflexivity. Qed.

Lemma step_clean_ws stk st c :
  clean st = true -> ws c -> step (stk, st) c = (flush st, (stk, LStart)).
Proof.
  intros Hc Hw.
  destruct st as [|racc|ph racc|p|n|q esc racc|n cl racc|esc racc|racc|n racc|racc|n cl racc|];
    try discriminate Hc.
  - rewrite step_start_ws by assumption. reflexivity.
  - destruct Hw as [->| ->]; reflexivity.
  - destruct Hw as [->| ->]; destruct ph; reflexivity.
  - destruct Hw as [->| ->]; destruct p; try discriminate Hc; reflexivity.
Qed.

(** a byte that cannot extend the pending token: the token is emitted and the byte starts
    what follows (nothing is pending in [LStart], and [flush LStart] is empty) *)
Lemma step_no_extend stk st c :
  clean st = true -> extends st c = false ->
  step (stk, st) c = (flush st ++ fst (step (stk, LStart) c), snd (step (stk, LStart) c)).
Proof.
  intros Hc He.
  destruct st as [|racc|ph racc|p|n|q esc racc|n cl racc|esc racc|racc|n racc|racc|n cl racc|];
    try discriminate Hc.
  1:{ destruct (step (stk, LStart) c). reflexivity. }
  (* a name, a number, a symbol: [step_st] answers [None] and [step] restarts *)
  all: cbn [step]; cbn [extends] in He; destruct (step_st _ c); [discriminate He|].
  all: unfold restart; destruct (start stk c); reflexivity.
Qed.

Lemma unclean_space stk st :
  clean st = false -> clean (snd (snd (step (stk, st) 32))) = false.
Proof.
  intros Hc.
  destruct st as [|racc|ph racc|p|n|q esc racc|n cl racc|esc racc|racc|n racc|racc|n cl racc|];
    try discriminate Hc; try reflexivity.
  - destruct p; try discriminate Hc. reflexivity.
  - destruct esc; [reflexivity|]. destruct q; reflexivity.
  - destruct esc; reflexivity.
Qed.
