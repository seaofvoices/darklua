(** C16, convert_local_function_to_assign ([rw_local_function], Model/Refactor.v) is sound for
    the reference interpreter: [local function x(ps) body end] and [local x = function(ps) body end]
    run every continuation alike when [x] is a parameter or [body] does not mention [x].
    The two statements leave stores that differ only in the record of the new closure
    (captured environment with / without [x], dropped annotations), related by [clos_rel];
    the continuation cannot tell (Proof/RefactorSim.v). *)
From Coq Require Import ZArith NArith List Bool String Lia.
From DL Require Import Lib.Bytes Lib.F64 Lua.Syntax Lua.Sem Model.Refactor.
From DL Require Import Proof.SemFacts Proof.DefaultRulesSem Proof.RefactorSem Proof.RefactorSimDefs.
From DL Require Import Proof.RefactorSimB Proof.RefactorSim.
Import ListNotations.
Open Scope N_scope.

Theorem store_rel_refl s : store_rel s s.
Proof. exact (RefactorSimB.store_rel_refl s). Qed.

(** related stores are observed alike: same trace, same rendering of any values *)
Theorem store_rel_observation s1 s2 vs :
  store_rel s1 s2 -> rev (trace s1) = rev (trace s2) /\ map (render 3 s1) vs = map (render 3 s2) vs.
Proof.
  intros (_ & Ht & Htr & _). split; [now rewrite Htr|].
  apply map_ext. intros v. now apply render_rel.
Qed.

Lemma has_parameter_in x ps : has_parameter x ps = true -> In x (param_names ps).
Proof.
  unfold has_parameter, param_names. intros H. apply existsb_exists in H as (p & Hp & E).
  apply bytes_eqb_eq in E. subst x. now apply in_map.
Qed.

Section LocalFunction.
Variable d : dialect.

(** two statements that leave the same environment and related stores can stand for each other
    in front of any statements *)
Lemma exec_stmts_head_rel n rho va st1 st2 rest last s rho' s1 s2 :
  exec_stmt d n rho va st1 s = Ok (rho', SigNone) s1 ->
  exec_stmt d n rho va st2 s = Ok (rho', SigNone) s2 ->
  store_rel s1 s2 ->
  res_rel eq (exec_stmts d (S n) rho va (st1 :: rest) last s) (exec_stmts d (S n) rho va (st2 :: rest) last s).
Proof.
  intros H1 H2 Hs. rewrite !exec_stmts_S_cons. unfold bind. rewrite H1, H2. cbn [stmts_cont].
  apply sim_exec_stmts with (P := fun _ => true); [reflexivity|apply env_agree_refl|exact Hs].
Qed.

(** the two statements, run from the same store: a new cell holding a new closure [c] *)
Definition lf_cell (s : store) : N := N.of_nat (List.length (cells s)).
Definition lf_clos (s : store) : N := N.of_nat (List.length (closures s)).
Definition lf_store (s : store) (c : closure) : store :=
  mkStore (cells s ++ [VClosure (lf_clos s)]) (tables s) (closures s ++ [c]) (trace s) (oracle s) (fresh s).

Lemma lf_lhs n rho va x f s :
  exec_stmt d (S n) rho va (SLocalFunction x f) s =
  Ok ((x, lf_cell s) :: rho, SigNone) (lf_store s (mkClosure f ((x, lf_cell s) :: rho) false)).
Proof.
  rewrite exec_stmt_S_localfunction. unfold lf_store. rewrite <- (set_nth_last (cells s) VNil). reflexivity.
Qed.

Lemma lf_rhs n rho va x k f' s :
  exec_stmt d (S (S (S n))) rho va (SLocal k [Param x None] [EFunction f']) s =
  Ok ((x, lf_cell s) :: rho, SigNone) (lf_store s (mkClosure f' rho false)).
Proof. rewrite exec_stmt_S_local, eval_list_S_one, eval_S_function. reflexivity. Qed.

Lemma lf_store_rel s c1 c2 : clos_rel c1 c2 -> store_rel (lf_store s c1) (lf_store s c2).
Proof.
  intros H. unfold store_rel, lf_store. cbn [cells tables closures trace oracle fresh]. repeat split; auto.
  apply Forall2_app; [apply (RefactorSimB.store_rel_refl s)|]. constructor; [exact H|constructor].
Qed.

Lemma lf_clos_rel x a rho ps v vt rt g at_ body :
  has_parameter x ps || negb (ment_block [x] body) = true ->
  clos_rel (mkClosure (FBody ps v vt rt g at_ body) ((x, a) :: rho) false)
           (mkClosure (FBody ps v None None None 0 body) rho false).
Proof.
  intros H. unfold clos_rel, effective_params, closure_variadic, closure_block.
  cbn [c_body c_env c_self]. repeat split; auto.
  intros y Hy. cbn [lookup]. destruct (bytes_eqb y x) eqn:E; [|now right].
  apply bytes_eqb_eq in E. subst y. left. rewrite Hy in H. cbn [negb] in H. rewrite orb_false_r in H.
  now apply has_parameter_in.
Qed.

Theorem local_function_sound n rho va x f rest last s :
  rw_local_function (SLocalFunction x f) <> SLocalFunction x f ->
  (4 <= n)%nat ->
  res_rel eq (exec_stmts d n rho va (SLocalFunction x f :: rest) last s)
             (exec_stmts d n rho va (rw_local_function (SLocalFunction x f) :: rest) last s).
Proof.
  intros Hfire Hn. destruct f as [ps v vt rt g at_ body]. cbn [rw_local_function] in *.
  destruct (has_parameter x ps || negb (ment_block [x] body)) eqn:Hg; [clear Hfire|now elim Hfire].
  destruct n as [|[|[|[|n]]]]; try lia.
  eapply exec_stmts_head_rel; [apply lf_lhs|apply lf_rhs|]. now apply lf_store_rel, lf_clos_rel.
Qed.

End LocalFunction.

Definition nm (s : string) : name := of_string s.
Definition num (z : Z) : expr := ENumber (NDec (to_bits (of_Z z)) None).

Definition returned (r : res signal) : option (list value) :=
  match r with Ok (SigReturn vs) _ => Some vs | _ => None end.
Definition is_err (r : res signal) : bool := match r with Err _ _ => true | _ => false end.

(** [local function f(a) return a end  return f(1)] *)
Definition ex_f : fbody :=
  FBody [Param (nm "a") None] false None None None 0 (Block [] (Some (LReturn [EIdent (nm "a")]))).
Definition ex_last : option laststmt :=
  Some (LReturn [ECall (EIdent (nm "f")) None (ATuple [num 1])]).

Example local_function_fires :
  rw_local_function (SLocalFunction (nm "f") ex_f) <> SLocalFunction (nm "f") ex_f.
Proof. vm_compute. discriminate. Qed.

Example local_function_sound_nonvacuous :
  returned (exec_stmts L51 30 [] [] [SLocalFunction (nm "f") ex_f] ex_last (initial_store [])) = Some [VNum (of_Z 1)] /\
  returned (exec_stmts L51 30 [] [] [rw_local_function (SLocalFunction (nm "f") ex_f)] ex_last (initial_store []))
  = Some [VNum (of_Z 1)].
Proof. split; vm_compute; reflexivity. Qed.

(** the fuel bound 4 is the smallest one: at fuel 3 the function statement is done while the
    function expression of the rewritten statement is still out of fuel *)
Example local_function_bound_tight :
  exec_stmts L51 3 [] [] [SLocalFunction (nm "f") ex_f] None (initial_store []) <> Fuel /\
  exec_stmts L51 3 [] [] [rw_local_function (SLocalFunction (nm "f") ex_f)] None (initial_store []) = Fuel.
Proof. split; vm_compute; [discriminate|reflexivity]. Qed.

(** [local function f(n) if n == 0 then return 0 end return f(n - 1) end  return f(1)]:
    the rule does not fire, and the UNGUARDED rewrite would change the result - the body's [f]
    becomes the global [f] (nil), the recursive call fails *)
Definition ex_rec : fbody :=
  FBody [Param (nm "n") None] false None None None 0
    (Block [SIf [SBranch (EBinary BEq (EIdent (nm "n")) (num 0)) (Block [] (Some (LReturn [num 0])))] None]
           (Some (LReturn [ECall (EIdent (nm "f")) None (ATuple [EBinary BSub (EIdent (nm "n")) (num 1)])]))).

Example local_function_recursive_refuted :
  exists d n rho va x f rest last s,
    rw_local_function (SLocalFunction x f) = SLocalFunction x f /\
    returned (exec_stmts d n rho va (SLocalFunction x f :: rest) last s) = Some [VNum (of_Z 0)] /\
    is_err (exec_stmts d n rho va (SLocal false [Param x None] [EFunction f] :: rest) last s) = true.
Proof.
  exists L51, 40%nat, [], [], (nm "f"), ex_rec, [], ex_last, (initial_store []).
  split; [|split]; vm_compute; reflexivity.
Qed.

Print Assumptions local_function_sound.
Print Assumptions sim_exec_stmts.
Print Assumptions store_rel_observation.
