(** C16: [function_to_assign_sound] with the closure-representation independence of [setindex]
    (Proof/RefactorSim.v) plugged in, and satisfiable instances. *)
From Coq Require Import ZArith NArith List Bool String Lia.
From DL Require Import Lib.Bytes Lib.F64 Lua.Syntax Lua.Sem Lua.EvalSpec.
From DL Require Import Model.Removal Model.Refactor.
From DL Require Import Proof.SemFacts Proof.DefaultRulesSem Proof.RefactorSem Proof.RefactorSimDefs Proof.RefactorSim
  Proof.RefactorSoundFunction.
Import ListNotations.
Open Scope N_scope.

Theorem function_to_assign_sound_closed d n rho va base fields method f s r sL :
  exec_stmt d n rho va (SFunction base fields method f) s = Ok r sL ->
  (fields ++ opt_list method <> [] ->
   exists o, reads rho base s o /\ path_raw (tables s) o (fields ++ opt_list method)) ->
  exists m, forall j, (m <= j)%nat -> exists sR,
    exec_stmt d j rho va (rw_function_to_assign (SFunction base fields method f)) s = Ok r sR /\
    store_rel sL sR.
Proof. apply function_to_assign_sound. intros. now apply sim_setindex. Qed.

(** a satisfiable instance: [function M.sub:m(x) return self, x end] on a module table *)

Definition fa_nm (s : string) : name := of_string s.
Definition fa_setup : stmt :=
  SAssign [EIdent (fa_nm "M")] [ETable [TField (fa_nm "sub") (ETable [])]].
Definition fa_store : store :=
  match exec_stmt L51 12 [] [] fa_setup (initial_store []) with Ok _ s => s | _ => initial_store [] end.
Definition fa_body : fbody :=
  FBody [Param (fa_nm "x") None] false None None None 0
        (Block [] (Some (LReturn [EIdent (fa_nm "self"); EIdent (fa_nm "x")]))).
Definition fa_stmt : stmt := SFunction (fa_nm "M") [fa_nm "sub"] (Some (fa_nm "m")) fa_body.
(** afterwards: [return M.sub:m(7)] *)
Definition fa_use : laststmt :=
  LReturn [ECall (EField (EIdent (fa_nm "M")) (fa_nm "sub")) (Some (fa_nm "m"))
                 (ATuple [ENumber (NDec (to_bits (of_Z 7)) None)])].

Example function_to_assign_example :
  (exists o, reads [] (fa_nm "M") fa_store o /\ path_raw (tables fa_store) o [fa_nm "sub"; fa_nm "m"]) /\
  rw_function_to_assign fa_stmt =
    SAssign [EField (EField (EIdent (fa_nm "M")) (fa_nm "sub")) (fa_nm "m")]
            [EFunction (FBody [Param nm_self None; Param (fa_nm "x") None] false None None None 0
                              (Block [] (Some (LReturn [EIdent (fa_nm "self"); EIdent (fa_nm "x")]))))] /\
  exists vs s1 s2,
    exec_stmts L51 30 [] [] [fa_stmt] (Some fa_use) fa_store = Ok (SigReturn vs) s1 /\
    exec_stmts L51 30 [] [] [rw_function_to_assign fa_stmt] (Some fa_use) fa_store = Ok (SigReturn vs) s2 /\
    vs = [VTable 8; VNum (of_Z 7)] /\ store_rel s1 s2.
Proof.
  split.
  - exists (VTable 7). split.
    + unfold reads. cbn [lookup]. eexists. split; [vm_compute; reflexivity|].
      split; [left; vm_compute; discriminate|vm_compute; reflexivity].
    + cbn [path_raw]. exists 7, (mkTable [(VStr (fa_nm "sub"), VTable 8)] None).
      split; [reflexivity|]. split; [vm_compute; reflexivity|]. split; [vm_compute; discriminate|exact I].
  - split; [reflexivity|].
    eexists. eexists. eexists. split; [vm_compute; reflexivity|]. split; [vm_compute; reflexivity|].
    split; [reflexivity|].
    unfold store_rel. cbn [cells tables closures trace oracle fresh]. repeat split.
    constructor; [|constructor]. repeat split; auto.
Qed.
