(** Generic theorems about the traversal of Model/Visit.v, for any processor [H]:

    - [visit_weight]: if the hooks do not increase the size measure, neither does the traversal;
    - [visit_gen]: an invariant theorem.  For a family of predicates [P] on nodes such that
      the hooks map a [P]-node to a node whose root carries no occurrence of feature [i] and
      whose children are [P]-nodes again, the traversal of a [P]-node with fuel at least its
      size yields a tree without any occurrence of feature [i];
    - its two instances: [visit_removes] (a rule removes every occurrence of the construct
      whose root it rewrites: [P] = every node) and [visit_preserves] (a rule whose hooks
      introduce no occurrence of feature [j] into trees free of it keeps trees free of it);
    - [visit_stable]: fuel at least the size of the tree is sufficient - the result is the
      same for every larger fuel.
    Each is an induction on the fuel, stated jointly for the visitors of the kids of a node
    (all positions at once, through [vkid (Vof H n k kc)]) and for [visit_stmt]. *)
From Coq Require Import ZArith NArith List Bool Lia ZifyBool ZifyN ZifyNat.
From DL Require Import Lib.Bytes Lua.Syntax Lua.Census Model.Visit Proof.LoweringCensusBase
  Proof.LoweringCensusKids.
Import ListNotations.
Local Open Scope nat_scope.

(** the visitors of one level: fuel [n], [k] live temporaries ([kc] for a repeat condition) *)
Definition Vof (H : hooks) (n k kc : nat) : vis :=
  mkVis (visit_expr H n k) (visit_prefix H n k) (visit_var H n k) (visit_call H n k) (visit_expr H n kc)
        (visit_block H n k) (visit_ty H n k).

Section Unfold.
Variable H : hooks.

Lemma visit_expr_S n k e :
  visit_expr H (S n) k e =
  expr_children (ve (Vof H n k k)) (vp (Vof H n k k)) (vb (Vof H n k k)) (vt (Vof H n k k)) (h_expr H e).
Proof. reflexivity. Qed.
Lemma visit_prefix_S n k e :
  visit_prefix H (S n) k e =
  expr_children (ve (Vof H n k k)) (vp (Vof H n k k)) (vb (Vof H n k k)) (vt (Vof H n k k))
                (if is_prefix_form e then h_prefix H e else h_expr H e).
Proof. reflexivity. Qed.
Lemma visit_var_S n k e :
  visit_var H (S n) k e =
  expr_children (ve (Vof H n k k)) (vp (Vof H n k k)) (vb (Vof H n k k)) (vt (Vof H n k k))
                (if is_var_form e then e else h_expr H e).
Proof. reflexivity. Qed.
Lemma visit_call_S n k e :
  visit_call H (S n) k e =
  expr_children (ve (Vof H n k k)) (vp (Vof H n k k)) (vb (Vof H n k k)) (vt (Vof H n k k))
                (if is_call_form e then e else h_expr H e).
Proof. reflexivity. Qed.
Lemma visit_ty_S n k t :
  visit_ty H (S n) k t = ty_children (ve (Vof H n k k)) (vt (Vof H n k k)) t.
Proof. reflexivity. Qed.

Definition repeat_k (k' : nat) (s' : stmt) : nat :=
  match s' with SRepeat b _ => final_k H k' b | _ => k' end.

Lemma visit_stmt_S n k s :
  visit_stmt H (S n) k s =
  (let s' := fst (h_stmt H k s) in let k' := snd (h_stmt H k s) in
   let V := Vof H n k' (repeat_k k' s') in
   (stmt_children (ve V) (vb V) (vt V) (vv V) (vc V) (vr V) s', k')).
Proof.
  change (visit_stmt H (S n) k s) with
    (let (s', k') := h_stmt H k s in
     let kc := match s' with SRepeat b _ => final_k H k' b | _ => k' end in
     (stmt_children (visit_expr H n k') (visit_block H n k') (visit_ty H n k')
                    (visit_var H n k') (visit_call H n k') (visit_expr H n kc) s', k')).
  destruct (h_stmt H k s) as [s' k']. reflexivity.
Qed.

Lemma visit_block_S n k b :
  visit_block H (S n) k b =
  match h_block H b with
  | Block ss last =>
    Block (fst (thread (visit_stmt H n) k ss))
          (option_map (last_children (visit_expr H n (snd (thread (visit_stmt H n) k ss)))) last)
  end.
Proof.
  change (visit_block H (S n) k b) with
    (match h_block H b with
     | Block ss last =>
       let (ss', k') := thread (visit_stmt H n) k ss in
       Block ss' (option_map (last_children (visit_expr H n k')) last)
     end).
  destruct (h_block H b) as [ss last].
  destruct (thread (visit_stmt H n) k ss) as [ss' k']. reflexivity.
Qed.
End Unfold.

Lemma thread_cons f k x r :
  thread f k (x :: r) = (fst (f k x) :: fst (thread f (snd (f k x)) r), snd (thread f (snd (f k x)) r)).
Proof. cbn [thread]. destruct (f k x) as [x' k']. cbn [fst snd]. destruct (thread f k' r). reflexivity. Qed.

Lemma thread_Forall (Q : stmt -> Prop) f l : (forall k s, In s l -> Q (fst (f k s))) ->
  forall k, Forall Q (fst (thread f k l)).
Proof.
  induction l as [|x r IH]; intros Hq k; [constructor|].
  rewrite thread_cons. cbn [fst]. constructor; [apply Hq; left; reflexivity|].
  apply IH. intros; apply Hq; right; assumption.
Qed.

Lemma thread_weight f l : (forall k s, In s l -> w_stmt (fst (f k s)) <= w_stmt s) ->
  forall k, sum (map w_stmt (fst (thread f k l))) <= sum (map w_stmt l).
Proof.
  induction l as [|x r IH]; intros Hq k; [cbn; lia|].
  rewrite thread_cons. cbn [fst map]. rewrite !sum_cons.
  pose proof (Hq k x (or_introl eq_refl)).
  assert (sum (map w_stmt (fst (thread f (snd (f k x)) r))) <= sum (map w_stmt r))
    by (apply IH; intros; apply Hq; right; assumption). lia.
Qed.

Lemma thread_ext f g l : (forall k s, In s l -> f k s = g k s) -> forall k, thread f k l = thread g k l.
Proof.
  induction l as [|x r IH]; intros Hq k; [reflexivity|].
  rewrite !thread_cons. rewrite (Hq k x (or_introl eq_refl)).
  rewrite IH by (intros; apply Hq; right; assumption). reflexivity.
Qed.

Definition hooks_w (H : hooks) : Prop :=
  (forall e, w_expr (h_expr H e) <= w_expr e) /\
  (forall e, w_expr (h_prefix H e) <= w_expr e) /\
  (forall k s, w_stmt (fst (h_stmt H k s)) <= w_stmt s) /\
  (forall b, w_block (h_block H b) <= w_block b).

Lemma w_kid_pos c : 1 <= w_kid c.
Proof. destruct c; cbn [w_kid]; auto using w_expr_pos, w_block_pos, w_ty_pos. Qed.

Definition weight_at (H : hooks) (n : nat) : Prop :=
  (forall k kc c, w_kid (vkid (Vof H n k kc) c) <= w_kid c) /\
  (forall k s, w_stmt (fst (visit_stmt H n k s)) <= w_stmt s).

Theorem visit_weight H : hooks_w H -> forall n, weight_at H n.
Proof.
  intros (We & Wp & Ws & Wb). induction n as [|n [Ik Is]].
  - split; [intros k kc c; destruct c|intros k s]; cbn; lia.
  - assert (forall k e e', w_expr e' <= w_expr e ->
      w_expr (expr_children (ve (Vof H n k k)) (vp (Vof H n k k)) (vb (Vof H n k k)) (vt (Vof H n k k)) e') <= w_expr e) as X.
    { intros k e e' L. pose proof (w_expr_children _ (Ik k k) e'). lia. }
    split.
    + intros k kc c. destruct c; cbn [vkid Vof ve vp vv vc vr vb vt w_kid].
      * rewrite visit_expr_S. apply X, We.
      * rewrite visit_prefix_S. destruct (is_prefix_form e); apply X; [apply Wp|apply We].
      * rewrite visit_var_S. destruct (is_var_form e); apply X; [lia|apply We].
      * rewrite visit_call_S. destruct (is_call_form e); apply X; [lia|apply We].
      * rewrite visit_expr_S. apply X, We.
      * rewrite visit_block_S. pose proof (Wb b) as Wbb. destruct (h_block H b) as [ss last].
        wunf. wunf_in Wbb.
        pose proof (thread_weight (visit_stmt H n) ss (fun k s _ => Is k s) k).
        assert (wopt w_last (option_map (last_children (visit_expr H n (snd (thread (visit_stmt H n) k ss)))) last)
                <= wopt w_last last).
        { destruct last as [l|]; cbn [option_map wopt]; [|lia].
          apply (w_last_children _ (Ik (snd (thread (visit_stmt H n) k ss)) 0)). }
        lia.
      * rewrite visit_ty_S. apply (w_ty_children _ (Ik k k)).
    + intros k s. rewrite visit_stmt_S. cbv zeta. cbn [fst].
      eapply Nat.le_trans; [apply w_stmt_children, Ik|apply Ws].
Qed.

Record pre := mkPre { pe : expr -> Prop; pb : block -> Prop; pt : ty -> Prop; ps : stmt -> Prop }.

Definition pkid (P : pre) (c : kid) : Prop :=
  match c with
  | KE e | KP e | KV e | KC e | KR e => pe P e
  | KB b => pb P b
  | KT t => pt P t
  end.

Section Gen.
Variable i : nat.
Variable H : hooks.
Variable P : pre.
Hypothesis HW : hooks_w H.
Hypothesis C_expr : forall e, pe P e ->
  root_expr i (h_expr H e) = 0%N /\ forall c, In c (kids_expr (h_expr H e)) -> pkid P c.
Hypothesis C_prefix : forall e, pe P e -> is_prefix_form e = true ->
  root_expr i (h_prefix H e) = 0%N /\ forall c, In c (kids_expr (h_prefix H e)) -> pkid P c.
Hypothesis C_plain : forall e, pe P e -> is_var_form e = true \/ is_call_form e = true ->
  root_expr i e = 0%N /\ forall c, In c (kids_expr e) -> pkid P c.
Hypothesis C_ty : forall t, pt P t -> u i 7 = 0%N /\ forall c, In c (kids_ty t) -> pkid P c.
Hypothesis C_stmt : forall k s, ps P s ->
  root_stmt i (fst (h_stmt H k s)) = 0%N /\ forall c, In c (kids_stmt (fst (h_stmt H k s))) -> pkid P c.
Hypothesis C_block : forall b, pb P b ->
  match h_block H b with
  | Block ss last =>
    (forall s, In s ss -> ps P s) /\
    (forall l, last = Some l -> root_last i l = 0%N /\ forall c, In c (kids_last l) -> pkid P c)
  end.

Definition gen_at (n : nat) : Prop :=
  (forall k kc c, pkid P c -> w_kid c <= n -> f_kid i (vkid (Vof H n k kc) c) = 0%N) /\
  (forall k s, ps P s -> w_stmt s <= n -> f_stmt i (fst (visit_stmt H n k s)) = 0%N).

Theorem visit_gen : forall n, gen_at n.
Proof.
  destruct HW as (We & Wp & Ws & Wb).
  induction n as [|n [Ik Is]].
  - split; [intros k kc c _ Hw; pose proof (w_kid_pos c)|intros k s _ Hw; pose proof (w_stmt_pos s)]; lia.
  - (* a node [e'] no heavier than the original, with a clean root and [P]-kids *)
    assert (forall k e e', w_expr e' <= w_expr e -> w_expr e <= S n ->
      root_expr i e' = 0%N /\ (forall c, In c (kids_expr e') -> pkid P c) ->
      f_expr i (expr_children (ve (Vof H n k k)) (vp (Vof H n k k)) (vb (Vof H n k k)) (vt (Vof H n k k)) e') = 0%N) as X.
    { intros k e e' L Hw [Hr Hk]. rewrite f_expr_children; [exact Hr|].
      intros c Hc. apply Ik; [apply Hk, Hc|]. pose proof (w_kids_expr e' c Hc). lia. }
    split.
    + intros k kc c Hp Hw. destruct c; cbn [vkid Vof ve vp vv vc vr vb vt f_kid pkid w_kid] in *.
      * rewrite visit_expr_S. apply (X k e); auto.
      * rewrite visit_prefix_S. destruct (is_prefix_form e) eqn:E; apply (X k e); auto.
      * rewrite visit_var_S. destruct (is_var_form e) eqn:E; apply (X k e); auto.
      * rewrite visit_call_S. destruct (is_call_form e) eqn:E; apply (X k e); auto.
      * rewrite visit_expr_S. apply (X kc e); auto.
      * rewrite visit_block_S. pose proof (C_block b Hp) as Cb. pose proof (Wb b) as Wbb.
        destruct (h_block H b) as [ss last]. destruct Cb as [Css Cl]. wunf_in Wbb. funf.
        assert (sumN (map (f_stmt i) (fst (thread (visit_stmt H n) k ss))) = 0%N) as ->.
        { apply sumN_map_zero. apply Forall_forall. apply thread_Forall.
          intros k0 s Hs. apply Is; [apply Css, Hs|]. pose proof (sum_in w_stmt ss s Hs). lia. }
        destruct last as [l|]; cbn [option_map optN]; [|reflexivity].
        destruct (Cl l eq_refl) as [Hr Hk].
        rewrite (f_last_children i (Vof H n (snd (thread (visit_stmt H n) k ss)) 0)); [rewrite Hr; reflexivity|].
        intros c Hc. apply Ik; [apply Hk, Hc|]. pose proof (w_kids_last l c Hc). cbn [wopt] in Wbb. lia.
      * rewrite visit_ty_S. destruct (C_ty t Hp) as [Hr Hk]. rewrite f_ty_children; [exact Hr|].
        intros c Hc. apply Ik; [apply Hk, Hc|]. pose proof (w_kids_ty t c Hc). lia.
    + intros k s Hp Hw. rewrite visit_stmt_S. cbv zeta. cbn [fst].
      destruct (C_stmt k s Hp) as [Hr Hk]. rewrite f_stmt_children; [exact Hr|].
      intros c Hc. apply Ik; [apply Hk, Hc|]. pose proof (w_kids_stmt _ c Hc). pose proof (Ws k s). lia.
Qed.

Corollary visit_gen_block n k b : pb P b -> w_block b <= n -> f_block i (visit_block H n k b) = 0%N.
Proof. intros Hp Hw. exact (proj1 (visit_gen n) k k (KB b) Hp Hw). Qed.
End Gen.

(** no hook rewrites a type, so a type among the kids of a processed node is harmless only
    when the construct is not type syntax *)
Definition tyfree (i : nat) (l : list kid) : Prop :=
  forall c, In c l -> match c with KT _ => u i 7 = 0%N | _ => True end.

Definition kt_free (l : list kid) : Prop := forall c, In c l -> match c with KT _ => False | _ => True end.

Lemma tyfree_ne7 i l : u i 7 = 0%N -> tyfree i l.
Proof. intros E c _. destruct c; auto. Qed.
Lemma kt_free_tyfree i l : kt_free l -> tyfree i l.
Proof. intros K c Hc. specialize (K c Hc). destruct c; auto; contradiction. Qed.
Lemma kt_free_nil : kt_free []. Proof. intros c []. Qed.
Lemma kt_free_app a b : kt_free a -> kt_free b -> kt_free (a ++ b).
Proof. intros A B c Hc. apply in_app_or in Hc as [Hc|Hc]; [apply A|apply B]; exact Hc. Qed.
Lemma kt_free_cons c l : match c with KT _ => False | _ => True end -> kt_free l -> kt_free (c :: l).
Proof. intros A B x [<-|Hx]; [exact A|apply B, Hx]. Qed.
Lemma kt_free_map_KE es : kt_free (map KE es).
Proof. intros c Hc. apply in_map_iff in Hc as (x & <- & _). exact I. Qed.
Lemma kt_free_map_KV es : kt_free (map KV es).
Proof. intros c Hc. apply in_map_iff in Hc as (x & <- & _). exact I. Qed.
Lemma kt_free_flat_map {A} (g : A -> list kid) l : (forall x, kt_free (g x)) -> kt_free (flat_map g l).
Proof. intros G c Hc. apply in_flat_map in Hc as (x & _ & Hc). exact (G x c Hc). Qed.
Lemma kt_free_tentries en : kt_free (flat_map kids_tentry en).
Proof. apply kt_free_flat_map. intros [f v|k v|v] c Hc; cbn in Hc; intuition (subst; exact I). Qed.
Lemma kt_free_args a : kt_free (kids_args a).
Proof. destruct a; cbn [kids_args]; [apply kt_free_map_KE|apply kt_free_nil|apply kt_free_tentries]. Qed.

(** [kt]: proves [kt_free ks] for a list of kids [ks] written out with [app], [cons] and the
    maps [KE], [KV], by the closure lemmas above; a cons cell must be a kid other than a type. *)
Ltac kt :=
  repeat first [ apply kt_free_nil | apply kt_free_map_KE | apply kt_free_map_KV | apply kt_free_tentries
               | apply kt_free_args | apply kt_free_app | apply kt_free_cons; [exact I|] ].

Lemma plain_forms_ok i e : is_var_form e = true \/ is_call_form e = true ->
  root_expr i e = 0%N /\ tyfree i (kids_expr e).
Proof.
  intros [E|E]; destruct e; try discriminate E; (split; [reflexivity|]); apply kt_free_tyfree; cbn [kids_expr]; kt.
Qed.

Section Removes.
Variable i : nat.
Variable H : hooks.
Variable okS : stmt -> Prop.       (* the statements a processed block can hold *)
Hypothesis HW : hooks_w H.
Hypothesis R_expr : forall e, root_expr i (h_expr H e) = 0%N /\ tyfree i (kids_expr (h_expr H e)).
Hypothesis R_prefix : forall e, is_prefix_form e = true ->
  root_expr i (h_prefix H e) = 0%N /\ tyfree i (kids_expr (h_prefix H e)).
Hypothesis R_stmt : forall k s, okS s ->
  root_stmt i (fst (h_stmt H k s)) = 0%N /\ tyfree i (kids_stmt (fst (h_stmt H k s))).
Hypothesis R_block : forall b,
  match h_block H b with
  | Block ss last => (forall s, In s ss -> okS s) /\ (forall l, last = Some l -> root_last i l = 0%N)
  end.

Definition P_all : pre := mkPre (fun _ => True) (fun _ => True) (fun _ => u i 7 = 0%N) okS.

Lemma tyfree_pkid l : tyfree i l -> forall c, In c l -> pkid P_all c.
Proof. intros T c Hc. specialize (T c Hc). destruct c; cbn; auto. Qed.

Theorem visit_removes n k b : w_block b <= n -> f_block i (visit_block H n k b) = 0%N.
Proof.
  apply (visit_gen_block i H P_all); try exact HW; try exact I.
  - intros e _. destruct (R_expr e) as [A B]. split; [exact A|apply tyfree_pkid, B].
  - intros e _ E. destruct (R_prefix e E) as [A B]. split; [exact A|apply tyfree_pkid, B].
  - intros e _ E. destruct (plain_forms_ok i e E) as [A B]. split; [exact A|apply tyfree_pkid, B].
  - intros t Ht. split; [exact Ht|]. intros c Hc. destruct t as [kd subs es]. cbn [kids_ty] in Hc.
    apply in_app_or in Hc as [Hc|Hc]; apply in_map_iff in Hc as (x & <- & _); cbn; auto.
  - intros k0 s Hs. destruct (R_stmt k0 s Hs) as [A B]. split; [exact A|apply tyfree_pkid, B].
  - intros b0 _. pose proof (R_block b0) as Rb. destruct (h_block H b0) as [ss last]. destruct Rb as [Rs Rl].
    split; [exact Rs|].
    intros l ->. split; [apply Rl; reflexivity|]. intros c Hc. destruct l; cbn [kids_last] in Hc; try contradiction.
    apply in_map_iff in Hc as (x & <- & _). exact I.
Qed.
End Removes.

Section Preserves.
Variable j : nat.
Variable H : hooks.
Hypothesis HW : hooks_w H.
Hypothesis Z_expr : forall e, f_expr j e = 0%N -> f_expr j (h_expr H e) = 0%N.
Hypothesis Z_prefix : forall e, f_expr j e = 0%N -> f_expr j (h_prefix H e) = 0%N.
Hypothesis Z_stmt : forall k s, f_stmt j s = 0%N -> f_stmt j (fst (h_stmt H k s)) = 0%N.
Hypothesis Z_block : forall b, f_block j b = 0%N -> f_block j (h_block H b) = 0%N.

Definition P_zero : pre :=
  mkPre (fun e => f_expr j e = 0%N) (fun b => f_block j b = 0%N) (fun t => f_ty j t = 0%N) (fun s => f_stmt j s = 0%N).

Lemma zero_pkid l : (forall c, In c l -> f_kid j c = 0%N) -> forall c, In c l -> pkid P_zero c.
Proof. intros T c Hc. specialize (T c Hc). destruct c; cbn in *; auto. Qed.

Theorem visit_preserves : forall n, gen_at j H P_zero n.
Proof.
  apply visit_gen; try exact HW.
  - intros e He. destruct (f_expr_zero_inv j _ (Z_expr e He)) as [A B]. split; [exact A|apply zero_pkid, B].
  - intros e He _. destruct (f_expr_zero_inv j _ (Z_prefix e He)) as [A B]. split; [exact A|apply zero_pkid, B].
  - intros e He _. destruct (f_expr_zero_inv j _ He) as [A B]. split; [exact A|apply zero_pkid, B].
  - intros t Ht. destruct (f_ty_zero_inv j _ Ht) as [A B]. split; [exact A|apply zero_pkid, B].
  - intros k s Hs. destruct (f_stmt_zero_inv j _ (Z_stmt k s Hs)) as [A B]. split; [exact A|apply zero_pkid, B].
  - intros b Hb. pose proof (Z_block b Hb) as Zb. destruct (h_block H b) as [ss last]. revert Zb. funf. intros Zb.
    split.
    + intros s Hs. cbn [P_zero ps]. apply (sumN_map_zero_inv (f_stmt j) ss); [lia|exact Hs].
    + intros l ->. cbn [optN] in Zb. assert (f_last j l = 0%N) as Zl by lia.
      destruct (f_last_zero_inv j _ Zl) as [A B]. split; [exact A|apply zero_pkid, B].
Qed.
End Preserves.

Definition stable_at (H : hooks) (n : nat) : Prop :=
  forall m,
  (forall k kc c, w_kid c <= n -> w_kid c <= m -> kid_agree (Vof H n k kc) (Vof H m k kc) c) /\
  (forall k s, w_stmt s <= n -> w_stmt s <= m -> visit_stmt H n k s = visit_stmt H m k s).

Theorem visit_stable H : hooks_w H -> forall n, stable_at H n.
Proof.
  intros (We & Wp & Ws & Wb). induction n as [|n IH]; intros m.
  - split; [intros k kc c Hw; pose proof (w_kid_pos c)|intros k s Hw; pose proof (w_stmt_pos s)]; lia.
  - destruct m as [|m].
    { split; [intros k kc c _ Hw; pose proof (w_kid_pos c)|intros k s _ Hw; pose proof (w_stmt_pos s)]; lia. }
    destruct (IH m) as [Ik Is].
    assert (forall k e e', w_expr e' <= w_expr e -> w_expr e <= S n -> w_expr e <= S m ->
      expr_children (ve (Vof H n k k)) (vp (Vof H n k k)) (vb (Vof H n k k)) (vt (Vof H n k k)) e' =
      expr_children (ve (Vof H m k k)) (vp (Vof H m k k)) (vb (Vof H m k k)) (vt (Vof H m k k)) e') as X.
    { intros k e e' L Hn Hm. apply expr_children_agree, Forall_forall. intros c Hc. pose proof (w_kids_expr e' c Hc).
      apply Ik; lia. }
    split.
    + intros k kc c Hn Hm. destruct c; cbn [kid_agree Vof ve vp vv vc vr vb vt w_kid] in *.
      * rewrite !visit_expr_S. apply (X k e); auto.
      * rewrite !visit_prefix_S. destruct (is_prefix_form e); apply (X k e); auto.
      * rewrite !visit_var_S. destruct (is_var_form e); apply (X k e); auto.
      * rewrite !visit_call_S. destruct (is_call_form e); apply (X k e); auto.
      * rewrite !visit_expr_S. apply (X kc e); auto.
      * rewrite !visit_block_S. pose proof (Wb b) as Wbb. destruct (h_block H b) as [ss last].
        wunf_in Wbb.
        assert (thread (visit_stmt H n) k ss = thread (visit_stmt H m) k ss) as ->.
        { apply thread_ext. intros k0 s Hs. pose proof (sum_in w_stmt ss s Hs). apply Is; lia. }
        f_equal. destruct last as [l|]; [|reflexivity]. cbn [option_map]. f_equal.
        apply (last_children_agree (Vof H n (snd (thread (visit_stmt H m) k ss)) 0)
                                   (Vof H m (snd (thread (visit_stmt H m) k ss)) 0)), Forall_forall.
        intros c Hc. pose proof (w_kids_last l c Hc). cbn [wopt] in Wbb. apply Ik; lia.
      * rewrite !visit_ty_S. apply (ty_children_agree (Vof H n k k) (Vof H m k k)), Forall_forall.
        intros c Hc. pose proof (w_kids_ty t c Hc). apply Ik; lia.
    + intros k s Hn Hm. rewrite !visit_stmt_S. cbv zeta. f_equal.
      apply stmt_children_agree, Forall_forall. intros c Hc. pose proof (w_kids_stmt _ c Hc). pose proof (Ws k s).
      apply Ik; lia.
Qed.

Corollary run_rule_stable H b n : hooks_w H -> w_block b <= n -> visit_block H n 0 b = run_rule H b.
Proof.
  intros HW Hn. unfold run_rule. symmetry.
  apply (proj1 (visit_stable H HW (w_block b) n) 0 0 (KB b)); cbn [w_kid]; lia.
Qed.
