(** C01, LIFTING - remove_unused_if_branch (statement and expression form together, as the rule
    applies them) restricted to LITERAL conditions.

    The rule asks the static evaluator for the truthiness of every condition
    ([is_truthy (evaluate c)]) and for its side effects ([hse c]).  Here the rule's code is
    restated with these two questions as parameters ([*_g tr hs]; [if_g_agrees]: instantiated with
    the rule's own oracles its hooks ARE the rule's hooks, pointwise), and proved whole-program sound for every oracle
    [tr] that answers [Some b] only on conditions that evaluate, in every store, to a value of
    truthiness [b] without touching the store, and that [hs] finds free of side effects
    ([tr_ok]).  The literals [true], [false], [nil], numbers and strings are such conditions
    ([lit_truthy]); the rule's own oracle is sound only under the store invariant [env_plain] and
    up to the fresh allocations of the dropped condition: PARTIAL. *)
From Coq Require Import ZArith NArith List Bool String Lia.
From DL Require Import Lib.Bytes Lib.F64 Lua.Syntax Lua.Sem Model.Evaluator Model.DefaultRules.
From DL Require Import Proof.LoweringFuel.
From DL Require Import Proof.SemFacts Proof.DefaultRulesSem Proof.RefactorSem.
From DL Require Import Proof.EvaluatorSound Proof.DefaultRulesSoundCond.
From DL Require Import Proof.LiftingDefs Proof.LiftingSim Proof.LiftingVisit Proof.LiftingConst
  Proof.LiftingRulesExpr Proof.LiftingRulesBlock.
Import ListNotations.
Open Scope N_scope.

Section IfG.
Variable tr : expr -> option bool.
Variable hs : expr -> bool.

Fixpoint if_retain_g (bs : list sbranch) (keep : bool) (repl : option block)
  : list sbranch * bool * option block :=
  match bs with
  | [] => ([], keep, repl)
  | SBranch c b :: rest =>
    if negb keep then if_retain_g rest keep repl
    else
      match tr c with
      | Some true =>
        if hs c then
          let '(k, kp, rp) := if_retain_g rest false repl in (SBranch c b :: k, kp, rp)
        else if_retain_g rest false (Some b)
      | Some false =>
        if hs c then
          let '(k, kp, rp) := if_retain_g rest keep repl in (SBranch c empty_block :: k, kp, rp)
        else if_retain_g rest keep repl
      | None =>
        let '(k, kp, rp) := if_retain_g rest keep repl in (SBranch c b :: k, kp, rp)
      end
  end.

Definition else1 (els : option block) : option block :=
  match els with
  | Some b => if block_is_empty b then None else Some b
  | None => None
  end.

Definition simplify_if_statement_g (bs : list sbranch) (els : option block) : filter_result :=
  let els1 := else1 els in
  let '(kept, keep, repl) := if_retain_g bs true None in
  match kept with
  | [] =>
    match repl with
    | Some blk => if block_is_empty blk then FRemove else FReplace (SDo blk)
    | None =>
      match els1 with
      | Some eb => if block_is_empty eb then FRemove else FReplace (SDo eb)
      | None => FRemove
      end
    end
  | _ => FKeep (SIf kept (if keep then els1 else repl))
  end.

Definition if_filter_g (st : stmt) : filter_result :=
  match st with
  | SIf bs els => simplify_if_statement_g bs els
  | s => FKeep s
  end.

(** [filter_mut_statements] *)
Fixpoint rw_stmts (f : stmt -> filter_result) (ss : list stmt) : list stmt :=
  match ss with
  | [] => []
  | s :: rest =>
    match f s with
    | FKeep s' | FReplace s' => s' :: rw_stmts f rest
    | FRemove => rw_stmts f rest
    end
  end.

Definition rw_if_block_g (b : block) : block :=
  match b with Block ss last => Block (rw_stmts if_filter_g ss) last end.

Fixpoint ifexp_retain_g (bs : list ebranch) (keep : bool) (repl : option expr)
  : list ebranch * bool * option expr :=
  match bs with
  | [] => ([], keep, repl)
  | EBranch c r :: rest =>
    if negb keep then ifexp_retain_g rest keep repl
    else
      match tr c with
      | Some true =>
        if hs c then
          let '(k, kp, rp) := ifexp_retain_g rest false repl in (EBranch c r :: k, kp, rp)
        else ifexp_retain_g rest false (Some r)
      | Some false =>
        if hs c then
          let '(k, kp, rp) := ifexp_retain_g rest keep repl in (EBranch c ENil :: k, kp, rp)
        else ifexp_retain_g rest keep repl
      | None =>
        let '(k, kp, rp) := ifexp_retain_g rest keep repl in (EBranch c r :: k, kp, rp)
      end
  end.

Fixpoint simplify_if_g (c r : expr) (rest : list ebranch) (els : expr) {struct rest} : expr :=
  match tr c with
  | Some true =>
    if hs c then EIf [EBranch c r] ENil else paren_if_multi r
  | Some false =>
    if hs c then EIf (EBranch c ENil :: rest) els
    else match rest with
         | EBranch c2 r2 :: rest' => simplify_if_g c2 r2 rest' els
         | [] => paren_if_multi els
         end
  | None =>
    let '(kept, keep, repl) := ifexp_retain_g rest true None in
    EIf (EBranch c r :: kept)
        (if keep then els else match repl with Some x => x | None => ENil end)
  end.

Definition rw_if_expr_g (e : expr) : expr :=
  match e with
  | EIf (EBranch c r :: rest) els => simplify_if_g c r rest els
  | _ => e
  end.

Definition hooks_if_g : hooks :=
  mkHooks rw_if_block_g (fun s => s) rw_if_expr_g (fun e => e) (fun e => e) (fun e => e) (fun t => t).

End IfG.

Definition tr_static (c : expr) : option bool := is_truthy (evaluate c).

Lemma if_retain_g_agrees bs : forall keep repl, if_retain bs keep repl = if_retain_g tr_static hse bs keep repl.
Proof.
  induction bs as [|[c b] bs IH]; intros keep repl; [reflexivity|].
  cbn [if_retain if_retain_g]. unfold tr_static at 1. rewrite !IH. reflexivity.
Qed.

Lemma rw_if_stmts_agrees ss : rw_if_stmts ss = rw_stmts (if_filter_g tr_static hse) ss.
Proof.
  induction ss as [|st ss IH]; [reflexivity|]. cbn [rw_stmts].
  destruct st; cbn [rw_if_stmts if_filter_g]; rewrite ?IH; reflexivity.
Qed.

Lemma ifexp_retain_g_agrees bs : forall keep repl, ifexp_retain bs keep repl = ifexp_retain_g tr_static hse bs keep repl.
Proof.
  induction bs as [|[c r] bs IH]; intros keep repl; [reflexivity|].
  cbn [ifexp_retain ifexp_retain_g]. unfold tr_static at 1. rewrite !IH. reflexivity.
Qed.

Lemma simplify_if_agrees rest : forall c r els, simplify_if c r rest els = simplify_if_g tr_static hse c r rest els.
Proof.
  induction rest as [|[c2 r2] rest IH]; intros c r els; cbn [simplify_if simplify_if_g];
    unfold tr_static at 1; rewrite ?ifexp_retain_g_agrees, ?IH; reflexivity.
Qed.

Theorem if_g_agrees :
  (forall b, h_block hooks_if b = h_block (hooks_if_g tr_static hse) b) /\
  (forall e, h_expr hooks_if e = h_expr (hooks_if_g tr_static hse) e).
Proof.
  split.
  - intros [ss last]. cbn [hooks_if hooks_if_g h_block rw_if_block rw_if_block_g]. now rewrite rw_if_stmts_agrees.
  - intros e. cbn [hooks_if hooks_if_g h_expr]. destruct e; try reflexivity.
Qed.

Definition filter_ok (d : dialect) (st : stmt) (fr : filter_result) : Prop :=
  match fr with
  | FKeep s' | FReplace s' => forall n rho va, refines (exec_stmt d n rho va st) (exec_stmt d n rho va s')
  | FRemove => forall n rho va, refines (exec_stmt d n rho va st) (ret (rho, SigNone))
  end.

Lemma rw_stmts_ref d f ss : (forall st, filter_ok d st (f st)) -> stmts_ref d ss (rw_stmts f ss).
Proof.
  intros f_ok. induction ss as [|st ss IH]; cbn [rw_stmts]; [apply sr_nil|].
  pose proof (f_ok st) as Hst. destruct (f st) as [s'| |s']; cbn [filter_ok] in Hst.
  - now apply sr_keep.
  - now apply sr_drop.
  - now apply sr_keep.
Qed.

Section IfSound.
Variable d : dialect.
Variable tr : expr -> option bool.
Variable hs : expr -> bool.

Definition tr_ok : Prop :=
  forall c b, tr c = Some b ->
    hs c = false /\ exists v, truthy v = b /\ forall n rho va, refines (eval1 d n rho va c) (ret v).
Hypothesis Htr : tr_ok.

Lemma if_retain_g_closed bs repl : if_retain_g tr hs bs false repl = ([], false, repl).
Proof. induction bs as [|[c b] bs IH]; [reflexivity|]. cbn [if_retain_g negb]. exact IH. Qed.

Lemma sif_retain : forall bs r0 kept kp rp,
  if_retain_g tr hs bs true r0 = (kept, kp, rp) ->
  (kp = true -> rp = r0) /\ (kp = false -> exists b, rp = Some b) /\
  forall n rho va els,
    refines (sif_go d n rho va els bs) (sif_go d n rho va (if kp then els else rp) kept).
Proof.
  induction bs as [|[c b] rest IH]; intros r0 kept kp rp E.
  - cbn in E. inversion E; subst. split; [reflexivity|]. split; [discriminate|].
    intros; apply refines_refl.
  - cbn [if_retain_g negb] in E. destruct (tr c) as [[|]|] eqn:Et.
    + destruct (Htr _ _ Et) as (Hh & v & Hv & Hc). rewrite Hh in E.
      rewrite if_retain_g_closed in E. inversion E; subst.
      split; [discriminate|]. split; [eauto|].
      intros n rho va els. rewrite sif_go_cons, sif_go_nil.
      eapply refines_bind_const; [apply Hc|]. rewrite Hv. apply refines_refl.
    + destruct (Htr _ _ Et) as (Hh & v & Hv & Hc). rewrite Hh in E.
      destruct (IH _ _ _ _ E) as (H1 & H2 & H3). split; [exact H1|]. split; [exact H2|].
      intros n rho va els. rewrite sif_go_cons.
      eapply refines_bind_const; [apply Hc|]. rewrite Hv. apply H3.
    + destruct (if_retain_g tr hs rest true r0) as [[k kp'] rp'] eqn:E'. inversion E; subst.
      destruct (IH _ _ _ _ E') as (H1 & H2 & H3). split; [exact H1|]. split; [exact H2|].
      intros n rho va els. rewrite !sif_go_cons. apply refines_bind_l. intros cv.
      destruct (truthy cv); [apply refines_refl|apply H3].
Qed.

Lemma block_is_empty_eq b : block_is_empty b = true -> b = empty_block.
Proof. destruct b as [[|x ss] [l|]]; try discriminate. reflexivity. Qed.

Lemma else1_refines n rho va els bs :
  refines (sif_go d n rho va els bs) (sif_go d n rho va (else1 els) bs).
Proof.
  destruct els as [b|]; [|apply refines_refl]. cbn [else1].
  destruct (block_is_empty b) eqn:Eb; [|apply refines_refl].
  apply block_is_empty_eq in Eb. subst b. intros s Hf. apply sif_go_empty_else; [reflexivity|exact Hf].
Qed.

Lemma empty_block_refines n rho va : refines (exec_block d n rho va empty_block) (ret SigNone).
Proof.
  destruct n as [|[|n]]; try (intros s Hf; exfalso; apply Hf; reflexivity). intros s _. reflexivity.
Qed.

Lemma if_to_none bs els : (forall n rho va, refines (sif_go d n rho va els bs) (ret SigNone)) ->
  forall n rho va, refines (exec_stmt d n rho va (SIf bs els)) (ret (rho, SigNone)).
Proof.
  intros H n rho va. destruct n as [|n]; [apply refines_out, exec_stmt_0|]. rewrite exec_stmt_S_if.
  eapply refines_bind_const; [apply H|apply refines_refl].
Qed.

Lemma if_to_do bs els blk : (forall n rho va, refines (sif_go d n rho va els bs) (exec_block d n rho va blk)) ->
  forall n rho va, refines (exec_stmt d n rho va (SIf bs els)) (exec_stmt d n rho va (SDo blk)).
Proof.
  intros H n rho va. destruct n as [|n]; [apply refines_out, exec_stmt_0|]. rewrite exec_stmt_S_if, exec_stmt_S_do.
  apply refines_bind; [apply H|intros; apply refines_refl].
Qed.

Lemma if_to_if bs els bs' els' : (forall n rho va, refines (sif_go d n rho va els bs) (sif_go d n rho va els' bs')) ->
  forall n rho va, refines (exec_stmt d n rho va (SIf bs els)) (exec_stmt d n rho va (SIf bs' els')).
Proof.
  intros H n rho va. destruct n as [|n]; [apply refines_out, exec_stmt_0|]. rewrite !exec_stmt_S_if.
  apply refines_bind; [apply H|intros; apply refines_refl].
Qed.

Lemma do_or_remove bs els blk :
  (forall n rho va, refines (sif_go d n rho va els bs) (exec_block d n rho va blk)) ->
  filter_ok d (SIf bs els) (if block_is_empty blk then FRemove else FReplace (SDo blk)).
Proof.
  intros H. destruct (block_is_empty blk) eqn:Eb; cbn [filter_ok].
  - apply block_is_empty_eq in Eb. subst blk. apply if_to_none. intros n rho va.
    eapply refines_trans; [apply H|apply empty_block_refines].
  - now apply if_to_do.
Qed.

Lemma simplify_if_statement_ok bs els : filter_ok d (SIf bs els) (simplify_if_statement_g tr hs bs els).
Proof.
  unfold simplify_if_statement_g.
  destruct (if_retain_g tr hs bs true None) as [[kept kp] rp] eqn:E.
  destruct (sif_retain _ _ _ _ _ E) as (H1 & H2 & H3).
  assert (Hgo : forall n rho va,
            refines (sif_go d n rho va els bs) (sif_go d n rho va (if kp then else1 els else rp) kept)).
  { intros n rho va. eapply refines_trans; [apply else1_refines|apply H3]. }
  destruct kept as [|x kept].
  - (* no branch kept: [sif_go] on the empty list runs the else part ([sif_go_nil]) *)
    destruct rp as [blk|].
    + destruct kp; [specialize (H1 eq_refl); discriminate H1|].
      apply do_or_remove. exact Hgo.
    + destruct kp; [|destruct (H2 eq_refl) as [b Hb]; discriminate Hb].
      destruct (else1 els) as [eb|] eqn:Ee.
      * apply do_or_remove. exact Hgo.
      * cbn [filter_ok]. apply if_to_none. exact Hgo.
  - cbn [filter_ok]. now apply if_to_if.
Qed.

Lemma if_filter_ok st : filter_ok d st (if_filter_g tr hs st).
Proof.
  destruct st; try (cbn [if_filter_g filter_ok]; intros; apply refines_refl).
  apply simplify_if_statement_ok.
Qed.

Lemma ifexp_retain_g_closed bs repl : ifexp_retain_g tr hs bs false repl = ([], false, repl).
Proof. induction bs as [|[c r] bs IH]; [reflexivity|]. cbn [ifexp_retain_g negb]. exact IH. Qed.

Definition repl_expr (rp : option expr) : expr := match rp with Some x => x | None => ENil end.

Lemma eif_retain : forall bs r0 kept kp rp,
  ifexp_retain_g tr hs bs true r0 = (kept, kp, rp) ->
  forall n rho va els,
    refines (if_go d n rho va els bs) (if_go d n rho va (if kp then els else repl_expr rp) kept).
Proof.
  induction bs as [|[c r] rest IH]; intros r0 kept kp rp E.
  - cbn in E. inversion E; subst. intros; apply refines_refl.
  - cbn [ifexp_retain_g negb] in E. destruct (tr c) as [[|]|] eqn:Et.
    + destruct (Htr _ _ Et) as (Hh & v & Hv & Hc). rewrite Hh in E.
      rewrite ifexp_retain_g_closed in E. inversion E; subst.
      intros n rho va els. rewrite if_go_cons, if_go_nil.
      eapply refines_bind_const; [apply Hc|]. rewrite Hv. apply refines_refl.
    + destruct (Htr _ _ Et) as (Hh & v & Hv & Hc). rewrite Hh in E.
      intros n rho va els. rewrite if_go_cons.
      eapply refines_bind_const; [apply Hc|]. rewrite Hv. now apply (IH _ _ _ _ E).
    + destruct (ifexp_retain_g tr hs rest true r0) as [[k kp'] rp'] eqn:E'. inversion E; subst.
      intros n rho va els. rewrite !if_go_cons. apply refines_bind_l. intros cv.
      destruct (truthy cv); [apply refines_refl|now apply (IH _ _ _ _ E')].
Qed.

Lemma paren_refines n rho va r :
  refines (v <- eval1 d n rho va r ;; ret [v]) (eval d (S n) rho va (paren_if_multi r)).
Proof.
  unfold paren_if_multi. destruct (can_return_multiple_values r) eqn:Ec.
  - rewrite eval_S_paren. apply refines_refl.
  - destruct n as [|n]; [apply refines_out; intros s; unfold bind; now rewrite eval1_0|].
    rewrite eval1_S. intros s Hf. unfold bind in *.
    pose proof (eval_refines_le d n (S (S n)) rho va r ltac:(lia) s) as Hm.
    destruct (eval d n rho va r s) as [vs s1|e s1| |w] eqn:E; try (exfalso; apply Hf; reflexivity);
      rewrite Hm by discriminate; try reflexivity.
    pose proof (single_sound _ _ _ _ _ _ _ _ Ec E) as Hl.
    destruct vs as [|w [|w2 vs]]; try discriminate Hl. reflexivity.
Qed.

Lemma simplify_if_ok : forall rest c r els n rho va,
  refines (eval d n rho va (EIf (EBranch c r :: rest) els)) (eval d n rho va (simplify_if_g tr hs c r rest els)).
Proof.
  induction rest as [|[c2 r2] rest IH]; intros c r els n rho va;
    (destruct n as [|n]; [apply refines_out, eval_0|]); cbn [simplify_if_g];
    destruct (tr c) as [[|]|] eqn:Et;
    try (destruct (Htr _ _ Et) as (Hh & v & Hv & Hc); rewrite Hh).
  - rewrite eval_S_if, if_go_cons. eapply refines_bind_const; [apply Hc|]. rewrite Hv. apply paren_refines.
  - rewrite eval_S_if, if_go_cons. eapply refines_bind_const; [apply Hc|]. rewrite Hv. rewrite if_go_nil.
    apply paren_refines.
  - cbn [ifexp_retain_g]. apply refines_refl.
  - rewrite eval_S_if, if_go_cons. eapply refines_bind_const; [apply Hc|]. rewrite Hv. apply paren_refines.
  - rewrite eval_S_if, if_go_cons. eapply refines_bind_const; [apply Hc|]. rewrite Hv.
    rewrite <- eval_S_if. apply IH.
  - destruct (ifexp_retain_g tr hs (EBranch c2 r2 :: rest) true None) as [[k kp] rp] eqn:E.
    rewrite !eval_S_if, !if_go_cons. apply refines_bind_l. intros cv.
    destruct (truthy cv); [apply refines_refl|]. now apply (eif_retain _ _ _ _ _ E).
Qed.

Lemma rw_if_expr_ok e : ref_expr d e (rw_if_expr_g tr hs e).
Proof.
  destruct e; try apply ref_expr_refl. destruct branches as [|[c r] rest]; [apply ref_expr_refl|].
  cbn [rw_if_expr_g]. intros n rho va. apply simplify_if_ok.
Qed.

Theorem lifting_if_g : forall n orc b out,
  run_chunk d n orc b = out -> out <> OutFuel ->
  run_chunk d n orc (apply_hooks (hooks_if_g tr hs) b) = out.
Proof.
  apply (lifting_refining_hooks d (hooks_if_g tr hs)).
  - exact rw_if_expr_ok.
  - exact (ref_expr_refl d).
  - exact (ref_var_refl d).
  - exact (ref_expr_refl d).
  - exact (ref_entries_refl d).
  - exact (ref_stmt_refl d).
  - intros [ss last]. apply stmts_ref_block, rw_stmts_ref, if_filter_ok.
Qed.

End IfSound.

Definition lit_truthy (c : expr) : option bool :=
  match c with
  | ETrue | ENumber _ | EString _ => Some true
  | EFalse | ENil => Some false
  | _ => None
  end.

Lemma lit_truthy_static c b : lit_truthy c = Some b -> tr_static c = Some b /\ hse c = false.
Proof. destruct c; cbn; intros H; inversion H; subst; split; reflexivity. Qed.

Lemma lit_truthy_cval c b : lit_truthy c = Some b -> exists v, cval c = Some v /\ truthy v = b.
Proof. destruct c; cbn; intros H; inversion H; eexists; split; reflexivity. Qed.

Lemma lit_truthy_ok d : tr_ok d lit_truthy hse.
Proof.
  intros c b H. split; [exact (proj2 (lit_truthy_static c b H))|].
  destruct (lit_truthy_cval c b H) as (v & Hc & Hv). exists v. split; [exact Hv|].
  intros n rho va. now apply cval_sound1.
Qed.

Definition rule_remove_unused_if_branch_literal : block -> block := apply_hooks (hooks_if_g lit_truthy hse).

Theorem lifting_remove_unused_if_branch_literal : forall d n orc b out,
  run_chunk d n orc b = out -> out <> OutFuel ->
  run_chunk d n orc (rule_remove_unused_if_branch_literal b) = out.
Proof. intros d. apply (lifting_if_g d lit_truthy hse). apply lit_truthy_ok. Qed.

(** the rule itself, on programs in which every condition it decides is a literal *)
Theorem lifting_remove_unused_if_branch_partial : forall d n orc b out,
  rule_remove_unused_if_branch b = rule_remove_unused_if_branch_literal b ->
  run_chunk d n orc b = out -> out <> OutFuel ->
  run_chunk d n orc (rule_remove_unused_if_branch b) = out.
Proof. intros d n orc b out ->. apply lifting_remove_unused_if_branch_literal. Qed.
