(** C20 — sanity facts about the glob model (Model/FiltersGlob.v). *)
From Coq Require Import List Bool String Ascii NArith.
From DL Require Import Model.FiltersGlob.
Import ListNotations.
Open Scope string_scope.
Open Scope list_scope.

Lemma tree_unfold rest ps :
  match_comps (CTree :: rest) ps =
  (match_comps rest ps || match ps with [] => false | _ :: ps' => match_comps (CTree :: rest) ps' end)%bool.
Proof. destruct ps; reflexivity. Qed.

(** a `**/` prefix lets the rest of the pattern match at any depth, whatever the number of components the
    rest has: in particular `**/sub/a.lua` matches every path ending in `sub/a.lua` *)
Lemma tree_prefix g : forall pre ps, match_comps g ps = true -> match_comps (CTree :: g) (pre ++ ps) = true.
Proof.
  induction pre as [|p pre IH]; intros ps H; rewrite tree_unfold.
  - cbn [app]. rewrite H. reflexivity.
  - cbn [app]. rewrite (IH ps H). apply orb_true_r.
Qed.

Lemma tree_prefix_inv g : forall ps, match_comps (CTree :: g) ps = true ->
  exists pre suf, ps = pre ++ suf /\ match_comps g suf = true.
Proof.
  induction ps as [|p ps IH]; rewrite tree_unfold; intros H.
  - rewrite orb_false_r in H. exists [], []. split; [reflexivity|exact H].
  - apply orb_true_iff in H. destruct H as [H|H].
    + exists [], (p :: ps). split; [reflexivity|exact H].
    + destruct (IH H) as [pre [suf [-> Hs]]]. exists (p :: pre), suf. split; [reflexivity|exact Hs].
Qed.

Lemma match_atoms_lits : forall cs cs', match_atoms (map AChar cs) cs' = true <-> cs = cs'.
Proof.
  induction cs as [|c cs IH]; intros cs'; cbn [map match_atoms].
  - destruct cs'; cbn; split; intros H; congruence.
  - destruct cs' as [|c' cs']; [split; intros H; discriminate|]. cbn [atom_char].
    rewrite andb_true_iff, IH, Ascii.eqb_eq. split; [intros [-> ->]; reflexivity|intros [= -> ->]; auto].
Qed.

Definition g_sub_a : glob := [CTree; CComp (lit "sub"); CComp (lit "a.lua")].    (* **/sub/a.lua *)

Example ex_multi_component_after_tree :
  glob_match g_sub_a "sub/a.lua" = true /\ glob_match g_sub_a "src/sub/a.lua" = true /\
  glob_match g_sub_a "src/x/sub/a.lua" = true /\ glob_match g_sub_a "a.lua" = false /\
  glob_match g_sub_a "src/sub/b.lua" = false /\ glob_match g_sub_a "src/sub/a.lua/x" = false.
Proof. vm_compute. repeat split. Qed.

Example ex_features :
  glob_match [CComp (lit "src"); CTree; CComp (lit "deep"); CComp (lit "c.lua")] "src/deep/c.lua" = true /\
  glob_match [CComp (lit "src"); CTree; CComp (lit "deep"); CComp (lit "c.lua")] "src/x/y/deep/c.lua" = true /\
  glob_match [CTree; CComp (lit "sub"); CComp (FAtom AStar :: lit ".lua")] "src/sub/b.lua" = true /\
  glob_match [CTree; CComp (lit "sub"); CComp (FAtom AStar :: lit ".lua")] "src/sub/deep/c.lua" = false /\
  glob_match [CComp (lit "src"); CComp [FAtom (AClass true [one "a"%char]); FAtom AStar]] "src/b.lua" = true /\
  glob_match [CComp (lit "src"); CComp [FAtom (AClass true [one "a"%char]); FAtom AStar]] "src/ab.lua" = false /\
  glob_match [CComp (lit "src"); CComp (FAlt [lits "a"; lits "b"] :: lit ".lua")] "src/b.lua" = true /\
  glob_match [CComp (lit "src"); CTree] "src" = true /\ glob_match [CTree] "" = true.
Proof. vm_compute. repeat split. Qed.
