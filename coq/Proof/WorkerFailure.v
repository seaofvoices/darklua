(** What the model records when a transformation FAILS, and what that record is good for:
    the files a failed attempt registered stay in the item ([advance]), are linked in
    [external_dependencies] by the pass ([sweep]), and a later change of any of them restarts the
    item ([source_changed]) - so a failed bundle is retried when a file it had read changes. *)
From Coq Require Import Arith PeanoNat Lia.
From DL Require Import Lib.Bytes Model.WorkerFs Model.Worker Proof.WorkerBasics Proof.WorkerInv
     Proof.WorkerLoop.
Open Scope N_scope.

Section Failure.
  Variable cfg : Type.
  Variable xform : cfg -> path -> content -> fs -> option content * list path.

  (** [Worker::bundle] / [apply_rules]: [external_file_dependencies.extend(..)] happens before
      the [?] on the rule result *)
  Theorem failed_run_keeps_dependencies c it f txt :
    fs_get f (i_src it) = Some txt ->
    fst (xform c (i_src it) txt f) = None ->
    i_st (fst (advance cfg xform c it f)) = DoneErr /\
    snd (advance cfg xform c it f) = f /\
    forall d, In d (snd (xform c (i_src it) txt f)) -> In d (i_deps (fst (advance cfg xform c it f))).
  Proof.
    intros Hs Hx. unfold advance. rewrite Hs.
    destruct (xform c (i_src it) txt f) as [r ds]. cbn [fst snd] in *. subst r. cbn [fst snd i_st i_deps].
    repeat split. intros d Hd. apply in_or_app. left. exact Hd.
  Qed.

  Theorem sweep_links_dependencies c : forall s i e f done s2 e2 f2 d2,
    sweep cfg xform c s i e f done = (s2, e2, f2, d2) ->
    (forall q j, In j (ext_get e q) -> In j (ext_get e2 q)) /\
    forall k it2 dep, nth k s2 None = Some it2 -> In dep (i_deps it2) -> In (i + k)%nat (ext_get e2 dep).
  Proof.
    induction s as [|o s IH]; intros i e f done s2 e2 f2 d2 H.
    - cbn in H. injection H as <- <- _ _. split; [auto|]. intros k it2 dep Hk. destruct k; discriminate.
    - apply sweep_cons_inv in H as [s' [-> Et]]. apply IH in Et as [Hmono Hlink]. split.
      + intros q j Hj. apply Hmono. destruct o; [apply ext_get_link_all; left|]; exact Hj.
      + intros [|k] it2 dep Hk Hdep; cbn [nth] in Hk.
        * destruct o as [it|]; [|discriminate]. injection Hk as <-.
          rewrite Nat.add_0_r. apply Hmono, ext_get_link_all. right. split; [exact Hdep|reflexivity].
        * rewrite Nat.add_succ_r. apply (Hlink k it2 dep Hk Hdep).
  Qed.
End Failure.

Theorem source_changed_restarts_dependents inp outp E t p i it :
  wf inp outp E t -> get_slot (slots t) i = Some it -> In p (i_deps it) ->
  exists t' it', source_changed t p = Ok t' /\ get_slot (slots t') i = Some it' /\
                 i_st it' = NotStarted /\ i_src it' = i_src it.
Proof.
  intros W Hi Hp.
  destruct (source_changed_ok inp outp E t p W) as [t' [R [_ [_ [_ [Hg [_ Hdep]]]]]]].
  destruct (restarted_fwd _ _ _ _ Hg Hi) as [b Hb].
  exists t', (reset_if b it). split; [exact R|]. split; [exact Hb|].
  (* had it not been restarted, it would still depend on [p] *)
  destruct b; [auto|]. destruct (Hdep i it Hb Hp).
Qed.
