(** C01, LIFTING - the fundamental lemma: forward same-fuel simulation of the reference
    interpreter between a program and its rewriting, by induction on the fuel: one lemma per
    interpreter function that reads syntax (the organisation of Proof/RefactorSimC.v), the ten
    value operations from Proof/ValueSim.v.

    Parameters: the base relations [Re], [Rt], [Rs], [Rb] of Proof/LiftingDefs.v and, as LOCAL
    hypotheses, node-level refinements in the SAME store
        [Re e e1 -> refines (eval d n rho va e) (eval d n rho va e1)]   (for every n, rho, va)
    ([refines m1 m2]: wherever [m1] does not run out of fuel, [m2] yields the very same
    result, Proof/LoweringFuel.v), likewise for assignment targets ([Rv], [eval_target]), table-constructor entry
    lists, statements, blocks (run as a block and run as the body of [repeat]).

    Result [sim_all_holds]: for every fuel [n] and every function [F] of the interpreter, if the
    syntax arguments are [crel_*]-related and the stores [lstore_rel]-related then
    [fwd eq (F n ... s1) (F n ... s2)]: a left run that does not end in [Fuel] is matched by
    the right run WITH THE SAME FUEL (same values / same Lua error / same [Unsup] tag, related
    final stores). *)
From Coq Require Import ZArith NArith List Bool String Lia.
From DL Require Import Lib.Bytes Lib.F64 Lua.Syntax Lua.Sem.
From DL Require Import Proof.LoweringFuel.
From DL Require Import Proof.SemFacts Proof.DefaultRulesSem Proof.RefactorSem.
From DL Require Import Proof.ValueSim Proof.LiftingDefs.
Import ListNotations.
Open Scope N_scope.

Section Sim.
Variable d : dialect.
Variable Re : expr -> expr -> Prop.
Variable Rv : expr -> expr -> Prop.
Variable Rt : list tentry -> list tentry -> Prop.
Variable Rs : stmt -> stmt -> Prop.
Variable Rb : block -> block -> Prop.

Local Notation cE := (crel_expr Re Rv Rt Rs Rb).
Local Notation gE := (cong_expr Re Rv Rt Rs Rb).
Local Notation cV := (crel_var Re Rv Rt Rs Rb).
Local Notation cA := (crel_args Re Rv Rt Rs Rb).
Local Notation cT := (crel_entries Re Rv Rt Rs Rb).
Local Notation gT := (cong_tentry Re Rv Rt Rs Rb).
Local Notation cS := (crel_stmt Re Rv Rt Rs Rb).
Local Notation gS := (cong_stmt Re Rv Rt Rs Rb).
Local Notation cB := (crel_block Re Rv Rt Rs Rb).
Local Notation gB := (cong_block Re Rv Rt Rs Rb).
Local Notation cL := (crel_last Re Rv Rt Rs Rb).
Local Notation cF := (frel Re Rv Rt Rs Rb).
Local Notation fsim := (fsimR cB eq).
Local Definition FL := fsim_logic cB.

Hypothesis HRe : forall e e1, Re e e1 -> forall n rho va,
  refines (eval d n rho va e) (eval d n rho va e1).
Hypothesis HRv : forall e e1, Rv e e1 -> forall n rho va,
  refines (eval_target d n rho va e) (eval_target d n rho va e1).
Hypothesis HRt : forall ens ens1, Rt ens ens1 -> forall n rho va a pos,
  refines (fill_table d n rho va a ens pos) (fill_table d n rho va a ens1 pos).
Hypothesis HRs : forall st st1, Rs st st1 -> forall n rho va,
  refines (exec_stmt d n rho va st) (exec_stmt d n rho va st1).
Hypothesis HRb : forall b b1, Rb b b1 -> forall n rho va,
  refines (exec_block d n rho va b) (exec_block d n rho va b1).
Hypothesis HRb_repeat : forall b b1, Rb b b1 -> forall n rho va c,
  refines (exec_repeat d n rho va b c) (exec_repeat d n rho va b1 c).

Record sim_all (n : nat) : Prop := {
  sa_call : forall f args, fsim (call d n f args) (call d n f args);
  sa_index : forall o k, fsim (index d n o k) (index d n o k);
  sa_setindex : forall o k v, fsim (setindex d n o k v) (setindex d n o k v);
  sa_tostr : forall v, fsim (tostr d n v) (tostr d n v);
  sa_arith : forall o a b, fsim (arith d n o a b) (arith d n o a b);
  sa_concat : forall a b, fsim (concat d n a b) (concat d n a b);
  sa_equal : forall a b, fsim (equal d n a b) (equal d n a b);
  sa_less : forall st a b, fsim (less d n st a b) (less d n st a b);
  sa_length : forall v, fsim (length d n v) (length d n v);
  sa_builtin : forall b args, fsim (call_builtin d n b args) (call_builtin d n b args);
  sa_eval : forall rho va e e', cE e e' -> fsim (eval d n rho va e) (eval d n rho va e');
  sa_eval1 : forall rho va e e', cE e e' -> fsim (eval1 d n rho va e) (eval1 d n rho va e');
  sa_eval_list : forall rho va es es', Forall2 cE es es' ->
                 fsim (eval_list d n rho va es) (eval_list d n rho va es');
  sa_eval_args : forall rho va a a', cA a a' -> fsim (eval_args d n rho va a) (eval_args d n rho va a');
  sa_fill : forall rho va a ens ens' pos, cT ens ens' ->
            fsim (fill_table d n rho va a ens pos) (fill_table d n rho va a ens' pos);
  sa_block : forall rho va b b', cB b b' -> fsim (exec_block d n rho va b) (exec_block d n rho va b');
  sa_stmts : forall rho va ss ss' last last', Forall2 cS ss ss' -> opt_rel cL last last' ->
             fsim (exec_stmts d n rho va ss last) (exec_stmts d n rho va ss' last');
  sa_assign_target : forall rho t v, fsim (assign_target d n rho t v) (assign_target d n rho t v);
  sa_eval_target : forall rho va e e', cV e e' -> fsim (eval_target d n rho va e) (eval_target d n rho va e');
  sa_stmt : forall rho va st st', cS st st' -> fsim (exec_stmt d n rho va st) (exec_stmt d n rho va st');
  sa_while : forall rho va c c' b b', cE c c' -> cB b b' ->
             fsim (exec_while d n rho va c b) (exec_while d n rho va c' b');
  sa_repeat : forall rho va b b' c c', cB b b' -> cE c c' ->
              fsim (exec_repeat d n rho va b c) (exec_repeat d n rho va b' c');
  sa_numfor : forall rho va x i stop step b b', cB b b' ->
              fsim (exec_numfor d n rho va x i stop step b) (exec_numfor d n rho va x i stop step b');
  sa_genfor : forall rho va vars vars' f s ctl b b', map param_name vars = map param_name vars' -> cB b b' ->
              fsim (exec_genfor d n rho va vars f s ctl b) (exec_genfor d n rho va vars' f s ctl b')
}.

Lemma sim_all_0 : sim_all 0.
Proof. constructor; intros; intros s1 s2 Hs; exact I. Qed.

Section Step.
Variable n : nat.
Hypothesis IH : sim_all n.

Local Lemma IHv : vsim (@fsimR cB) d n.
Proof. destruct IH. now constructor. Qed.

Local Lemma lclos_call c1 c2 : lclos_rel cB c1 c2 ->
  map param_name (effective_params c1) = map param_name (effective_params c2) /\
  closure_variadic c1 = closure_variadic c2 /\
  forall r va, map fst r = map param_name (effective_params c1) ->
    fsim (exec_block d n (rev r ++ c_env c1) va (closure_block c1))
         (exec_block d n (rev r ++ c_env c2) va (closure_block c2)).
Proof.
  intros (H1 & H2 & H3 & H4). repeat split; auto. intros r va _. rewrite H4. now apply (sa_block _ IH).
Qed.

(** [ihe]: the clause of the induction hypothesis for the interpreter function at the head of the
    goal, [side] for its syntax premises; any other goal is a value operation ([vs_leaf]) *)
Local Ltac side :=
  first [ eassumption
        | apply cr_e_same; constructor
        | apply cr_v_same; constructor
        | apply cr_b_same; constructor; eassumption
        | apply cr_t_same; eassumption
        | constructor; eassumption ].
Local Ltac ihe :=
  idtac;
  lazymatch goal with
  | |- fsimR _ _ (eval _ _ _ _ _) (eval _ _ _ _ _) => apply (sa_eval _ IH); side
  | |- fsimR _ _ (eval1 _ _ _ _ _) (eval1 _ _ _ _ _) => apply (sa_eval1 _ IH); side
  | |- fsimR _ _ (eval_list _ _ _ _ _) (eval_list _ _ _ _ _) => apply (sa_eval_list _ IH); side
  | |- fsimR _ _ (eval_args _ _ _ _ _) (eval_args _ _ _ _ _) => apply (sa_eval_args _ IH); side
  | |- fsimR _ _ (fill_table _ _ _ _ _ _ _) (fill_table _ _ _ _ _ _ _) => apply (sa_fill _ IH); side
  | |- fsimR _ _ (exec_block _ _ _ _ _) (exec_block _ _ _ _ _) => apply (sa_block _ IH); side
  | |- fsimR _ _ (exec_stmts _ _ _ _ _ _) (exec_stmts _ _ _ _ _ _) => apply (sa_stmts _ IH); side
  | |- fsimR _ _ (eval_target _ _ _ _ _) (eval_target _ _ _ _ _) => apply (sa_eval_target _ IH); side
  | |- fsimR _ _ (exec_while _ _ _ _ _ _) (exec_while _ _ _ _ _ _) => apply (sa_while _ IH); side
  | |- fsimR _ _ (exec_repeat _ _ _ _ _ _) (exec_repeat _ _ _ _ _ _) => apply (sa_repeat _ IH); side
  | |- fsimR _ _ (exec_numfor _ _ _ _ _ _ _ _ _) (exec_numfor _ _ _ _ _ _ _ _ _) => apply (sa_numfor _ IH); side
  | |- fsimR _ _ (exec_genfor _ _ _ _ _ _ _ _ _) (exec_genfor _ _ _ _ _ _ _ _ _) => apply (sa_genfor _ IH); side
  | |- fsimR _ _ (assign_target _ _ _ _ _) (assign_target _ _ _ _ _) => apply (sa_assign_target _ IH)
  | |- _ => vs_leaf FL IHv
  end.

Local Lemma fs_if_go rho va els els' bs bs' :
  Forall2 (crel_ebranch Re Rv Rt Rs Rb) bs bs' -> cE els els' ->
  fsim (if_go d n rho va els bs) (if_go d n rho va els' bs').
Proof.
  intros Hb Hc. induction Hb as [|b b' bs bs' Hb1 Hb IHb].
  - rewrite !if_go_nil. sl_with FL ihe.
  - destruct Hb1. rewrite !if_go_cons. sl_with FL ltac:(first [ihe | exact IHb]).
Qed.

Local Lemma fs_interp_go rho va segs segs' : Forall2 (crel_iseg Re Rv Rt Rs Rb) segs segs' -> forall acc,
  fsim (interp_go d n rho va segs acc) (interp_go d n rho va segs' acc).
Proof.
  induction 1 as [|sg sg' segs segs' H1 Hs IHs]; intros acc.
  - rewrite !interp_go_nil. sl FL.
  - destruct H1.
    + rewrite !interp_go_str. apply IHs.
    + rewrite !interp_go_expr. sl_with FL ltac:(first [ihe | apply IHs]).
Qed.

Local Lemma frel_clos self self' f f' rho : cF self self' f f' ->
  lclos_rel cB (mkClosure f rho self) (mkClosure f' rho self').
Proof.
  intros H. destruct H as [self self' ps ps' v vt vt' rt rt' g g' at_ at_' body body' Hn Hb].
  unfold lclos_rel, effective_params, closure_variadic, closure_block. cbn [c_body c_env c_self].
  repeat split; auto.
Qed.

Local Lemma step_eval_cong rho va e e' : gE e e' -> fsim (eval d (S n) rho va e) (eval d (S n) rho va e').
Proof.
  intros Hg. destruct Hg.
  - rewrite !eval_S_nil. sl FL.
  - rewrite !eval_S_true. sl FL.
  - rewrite !eval_S_false. sl FL.
  - rewrite !eval_S_number. sl FL.
  - rewrite !eval_S_string. sl FL.
  - rewrite !eval_S_interp. now apply fs_interp_go.
  - rewrite !eval_S_varargs. sl FL.
  - rewrite !eval_S_ident. sl_with FL ihe.
  - rewrite !eval_S_field. sl_with FL ihe.
  - rewrite !eval_S_index. sl_with FL ihe.
  - rewrite !eval_S_call. sl_with FL ihe.
  - rewrite !eval_S_function. apply (sl_bind_eq FL); [|intros; sl FL].
    apply (sl_new_closure FL). now apply frel_clos.
  - rewrite !eval_S_if. now apply fs_if_go.
  - rewrite !eval_S_paren. sl_with FL ihe.
  - rewrite !eval_S_table. sl_with FL ihe.
  - rewrite !eval_S_unary. sl_with FL ihe.
  - destruct op;
      first [rewrite !eval_S_and | rewrite !eval_S_or | rewrite !eval_S_binop by reflexivity; unfold binop_sem];
      sl_with FL ihe.
  - rewrite !eval_S_typecast. sl_with FL ihe.
  - rewrite !eval_S_typeinst. sl_with FL ihe.
Qed.

Local Lemma step_eval rho va e e' : cE e e' -> fsim (eval d (S n) rho va e) (eval d (S n) rho va e').
Proof.
  intros Hc. destruct Hc as [e e' Hg | e e1 e' Hr Hg].
  - now apply step_eval_cong.
  - eapply fsim_refines_l; [apply HRe; exact Hr|]. now apply step_eval_cong.
Qed.

Local Lemma step_eval1 rho va e e' : cE e e' -> fsim (eval1 d (S n) rho va e) (eval1 d (S n) rho va e').
Proof. intros Hc. rewrite !eval1_S. sl_with FL ihe. Qed.

Local Lemma step_eval_list rho va es es' : Forall2 cE es es' ->
  fsim (eval_list d (S n) rho va es) (eval_list d (S n) rho va es').
Proof.
  intros Hc. destruct Hc as [|e e' es es' He Hc].
  - rewrite !eval_list_S_nil. sl FL.
  - destruct Hc as [|e2 e2' rest rest' He2 Hc].
    + rewrite !eval_list_S_one. ihe.
    + rewrite !eval_list_S_cons. sl_with FL ihe.
Qed.

Local Lemma step_eval_args rho va a a' : cA a a' -> fsim (eval_args d (S n) rho va a) (eval_args d (S n) rho va a').
Proof.
  intros Hc. destruct Hc.
  - rewrite !eval_args_S_tuple. ihe.
  - rewrite !eval_args_S_string. sl FL.
  - rewrite !eval_args_S_table. sl_with FL ihe.
Qed.

Local Lemma step_fill_cong rho va a ens ens' pos : Forall2 gT ens ens' ->
  fsim (fill_table d (S n) rho va a ens pos) (fill_table d (S n) rho va a ens' pos).
Proof.
  intros Hc. destruct Hc as [|en en' rest rest' He Hc].
  - rewrite !fill_table_S_nil. sl FL.
  - destruct He.
    + rewrite !fill_table_S_field. sl_with FL ltac:(first [apply (vs_put FL) | ihe]).
    + rewrite !fill_table_S_index. sl_with FL ltac:(first [apply (vs_put FL) | ihe]).
    + destruct Hc as [|x x' rest rest' Hx Hc].
      * rewrite !fill_table_S_last. sl_with FL ltac:(first [apply (vs_fill_go FL) | ihe]).
      * rewrite !fill_table_S_value.
        sl_with FL ltac:(first [apply (vs_put_pos FL) | apply (sa_fill _ IH); apply cr_t_same; constructor; assumption | ihe]).
Qed.

Local Lemma step_fill rho va a ens ens' pos : cT ens ens' ->
  fsim (fill_table d (S n) rho va a ens pos) (fill_table d (S n) rho va a ens' pos).
Proof.
  intros Hc. destruct Hc as [ens ens' Hg | ens ens1 ens' Hr Hg].
  - now apply step_fill_cong.
  - eapply fsim_refines_l; [apply HRt; exact Hr|]. now apply step_fill_cong.
Qed.

Local Lemma step_block_cong rho va b b' : gB b b' -> fsim (exec_block d (S n) rho va b) (exec_block d (S n) rho va b').
Proof. intros Hg. destruct Hg. rewrite !exec_block_S. ihe. Qed.

Local Lemma step_block rho va b b' : cB b b' -> fsim (exec_block d (S n) rho va b) (exec_block d (S n) rho va b').
Proof.
  intros Hc. destruct Hc as [b b' Hg | b b1 b' Hr Hg].
  - now apply step_block_cong.
  - eapply fsim_refines_l; [apply HRb; exact Hr|]. now apply step_block_cong.
Qed.

Local Lemma step_stmts rho va ss ss' last last' : Forall2 cS ss ss' -> opt_rel cL last last' ->
  fsim (exec_stmts d (S n) rho va ss last) (exec_stmts d (S n) rho va ss' last').
Proof.
  intros Hc Hl. destruct Hc as [|st st' rest rest' Hs Hc].
  - rewrite !exec_stmts_S_nil. destruct Hl as [|l l' Hl]; [sl FL|]. destruct Hl; sl_with FL ihe.
  - rewrite !exec_stmts_S_cons. apply (sl_bind_eq FL).
    + now apply (sa_stmt _ IH).
    + intros [r1 g1]. unfold stmts_cont. destruct g1; sl_with FL ihe.
Qed.

Local Lemma step_eval_target_cong rho va e e' : gE e e' ->
  fsim (eval_target d (S n) rho va e) (eval_target d (S n) rho va e').
Proof.
  intros Hg. destruct Hg; try (rewrite !eval_target_S_other by reflexivity; sl FL).
  - rewrite !eval_target_S_ident. sl FL.
  - rewrite !eval_target_S_field. sl_with FL ihe.
  - rewrite !eval_target_S_index. sl_with FL ihe.
Qed.

Local Lemma step_eval_target rho va e e' : cV e e' ->
  fsim (eval_target d (S n) rho va e) (eval_target d (S n) rho va e').
Proof.
  intros Hc. destruct Hc as [e e' Hg | e e1 e' Hr Hg].
  - now apply step_eval_target_cong.
  - eapply fsim_refines_l; [apply HRv; exact Hr|]. now apply step_eval_target_cong.
Qed.

Local Lemma fs_targets_go rho va vars vars' : Forall2 cV vars vars' ->
  fsim (targets_go d n rho va vars) (targets_go d n rho va vars').
Proof.
  induction 1 as [|v v' vars vars' Hv Hc IHv].
  - rewrite !targets_go_nil. sl FL.
  - rewrite !targets_go_cons. sl_with FL ltac:(first [ihe | exact IHv]).
Qed.

Local Lemma fs_sif_go rho va els els' bs bs' :
  Forall2 (crel_sbranch Re Rv Rt Rs Rb) bs bs' -> opt_rel cB els els' ->
  fsim (sif_go d n rho va els bs) (sif_go d n rho va els' bs').
Proof.
  intros Hb Hc. induction Hb as [|b b' bs bs' Hb1 Hb IHb].
  - rewrite !sif_go_nil. destruct Hc; sl_with FL ihe.
  - destruct Hb1. rewrite !sif_go_cons. sl_with FL ltac:(first [ihe | exact IHb]).
Qed.

Local Lemma fs_sfunction_store rho va base path c :
  fsim (sfunction_store d n rho va base path c) (sfunction_store d n rho va base path c).
Proof.
  unfold sfunction_store. destruct path; sl_with FL ltac:(first [apply (vs_path_go FL IHv) | ihe]).
Qed.

Local Lemma fs_repeat_go va last last' ss ss' : Forall2 cS ss ss' -> opt_rel cL last last' -> forall rho,
  fsim (repeat_go d n va last ss rho) (repeat_go d n va last' ss' rho).
Proof.
  intros Hc Hl. induction Hc as [|st st' ss ss' Hs Hc IHs]; intros rho.
  - rewrite !repeat_go_nil. destruct Hl as [|l l' Hl]; [sl FL|]. destruct Hl; sl_with FL ihe.
  - rewrite !repeat_go_cons. apply (sl_bind_eq FL).
    + now apply (sa_stmt _ IH).
    + intros [r1 g1]. destruct g1; try (apply (sl_ret FL); reflexivity). apply IHs.
Qed.

Local Lemma step_stmt_cong rho va st st' : gS st st' ->
  fsim (exec_stmt d (S n) rho va st) (exec_stmt d (S n) rho va st').
Proof.
  intros Hg. destruct Hg.
  - rewrite !exec_stmt_S_assign.
    sl_with FL ltac:(first [apply fs_targets_go; assumption | apply (vs_assign_go FL), (sa_assign_target _ IH) | ihe]).
  - rewrite !exec_stmt_S_do. sl_with FL ihe.
  - rewrite !exec_stmt_S_call. sl_with FL ihe.
  - rewrite !exec_stmt_S_compound. sl_with FL ihe.
  - rewrite !exec_stmt_S_function.
    match goal with H : _ ++ opt_list _ = _ ++ opt_list _ |- _ => unfold opt_list in H; rewrite H end.
    apply (sl_bind_eq FL).
    + apply (sl_new_closure FL). apply frel_clos.
      match goal with H : cF _ _ _ _ |- _ => unfold is_some in H; exact H end.
    + intros c. apply fs_sfunction_store.
  - rewrite !exec_stmt_S_genfor. sl_with FL ihe.
  - rewrite !exec_stmt_S_if. sl_with FL ltac:(first [apply fs_sif_go; assumption | ihe]).
  - rewrite !exec_stmt_S_local. apply (sl_bind_eq FL); [ihe|]. intros vs.
    apply (sl_bind_eq FL); [apply fs_local_go; assumption|]. intros r. sl FL.
  - rewrite !exec_stmt_S_localfunction. apply (sl_bind_eq FL); [sl_leaf FL|]. intros a.
    apply (sl_bind_eq FL).
    + apply (sl_new_closure FL). now apply frel_clos.
    + intros c. sl FL.
  - rewrite !exec_stmt_S_numfor.
    match goal with H : param_name _ = param_name _ |- _ => rewrite H end.
    match goal with H : opt_rel _ _ _ |- _ => destruct H end; sl_with FL ihe.
  - rewrite !exec_stmt_S_repeat. sl_with FL ihe.
  - rewrite !exec_stmt_S_while. sl_with FL ihe.
  - rewrite !exec_stmt_S_typedecl. sl FL.
  - rewrite !exec_stmt_S_typefunction. sl FL.
Qed.

Local Lemma step_stmt rho va st st' : cS st st' -> fsim (exec_stmt d (S n) rho va st) (exec_stmt d (S n) rho va st').
Proof.
  intros Hc. destruct Hc as [st st' Hg | st st1 st' Hr Hg].
  - now apply step_stmt_cong.
  - eapply fsim_refines_l; [apply HRs; exact Hr|]. now apply step_stmt_cong.
Qed.

Local Lemma step_while rho va c c' b b' : cE c c' -> cB b b' ->
  fsim (exec_while d (S n) rho va c b) (exec_while d (S n) rho va c' b').
Proof. intros Hc Hb. rewrite !exec_while_S. sl_with FL ihe. Qed.

Local Lemma step_repeat_cong rho va b b' c c' : gB b b' -> cE c c' ->
  fsim (exec_repeat d (S n) rho va b c) (exec_repeat d (S n) rho va b' c').
Proof.
  intros Hb Hc. destruct Hb as [ss ss' last last' Hss Hl]. rewrite !exec_repeat_S. apply (sl_bind_eq FL).
  - now apply fs_repeat_go.
  - intros [r1 g1]. destruct g1; sl_with FL ihe.
Qed.

Local Lemma step_repeat rho va b b' c c' : cB b b' -> cE c c' ->
  fsim (exec_repeat d (S n) rho va b c) (exec_repeat d (S n) rho va b' c').
Proof.
  intros Hb Hc. destruct Hb as [b b' Hg | b b1 b' Hr Hg].
  - now apply step_repeat_cong.
  - eapply fsim_refines_l; [apply HRb_repeat; exact Hr|]. now apply step_repeat_cong.
Qed.

Local Lemma step_numfor rho va x i stop step b b' : cB b b' ->
  fsim (exec_numfor d (S n) rho va x i stop step b) (exec_numfor d (S n) rho va x i stop step b').
Proof. intros Hb. rewrite !exec_numfor_S. sl_with FL ihe. Qed.

Local Lemma step_genfor rho va vars vars' f s ctl b b' : map param_name vars = map param_name vars' -> cB b b' ->
  fsim (exec_genfor d (S n) rho va vars f s ctl b) (exec_genfor d (S n) rho va vars' f s ctl b').
Proof.
  intros Hv Hb. rewrite !exec_genfor_S. apply (sl_bind_eq FL); [ihe|]. intros vs.
  destruct (first vs); [sl FL|..];
    (apply (sl_bind_eq FL); [apply fs_local_go; assumption|]; intros r; sl_with FL ihe).
Qed.

Lemma sim_all_S : sim_all (S n).
Proof.
  destruct (vsim_S FL IHv lclos_call)
    as [Hcall Hindex Hsetindex Htostr Harith Hconcat Hequal Hless Hlength Hbuiltin].
  exact (Build_sim_all (S n) Hcall Hindex Hsetindex Htostr Harith Hconcat Hequal Hless Hlength Hbuiltin
           step_eval step_eval1 step_eval_list step_eval_args step_fill
           step_block step_stmts (fun rho => step_assign_target FL IHv rho rho) step_eval_target step_stmt step_while step_repeat
           step_numfor step_genfor).
Qed.

End Step.

Theorem sim_all_holds n : sim_all n.
Proof. induction n as [|n IHn]; [exact sim_all_0 | exact (sim_all_S n IHn)]. Qed.

End Sim.
