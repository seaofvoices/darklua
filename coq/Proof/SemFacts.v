(** Reasoning about a run of the reference interpreter ([Lua/Sem.v]); this is the file to
    import for it, and it exports the equations of [Proof/SemUnfold.v].  A run is opened by
    rewriting, never by [simpl] or [cbn] on the interpreter: [fuel_S n H] turns the fuel of a
    successful run [H] into a successor, the equation [F_S_c] (here) or [F_S] ([SemUnfold.v])
    of the function and constructor at hand exposes one step, and [inv_ok] / [binv] take the
    resulting chain of binds apart; a goal at fuel 0 is rewritten with [fuel0].  The equations
    are grouped by function, in the order of [Sem.v].  What is not here: the call of a closure
    and the function statement ([Proof/DefaultRulesSem.v], with the vocabulary they are stated
    in), the loop of [exec_repeat] and fuel monotonicity ([Proof/LoweringFuel.v]), reading an
    identifier and monotonicity as a rewrite ([Proof/RefactorSem.v], which exports all of
    these). *)
From Coq Require Import ZArith NArith List Bool String Lia.
From Coq Require Import Floats.SpecFloat.
From DL Require Import Lib.Bytes Lib.F64 Lua.Syntax Lua.Sem.
From DL Require Export Proof.SemUnfold.
Import ListNotations.
Open Scope N_scope.
Local Notation llen := List.length.

Lemma bind_ok {A B} (m : M A) (f : A -> M B) s b s' :
  bind m f s = Ok b s' -> exists a s1, m s = Ok a s1 /\ f a s1 = Ok b s'.
Proof. unfold bind. destruct (m s); try discriminate. eauto. Qed.

Lemma ret_ok {A} (a b : A) s s' : ret a s = Ok b s' -> b = a /\ s' = s.
Proof. unfold ret. intros H; inversion H; auto. Qed.

Lemma fail_ok {A} t s (b : A) s' : fail t s = Ok b s' -> False.
Proof. discriminate. Qed.

Lemma unsup_ok {A} t s (b : A) s' : unsup t s = Ok b s' -> False.
Proof. discriminate. Qed.

Lemma bind_ok_intro {A B} (m : M A) (f : A -> M B) s a s1 r :
  m s = Ok a s1 -> f a s1 = r -> bind m f s = r.
Proof. intros H1 H2. unfold bind. rewrite H1. exact H2. Qed.

Lemma bind_run {A B} (m : M A) (f : A -> M B) s a s1 : m s = Ok a s1 -> bind m f s = f a s1.
Proof. intros H. exact (bind_ok_intro m f s a s1 _ H eq_refl). Qed.

Lemma bind_eq {A B} (m : M A) (f g : A -> M B) s :
  (forall a s1, m s = Ok a s1 -> f a s1 = g a s1) -> bind m f s = bind m g s.
Proof. intros H. unfold bind. destruct (m s); auto. Qed.

Lemma bind_cong_l {A B} (m1 m2 : M A) (f : A -> M B) s : m1 s = m2 s -> bind m1 f s = bind m2 f s.
Proof. intros H. unfold bind. rewrite H. reflexivity. Qed.

Lemma bind_fuel_l {A B} (m : M A) (f : A -> M B) s : m s = Fuel -> bind m f s = Fuel.
Proof. intros H. unfold bind. rewrite H. reflexivity. Qed.

Lemma bind_ret_l {A B} (a : A) (f : A -> M B) s : bind (ret a) f s = f a s.
Proof. reflexivity. Qed.

(** Two ways to take apart [H : (x <- m ;; f) s = Ok b s'].  [inv_ok H] goes down the whole
    chain of binds to the final [ret], under names of its own, and closes the goal when the chain
    ends in [fail] or [unsup]: for a chain whose steps need no case analysis.  [binv H as v s1 Hv]
    takes one step, leaving [Hv : m s = Ok v s1] and [H : f v s1 = Ok b s'], where the next step
    is first analysed or rewritten; [rinv H] then uses up [H : ret a s = Ok b s'] and
    substitutes. *)
Ltac inv_ok H :=
  match type of H with
  | bind _ _ _ = Ok _ _ =>
    let a := fresh "a" in let s1 := fresh "s" in let H1 := fresh "H" in let H2 := fresh "H" in
    apply bind_ok in H; destruct H as (a & s1 & H1 & H2); cbv beta in H2; inv_ok H2
  | ret _ _ = Ok _ _ =>
    let E1 := fresh "E" in let E2 := fresh "E" in
    apply ret_ok in H; destruct H as [E1 E2]
  | fail _ _ = Ok _ _ => exfalso; exact (fail_ok _ _ _ _ H)
  | unsup _ _ = Ok _ _ => exfalso; exact (unsup_ok _ _ _ _ H)
  | _ => idtac
  end.

Tactic Notation "binv" hyp(H) "as" ident(v) ident(s1) ident(Hv) :=
  apply bind_ok in H; destruct H as (v & s1 & Hv & H); cbv beta in H.
Ltac rinv H := apply ret_ok in H; destruct H as [? ?]; subst.

Lemma nth_N_lt {A} (l : list A) n v : nth_N l n = Some v -> (n < llen l)%nat.
Proof.
  revert n; induction l as [|y l IH]; intros [|n] H; cbn in *; try discriminate; try lia.
  apply IH in H. lia.
Qed.

Lemma nth_N_app_lt {A} (l x : list A) : forall k, (k < llen l)%nat -> nth_N (l ++ x) k = nth_N l k.
Proof. induction l as [|y l IH]; intros [|k] L; cbn [List.length app nth_N] in *; try lia; auto. apply IH. lia. Qed.

Lemma nth_N_app_l {A} (l x : list A) n v : nth_N l n = Some v -> nth_N (l ++ x) n = Some v.
Proof. intros H. rewrite nth_N_app_lt; [exact H|exact (nth_N_lt _ _ _ H)]. Qed.

Lemma nth_N_length {A} (l : list A) v : nth_N (l ++ [v]) (llen l) = Some v.
Proof. induction l; cbn; auto. Qed.

Lemma nth_N_set_same {A} (l : list A) n v : (n < llen l)%nat -> nth_N (set_nth l n v) n = Some v.
Proof.
  revert n; induction l as [|y l IH]; intros [|n] H; cbn in *; try lia; auto.
  apply IH. lia.
Qed.

Lemma nth_N_set_other {A} (l : list A) n m v : n <> m -> nth_N (set_nth l n v) m = nth_N l m.
Proof.
  revert n m; induction l as [|y l IH]; intros [|n] [|m] H; cbn; try reflexivity; try congruence.
  apply IH. congruence.
Qed.

Lemma set_nth_length {A} (l : list A) n v : llen (set_nth l n v) = llen l.
Proof. revert n; induction l as [|y l IH]; intros [|n]; cbn; auto. Qed.

(** an allocation appends, and the new address is the old length *)
Lemma nth_N_last {A} (l : list A) (x : A) : nth_N (l ++ [x]) (N.to_nat (N.of_nat (llen l))) = Some x.
Proof. rewrite Nat2N.id. apply nth_N_length. Qed.

Lemma set_nth_last {A} (l : list A) (x y : A) :
  set_nth (l ++ [x]) (N.to_nat (N.of_nat (llen l))) y = l ++ [y].
Proof.
  rewrite Nat2N.id. induction l as [|z l IH]; [reflexivity|].
  cbn [app List.length set_nth]. rewrite IH. reflexivity.
Qed.

Lemma Forall2_nth_N {A} (R : A -> A -> Prop) l1 l2 k :
  Forall2 R l1 l2 ->
  match nth_N l1 k, nth_N l2 k with
  | Some a, Some b => R a b
  | None, None => True
  | _, _ => False
  end.
Proof. intros H. revert k. induction H; intros [|k]; cbn; auto. apply IHForall2. Qed.

Lemma lookup_head rho x a : lookup ((x, a) :: rho) x = Some a.
Proof. cbn [lookup]. rewrite bytes_eqb_refl. reflexivity. Qed.

Lemma local_go_nil vs acc : local_go [] vs acc = ret acc. Proof. reflexivity. Qed.
Lemma local_go_cons p rest vs acc :
  local_go (p :: rest) vs acc = (a <- new_cell (arg vs 0) ;; local_go rest (tl vs) ((param_name p, a) :: acc)).
Proof. reflexivity. Qed.

Lemma bind_params_nil args : bind_params [] args = ret []. Proof. reflexivity. Qed.
Lemma bind_params_cons p ps args :
  bind_params (p :: ps) args =
  (a <- new_cell (arg args 0) ;; rest <- bind_params ps (tl args) ;; ret ((param_name p, a) :: rest)).
Proof. reflexivity. Qed.

Lemma render_rel k s1 s2 v : tables s1 = tables s2 -> render k s1 v = render k s2 v.
Proof.
  intros H. revert v. induction k as [|k IH]; intros v; destruct v; cbn [render]; try reflexivity.
  rewrite H. destruct (nth_N (tables s2) (N.to_nat a)); [|reflexivity].
  f_equal. apply map_ext. intros kv. now rewrite !IH.
Qed.

Section Zero.
Variable d : dialect.

Lemma call_0 f args s : call d 0 f args s = Fuel. Proof. reflexivity. Qed.
Lemma index_0 o k s : index d 0 o k s = Fuel. Proof. reflexivity. Qed.
Lemma setindex_0 o k v s : setindex d 0 o k v s = Fuel. Proof. reflexivity. Qed.
Lemma tostr_0 v s : tostr d 0 v s = Fuel. Proof. reflexivity. Qed.
Lemma arith_0 o a b s : arith d 0 o a b s = Fuel. Proof. reflexivity. Qed.
Lemma concat_0 a b s : concat d 0 a b s = Fuel. Proof. reflexivity. Qed.
Lemma equal_0 a b s : equal d 0 a b s = Fuel. Proof. reflexivity. Qed.
Lemma less_0 st a b s : less d 0 st a b s = Fuel. Proof. reflexivity. Qed.
Lemma length_0 v s : length d 0 v s = Fuel. Proof. reflexivity. Qed.
Lemma call_builtin_0 b args s : call_builtin d 0 b args s = Fuel. Proof. reflexivity. Qed.
Lemma eval_0 rho va e s : eval d 0 rho va e s = Fuel. Proof. reflexivity. Qed.
Lemma eval1_0 rho va e s : eval1 d 0 rho va e s = Fuel. Proof. reflexivity. Qed.
Lemma eval_list_0 rho va es s : eval_list d 0 rho va es s = Fuel. Proof. reflexivity. Qed.
Lemma eval_args_0 rho va a s : eval_args d 0 rho va a s = Fuel. Proof. reflexivity. Qed.
Lemma fill_table_0 rho va a es pos s : fill_table d 0 rho va a es pos s = Fuel. Proof. reflexivity. Qed.
Lemma exec_block_0 rho va b s : exec_block d 0 rho va b s = Fuel. Proof. reflexivity. Qed.
Lemma exec_stmts_0 rho va ss last s : exec_stmts d 0 rho va ss last s = Fuel. Proof. reflexivity. Qed.
Lemma assign_target_0 rho t v s : assign_target d 0 rho t v s = Fuel. Proof. reflexivity. Qed.
Lemma eval_target_0 rho va e s : eval_target d 0 rho va e s = Fuel. Proof. reflexivity. Qed.
Lemma exec_stmt_0 rho va st s : exec_stmt d 0 rho va st s = Fuel. Proof. reflexivity. Qed.
Lemma exec_while_0 rho va c b s : exec_while d 0 rho va c b s = Fuel. Proof. reflexivity. Qed.
Lemma exec_repeat_0 rho va b c s : exec_repeat d 0 rho va b c s = Fuel. Proof. reflexivity. Qed.
Lemma exec_numfor_0 rho va x i st sp b s : exec_numfor d 0 rho va x i st sp b s = Fuel. Proof. reflexivity. Qed.
Lemma exec_genfor_0 rho va vars f s0 ctl b s : exec_genfor d 0 rho va vars f s0 ctl b s = Fuel.
Proof. reflexivity. Qed.

End Zero.

(** The zero-fuel case of a proof about a run is closed by rewriting with the [_0] equations:
    [fuel_S n H] says that the run [H], at fuel [n], succeeded, so that [n] is a successor, and
    goes on with the predecessor under the name [n]; where both sides of a goal run at fuel 0,
    [autorewrite with fuel0] makes them [Fuel].  ([discriminate] or [reflexivity] alone would
    unfold the interpreter, there and again at [Qed].) *)
#[global] Hint Rewrite call_0 index_0 setindex_0 tostr_0 arith_0 concat_0 equal_0 less_0 length_0
  call_builtin_0 eval_0 eval1_0 eval_list_0 eval_args_0 fill_table_0 exec_block_0 exec_stmts_0
  assign_target_0 eval_target_0 exec_stmt_0 exec_while_0 exec_repeat_0 exec_numfor_0 exec_genfor_0
  : fuel0.
Ltac fuel_S n H := destruct n as [|n]; [autorewrite with fuel0 in H; discriminate H|].

Section Unfold.
Variable d : dialect.

Lemma call_S_builtin n b args : call d (S n) (VBuiltin b) args = call_builtin d n b args.
Proof. exact (call_unf d n (VBuiltin b) args). Qed.
Lemma call_S_ext n x args : call d (S n) (VExt x) args = call_ext x args.
Proof. exact (call_unf d n (VExt x) args). Qed.

Definition not_callable (v : value) : Prop :=
  match v with VClosure _ | VExt _ | VBuiltin _ => False | _ => True end.

Lemma call_S_other n f args : not_callable f ->
  call d (S n) f args =
  (h <- metamethod f "__call" ;;
   match h with
   | VNil => fail 10
   | _ => call d n h (f :: args)
   end).
Proof. rewrite call_unf. destruct f; intros []; reflexivity. Qed.

Definition not_table (v : value) : Prop := match v with VTable _ => False | _ => True end.

Lemma index_S_table n a k :
  index d (S n) (VTable a) k =
  (t <- get_table a ;;
   match raw_get (t_entries t) (match norm_key k with Some k' => k' | None => k end) with
   | VNil =>
     h <- metamethod (VTable a) "__index" ;;
     match h with
     | VNil => ret VNil
     | VTable _ => index d n h k
     | _ => vs <- call d n h [VTable a; k] ;; ret (first vs)
     end
   | v => ret v
   end).
Proof. exact (index_unf d n (VTable a) k). Qed.

Lemma index_S_other n o k : not_table o ->
  index d (S n) o k =
  (h <- metamethod o "__index" ;;
   match h with
   | VNil => fail 11
   | VTable _ => index d n h k
   | _ => vs <- call d n h [o; k] ;; ret (first vs)
   end).
Proof. rewrite index_unf. destruct o; intros []; reflexivity. Qed.

Lemma setindex_S_table n a k v :
  setindex d (S n) (VTable a) k v =
  (t <- get_table a ;;
   let existing := raw_get (t_entries t) (match norm_key k with Some k' => k' | None => k end) in
   h <- (match existing with VNil => metamethod (VTable a) "__newindex" | _ => ret VNil end) ;;
   match h with
   | VNil =>
     match norm_key k with
     | None => fail 12
     | Some k' => set_table a (mkTable (raw_set (t_entries t) k' v) (t_meta t))
     end
   | VTable _ => setindex d n h k v
   | _ => _ <- call d n h [VTable a; k; v] ;; ret tt
   end).
Proof. exact (setindex_unf d n (VTable a) k v). Qed.

Lemma setindex_S_other n o k v : not_table o ->
  setindex d (S n) o k v =
  (h <- metamethod o "__newindex" ;;
   match h with
   | VNil => fail 13
   | VTable _ => setindex d n h k v
   | _ => _ <- call d n h [o; k; v] ;; ret tt
   end).
Proof. rewrite setindex_unf. destruct o; intros []; reflexivity. Qed.

Lemma call_builtin_S_sqrt n args :
  call_builtin d (S n) B_sqrt args =
  match tonum (arg args 0) with Some x => num_result (fsqrt x) | None => fail 44 end.
Proof. exact (call_builtin_S d n B_sqrt args). Qed.

Lemma call_builtin_S_select_one n args :
  call_builtin d (S n) B_select (VNum fone :: args) = ret args.
Proof. exact (call_builtin_S d n B_select (VNum fone :: args)). Qed.

Lemma eval_S_call_plain n rho va p a :
  eval d (S n) rho va (ECall p None a) =
  (o <- eval1 d n rho va p ;; args <- eval_args d n rho va a ;; call d n o args).
Proof. exact (eval_S_call d n rho va p None a). Qed.

Lemma if_go_nil n rho va els : if_go d n rho va els [] = (v <- eval1 d n rho va els ;; ret [v]).
Proof. reflexivity. Qed.
Lemma if_go_cons n rho va els c r rest :
  if_go d n rho va els (EBranch c r :: rest) =
  (cv <- eval1 d n rho va c ;;
   if truthy cv then v <- eval1 d n rho va r ;; ret [v] else if_go d n rho va els rest).
Proof. reflexivity. Qed.

Lemma interp_go_nil n rho va acc : interp_go d n rho va [] acc = ret [VStr acc]. Proof. reflexivity. Qed.
Lemma interp_go_str n rho va s rest acc :
  interp_go d n rho va (ISStr s :: rest) acc = interp_go d n rho va rest (acc ++ s).
Proof. reflexivity. Qed.
Lemma interp_go_expr n rho va e rest acc :
  interp_go d n rho va (ISExpr e :: rest) acc =
  (v <- eval1 d n rho va e ;; sv <- tostr d n v ;;
   match sv with VStr s => interp_go d n rho va rest (acc ++ s) | _ => fail 19 end).
Proof. reflexivity. Qed.

(** so that a proof rewrites, and does not reduce [binop_sem] next to a call of the
    interpreter, which the kernel may then try to unfold *)
Lemma binop_sem_arith n op a b : arith_name op <> None ->
  binop_sem d n op a b = (r <- arith d n op a b ;; ret [r]).
Proof. intros Ha. unfold binop_sem. destruct op; try reflexivity; exfalso; apply Ha; reflexivity. Qed.

Lemma eval1_of_eval n rho va e s vs s' :
  eval d n rho va e s = Ok vs s' -> eval1 d (S n) rho va e s = Ok (first vs) s'.
Proof. intros H. rewrite eval1_S. exact (bind_ok_intro _ _ _ _ _ _ H eq_refl). Qed.

Lemma eval1_inv n rho va e s v s' : eval1 d n rho va e s = Ok v s' ->
  exists m vs, n = S m /\ eval d m rho va e s = Ok vs s' /\ v = first vs.
Proof.
  intros H. fuel_S n H. rewrite eval1_S in H.
  apply bind_ok in H as (vs & s1 & Hv & H). apply ret_ok in H as [-> ->]. eauto.
Qed.

Lemma eval_list_S_nil n rho va : eval_list d (S n) rho va [] = ret [].
Proof. exact (eval_list_unf d n rho va []). Qed.
Lemma eval_list_S_one n rho va e : eval_list d (S n) rho va [e] = eval d n rho va e.
Proof. exact (eval_list_unf d n rho va [e]). Qed.
Lemma eval_list_S_cons n rho va e e2 rest :
  eval_list d (S n) rho va (e :: e2 :: rest) =
  (v <- eval1 d n rho va e ;; vs <- eval_list d n rho va (e2 :: rest) ;; ret (v :: vs)).
Proof. exact (eval_list_unf d n rho va (e :: e2 :: rest)). Qed.

Lemma eval_args_S_tuple n rho va es : eval_args d (S n) rho va (ATuple es) = eval_list d n rho va es.
Proof. exact (eval_args_unf d n rho va (ATuple es)). Qed.
Lemma eval_args_S_string n rho va x : eval_args d (S n) rho va (AString x) = ret [VStr x].
Proof. exact (eval_args_unf d n rho va (AString x)). Qed.
Lemma eval_args_S_table n rho va ens :
  eval_args d (S n) rho va (ATable ens) =
  (t <- new_table (mkTable [] None) ;; _ <- fill_table d n rho va t ens 1 ;; ret [VTable t]).
Proof. exact (eval_args_unf d n rho va (ATable ens)). Qed.

Lemma fill_table_S_nil n rho va a pos : fill_table d (S n) rho va a [] pos = ret tt.
Proof. exact (fill_table_unf d n rho va a [] pos). Qed.
Lemma fill_table_S_field n rho va a f e rest pos :
  fill_table d (S n) rho va a (TField f e :: rest) pos =
  (v <- eval1 d n rho va e ;; _ <- put a (VStr f) v ;; fill_table d n rho va a rest pos).
Proof. exact (fill_table_unf d n rho va a (TField f e :: rest) pos). Qed.
Lemma fill_table_S_index n rho va a k e rest pos :
  fill_table d (S n) rho va a (TIndex k e :: rest) pos =
  (kv <- eval1 d n rho va k ;; v <- eval1 d n rho va e ;; _ <- put a kv v ;; fill_table d n rho va a rest pos).
Proof. exact (fill_table_unf d n rho va a (TIndex k e :: rest) pos). Qed.
Lemma fill_table_S_last n rho va a e pos :
  fill_table d (S n) rho va a [TValue e] pos = (vs <- eval d n rho va e ;; fill_go a vs pos).
Proof. exact (fill_table_unf d n rho va a [TValue e] pos). Qed.
Lemma fill_table_S_value n rho va a e x rest pos :
  fill_table d (S n) rho va a (TValue e :: x :: rest) pos =
  (v <- eval1 d n rho va e ;; _ <- put_pos a pos v ;; fill_table d n rho va a (x :: rest) (pos + 1)%Z).
Proof. exact (fill_table_unf d n rho va a (TValue e :: x :: rest) pos). Qed.

Lemma exec_block_S n rho va ss last :
  exec_block d (S n) rho va (Block ss last) = exec_stmts d n rho va ss last.
Proof. exact (exec_block_unf d n rho va (Block ss last)). Qed.

Lemma exec_stmts_S_nil n rho va last :
  exec_stmts d (S n) rho va [] last =
  match last with
  | None => ret SigNone
  | Some LBreak => ret SigBreak
  | Some LContinue => ret SigContinue
  | Some (LReturn es) => vs <- eval_list d n rho va es ;; ret (SigReturn vs)
  end.
Proof. exact (exec_stmts_unf d n rho va [] last). Qed.

Definition stmts_cont (n : nat) (va : list value) (rest : list stmt) (last : option laststmt)
           (x : env * signal) : M signal :=
  let '(rho', sg) := x in
  match sg with
  | SigNone => exec_stmts d n rho' va rest last
  | _ => ret sg
  end.

Lemma exec_stmts_S_cons n rho va st rest last :
  exec_stmts d (S n) rho va (st :: rest) last =
  bind (exec_stmt d n rho va st) (stmts_cont n va rest last).
Proof. exact (exec_stmts_unf d n rho va (st :: rest) last). Qed.

Lemma assign_target_S_cell n rho a x y v : assign_target d (S n) rho (Some a, x, y) v = set_cell a v.
Proof. exact (assign_target_unf d n rho (Some a, x, y) v). Qed.
Lemma assign_target_S_index n rho o k v : assign_target d (S n) rho (None, o, k) v = setindex d n o k v.
Proof. exact (assign_target_unf d n rho (None, o, k) v). Qed.

Lemma eval_target_S_ident n rho va x :
  eval_target d (S n) rho va (EIdent x) =
  match lookup rho x with
  | Some a => ret (Some a, VNil, VNil)
  | None => ret (None, VTable A_globals, VStr x)
  end.
Proof. exact (eval_target_unf d n rho va (EIdent x)). Qed.
Definition ident_target (rho : env) (x : name) : option N * value * value :=
  match lookup rho x with Some a => (Some a, VNil, VNil) | None => (None, VTable A_globals, VStr x) end.

Lemma eval_target_ident n rho va x s :
  eval_target d (S n) rho va (EIdent x) s = Ok (ident_target rho x) s.
Proof. rewrite eval_target_S_ident. unfold ident_target. destruct (lookup rho x); reflexivity. Qed.

Lemma eval_target_S_field n rho va p f :
  eval_target d (S n) rho va (EField p f) = (o <- eval1 d n rho va p ;; ret (None, o, VStr f)).
Proof. exact (eval_target_unf d n rho va (EField p f)). Qed.
Lemma eval_target_S_index n rho va p k :
  eval_target d (S n) rho va (EIndex p k) =
  (o <- eval1 d n rho va p ;; kv <- eval1 d n rho va k ;; ret (None, o, kv)).
Proof. exact (eval_target_unf d n rho va (EIndex p k)). Qed.

Definition is_assignable (e : expr) : bool :=
  match e with EIdent _ | EField _ _ | EIndex _ _ => true | _ => false end.
Lemma eval_target_S_other n rho va e : is_assignable e = false ->
  eval_target d (S n) rho va e = unsup 60.
Proof. rewrite eval_target_unf. destruct e; intros H; try discriminate H; reflexivity. Qed.

Definition targets_go (n : nat) (rho : env) (va : list value) := targets_loop (eval_target d n rho va).
Definition assign_go (n : nat) (rho : env) := assign_loop (assign_target d n rho).

Lemma exec_stmt_S_assign n rho va vars vals :
  exec_stmt d (S n) rho va (SAssign vars vals) =
  (tgts <- targets_go n rho va vars ;;
   vs <- eval_list d n rho va vals ;;
   _ <- assign_go n rho tgts vs ;;
   ret (rho, SigNone)).
Proof. exact (exec_stmt_unf d n rho va (SAssign vars vals)). Qed.

Lemma targets_go_nil n rho va : targets_go n rho va [] = ret []. Proof. reflexivity. Qed.
Lemma targets_go_cons n rho va v rest :
  targets_go n rho va (v :: rest) =
  (t <- eval_target d n rho va v ;; ts <- targets_go n rho va rest ;; ret (t :: ts)).
Proof. reflexivity. Qed.
Lemma assign_go_nil n rho vs : assign_go n rho [] vs = ret tt. Proof. reflexivity. Qed.
Lemma assign_go_cons n rho t rest vs :
  assign_go n rho (t :: rest) vs = (_ <- assign_target d n rho t (arg vs 0) ;; assign_go n rho rest (tl vs)).
Proof. reflexivity. Qed.

Lemma exec_stmt_S_do n rho va b :
  exec_stmt d (S n) rho va (SDo b) = (sg <- exec_block d n rho va b ;; ret (rho, sg)).
Proof. exact (exec_stmt_unf d n rho va (SDo b)). Qed.

Lemma exec_stmt_S_call n rho va c :
  exec_stmt d (S n) rho va (SCall c) = (_ <- eval d n rho va c ;; ret (rho, SigNone)).
Proof. exact (exec_stmt_unf d n rho va (SCall c)). Qed.

Lemma exec_stmt_S_compound n rho va op var e :
  exec_stmt d (S n) rho va (SCompound op var e) =
  (t <- eval_target d n rho va var ;;
   rhs <- eval1 d n rho va e ;;
   cur <- (match t with
           | (Some a, _, _) => get_cell a
           | (None, o, k) => index d n o k
           end) ;;
   r <- (match op with
         | BConcat => concat d n cur rhs
         | _ => arith d n op cur rhs
         end) ;;
   _ <- assign_target d n rho t r ;;
   ret (rho, SigNone)).
Proof. exact (exec_stmt_unf d n rho va (SCompound op var e)). Qed.

Lemma exec_stmt_S_local n rho va k vars vals :
  exec_stmt d (S n) rho va (SLocal k vars vals) =
  (vs <- eval_list d n rho va vals ;; rho' <- local_go vars vs rho ;; ret (rho', SigNone)).
Proof. exact (exec_stmt_unf d n rho va (SLocal k vars vals)). Qed.

Lemma exec_stmt_S_localfunction n rho va x f :
  exec_stmt d (S n) rho va (SLocalFunction x f) =
  (a <- new_cell VNil ;;
   c <- new_closure (mkClosure f ((x, a) :: rho) false) ;;
   _ <- set_cell a (VClosure c) ;;
   ret ((x, a) :: rho, SigNone)).
Proof. exact (exec_stmt_unf d n rho va (SLocalFunction x f)). Qed.

Definition sif_go (n : nat) (rho : env) (va : list value) (els : option block) : list sbranch -> M signal :=
  sif_loop (eval1 d n rho va) (exec_block d n rho va) els.

Lemma exec_stmt_S_if n rho va bs els :
  exec_stmt d (S n) rho va (SIf bs els) = (sg <- sif_go n rho va els bs ;; ret (rho, sg)).
Proof. exact (exec_stmt_unf d n rho va (SIf bs els)). Qed.
Lemma sif_go_nil n rho va els :
  sif_go n rho va els [] = match els with Some b => exec_block d n rho va b | None => ret SigNone end.
Proof. reflexivity. Qed.
Lemma sif_go_cons n rho va els c b rest :
  sif_go n rho va els (SBranch c b :: rest) =
  (cv <- eval1 d n rho va c ;; if truthy cv then exec_block d n rho va b else sif_go n rho va els rest).
Proof. reflexivity. Qed.

Lemma exec_stmt_S_while n rho va c b :
  exec_stmt d (S n) rho va (SWhile c b) = (sg <- exec_while d n rho va c b ;; ret (rho, sg)).
Proof. exact (exec_stmt_unf d n rho va (SWhile c b)). Qed.

Lemma exec_stmt_S_repeat n rho va b c :
  exec_stmt d (S n) rho va (SRepeat b c) = (sg <- exec_repeat d n rho va b c ;; ret (rho, sg)).
Proof. exact (exec_stmt_unf d n rho va (SRepeat b c)). Qed.

Lemma exec_stmt_S_numfor n rho va var start stop step b :
  exec_stmt d (S n) rho va (SNumericFor var start stop step b) =
  (v0 <- eval1 d n rho va start ;;
   v1 <- eval1 d n rho va stop ;;
   v2 <- (match step with Some e => eval1 d n rho va e | None => ret (VNum fone) end) ;;
   match tonum v0, tonum v1, tonum v2 with
   | Some x0, Some x1, Some x2 =>
     if is_nan x2 || is_zero x2 then unsup 61
     else sg <- exec_numfor d n rho va (param_name var) x0 x1 x2 b ;; ret (rho, sg)
   | _, _, _ => fail 61
   end).
Proof. exact (exec_stmt_unf d n rho va (SNumericFor var start stop step b)). Qed.

Lemma exec_stmt_S_genfor n rho va vars es b :
  exec_stmt d (S n) rho va (SGenericFor vars es b) =
  (vs <- eval_list d n rho va es ;;
   match arg vs 0 with
   | VTable _ => unsup 62
   | f => sg <- exec_genfor d n rho va vars f (arg vs 1) (arg vs 2) b ;; ret (rho, sg)
   end).
Proof. exact (exec_stmt_unf d n rho va (SGenericFor vars es b)). Qed.

Lemma exec_stmt_S_typedecl n rho va ex x g t :
  exec_stmt d (S n) rho va (STypeDecl ex x g t) = ret (rho, SigNone).
Proof. exact (exec_stmt_unf d n rho va (STypeDecl ex x g t)). Qed.
Lemma exec_stmt_S_typefunction n rho va ex x f :
  exec_stmt d (S n) rho va (STypeFunction ex x f) = ret (rho, SigNone).
Proof. exact (exec_stmt_unf d n rho va (STypeFunction ex x f)). Qed.

End Unfold.
