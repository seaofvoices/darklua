(** Facts about the candidate iterator and [pathdiff::diff_paths] of Model/Paths.v and about
    the candidate search ([first_file], [locate]) of Model/Require.v. *)
From DL Require Import Lib.Bytes Model.Paths Model.Require Proof.PathsBasics.
Require Import Lia PeanoNat.
Open Scope N_scope.

Lemma name_ext_none_stem n : name_ext n = None -> name_stem n = Some n.
Proof.
  unfold name_ext, name_stem, rsplit_file_at_dot.
  destruct (is_dotdot n); [reflexivity|].
  destruct (rsplit_dot_rev (rev n) []) as [[before after]|]; [|reflexivity].
  destruct before; [reflexivity|discriminate].
Qed.

Definition wf_name (n : bytes) : bool :=
  negb (bytes_eqb n []) && negb (existsb (N.eqb slash) n) && negb (is_dot n) && negb (is_dotdot n).

Definition sibling (p : path) (x : bytes) : path := pop p ++ [Norm x].

Definition folder_documented (p : path) (m : bytes) : list path :=
  (p ++ [Norm m]) ::
  match name_ext m with
  | Some _ => []
  | None => [p ++ [Norm (m ++ dot :: luau_ext)]; p ++ [Norm (m ++ dot :: lua_ext)]]
  end.

(** docs/path-require-mode, "Path Resolution": the path, the path with [.luau], with [.lua],
    the path joined with the module folder name, that with [.luau], with [.lua] (the last two only
    when the module folder name has no extension); a path that already ends in [.lua]/[.luau] is
    tried alone; a path without a final name ([.], [..], [x/..]) has no [.luau]/[.lua] variants *)
Definition documented_candidates (p : path) (m : bytes) : list path :=
  match file_name p with
  | Some n =>
    if is_lua_ext (name_ext n) then [p]
    else p :: sibling p (n ++ dot :: luau_ext) :: sibling p (n ++ dot :: lua_ext) :: folder_documented p m
  | None => p :: folder_documented p m
  end.

Lemma folder_candidates_documented p mfn m :
  parse_path mfn = [Norm m] -> folder_candidates p mfn = folder_documented p m.
Proof.
  intros H. unfold folder_candidates, folder_documented. rewrite H.
  rewrite (join_plain p [Norm m]) by reflexivity.
  rewrite extension_snoc. destruct (name_ext m) eqn:E; [reflexivity|].
  rewrite !(set_extension_snoc p m _ m) by (apply name_ext_none_stem; exact E).
  reflexivity.
Qed.

Theorem candidates_documented_order p mfn m :
  parse_path mfn = [Norm m] -> candidates p mfn = documented_candidates p m.
Proof.
  intros H. unfold candidates, documented_candidates, extension.
  rewrite (folder_candidates_documented p mfn m H).
  destruct (file_name p) as [n|] eqn:E; [|reflexivity].
  destruct (is_lua_ext (name_ext n)); [reflexivity|].
  unfold with_file_name. rewrite E. rewrite !join_plain by reflexivity. reflexivity.
Qed.

Corollary candidates_lua_extension p mfn :
  is_lua_ext (extension p) = true -> candidates p mfn = [p].
Proof. intros H. unfold candidates. rewrite H. reflexivity. Qed.

Corollary candidates_six q n mfn m :
  parse_path mfn = [Norm m] -> is_lua_ext (name_ext n) = false -> name_ext m = None ->
  candidates (q ++ [Norm n]) mfn =
  [ q ++ [Norm n];
    q ++ [Norm (n ++ dot :: luau_ext)];
    q ++ [Norm (n ++ dot :: lua_ext)];
    q ++ [Norm n; Norm m];
    q ++ [Norm n; Norm (m ++ dot :: luau_ext)];
    q ++ [Norm n; Norm (m ++ dot :: lua_ext)] ].
Proof.
  intros H Hn Hm. rewrite (candidates_documented_order _ mfn m H).
  unfold documented_candidates, folder_documented, sibling.
  rewrite file_name_snoc, Hn, Hm, pop_snoc by discriminate.
  rewrite <- !app_assoc. reflexivity.
Qed.

Lemma first_file_skip f l1 l :
  (forall x, In x l1 -> is_file f x = false) -> first_file f (l1 ++ l) = first_file f l.
Proof.
  induction l1 as [|p l1 IH]; intros H; [reflexivity|]. cbn [app first_file].
  rewrite (H p (or_introl eq_refl)). apply IH. intros x Hx. apply H. right. exact Hx.
Qed.

Lemma first_file_split f l q :
  first_file f l = Some q ->
  exists l1 l2, l = l1 ++ q :: l2 /\ is_file f q = true /\ (forall x, In x l1 -> is_file f x = false).
Proof.
  induction l as [|p l IH]; cbn [first_file]; [discriminate|]. destruct (is_file f p) eqn:E.
  - intros H. inversion H; subst. exists [], l. repeat split; auto. intros x [].
  - intros H. destruct (IH H) as (l1 & l2 & -> & Hq & Hl1). exists (p :: l1), l2. repeat split; auto.
    intros x [<-|Hx]; auto.
Qed.

Lemma first_file_none f l :
  first_file f l = None <-> (forall x, In x l -> is_file f x = false).
Proof.
  split.
  - induction l as [|p l IH]; cbn [first_file]; [intros _ x []|].
    destruct (is_file f p) eqn:E; [discriminate|]. intros H x [<-|Hx]; auto.
  - intros H. rewrite <- (app_nil_r l). apply (first_file_skip f l [] H).
Qed.

(** [first_existing]: what [locate] (the loop of both [find_require_path]) returns *)
Theorem first_existing c f p r :
  locate c f p = Found r <->
  exists l1 q l2,
    candidates (normalize true p) (module_folder_name c) = l1 ++ q :: l2 /\
    is_file f q = true /\ (forall x, In x l1 -> is_file f x = false) /\ r = normalize true q.
Proof.
  unfold locate. split.
  - destruct (first_file f _) as [q|] eqn:E; [|discriminate]. intros H. inversion H; subst.
    destruct (first_file_split _ _ _ E) as (l1 & l2 & Hl & Hq & Hl1). exists l1, q, l2. auto.
  - intros (l1 & q & l2 & Hl & Hq & Hl1 & ->).
    rewrite Hl, first_file_skip by exact Hl1. cbn [first_file]. rewrite Hq. reflexivity.
Qed.

Theorem none_existing c f p :
  (exists e, locate c f p = Failed e) <->
  (forall x, In x (candidates (normalize true p) (module_folder_name c)) -> is_file f x = false).
Proof.
  rewrite <- first_file_none. unfold locate. destruct (first_file f _); split; try discriminate.
  - intros [e H]. discriminate.
  - reflexivity.
  - eexists. reflexivity.
Qed.

Lemma locate_error c f p e : locate c f p = Failed e -> e = ENotFound.
Proof. unfold locate. destruct (first_file f _); intros H; inversion H; reflexivity. Qed.

Lemma is_file_cur f x : x <> [] -> is_file f (Cur :: x) = is_file f x.
Proof. intros H. unfold is_file. rewrite normalize_false_cur by exact H. reflexivity. Qed.

Lemma first_file_map_cur f l :
  Forall (fun x => x <> []) l -> first_file f (map (cons Cur) l) = option_map (cons Cur) (first_file f l).
Proof.
  induction 1 as [|x l Hx _ IH]; cbn [map first_file option_map]; [reflexivity|].
  rewrite is_file_cur by exact Hx. destruct (is_file f x); [reflexivity|exact IH].
Qed.

Lemma documented_candidates_cons_cur y n m :
  documented_candidates (Cur :: y ++ [Norm n]) m = map (cons Cur) (documented_candidates (y ++ [Norm n]) m).
Proof.
  unfold documented_candidates, folder_documented, sibling.
  change (Cur :: y ++ [Norm n]) with ((Cur :: y) ++ [Norm n]).
  rewrite !file_name_snoc, !pop_snoc by discriminate.
  destruct (is_lua_ext (name_ext n)); [reflexivity|].
  destruct (name_ext m); reflexivity.
Qed.

Lemma documented_candidates_nonempty y n m :
  Forall (fun x => x <> []) (documented_candidates (y ++ [Norm n]) m).
Proof.
  unfold documented_candidates, folder_documented, sibling. rewrite file_name_snoc.
  destruct (is_lua_ext _); destruct (name_ext m); repeat apply Forall_cons; try apply Forall_nil;
    apply app_nonempty_r; discriminate.
Qed.

Lemma first_file_candidates_cur f mfn m st :
  parse_path mfn = [Norm m] -> simple st = true -> st <> [] ->
  first_file f (candidates (Cur :: st) mfn) = option_map (cons Cur) (first_file f (candidates st mfn)).
Proof.
  intros Hm Hst Hne. destruct (simple_snoc_inv st Hst Hne) as (y & n & -> & _).
  rewrite !(candidates_documented_order _ _ m Hm), documented_candidates_cons_cur.
  apply first_file_map_cur, documented_candidates_nonempty.
Qed.

Lemma map_const_repeat {A B} (x : B) (l : list A) : map (fun _ => x) l = repeat x (List.length l).
Proof. induction l; cbn; congruence. Qed.

Lemma diff_loop_common cp a b : diff_loop (cp ++ a) (cp ++ b) [] = diff_loop a b [].
Proof.
  induction cp as [|c cp IH]; [reflexivity|]. cbn [app diff_loop]. rewrite comp_eqb_refl. exact IH.
Qed.

Definition diverge (a b : path) : bool :=
  match a, b with
  | x :: _, y :: _ => negb (comp_eqb x y)
  | _, _ => true
  end.

Lemma diff_loop_diverge a b :
  a <> [] -> simple b = true -> diverge a b = true ->
  diff_loop a b [] = Some (repeat Par (List.length b) ++ a).
Proof.
  intros Ha Hb Hd. destruct a as [|x a]; [congruence|]. destruct b as [|y b].
  - reflexivity.
  - cbn [diverge] in Hd. apply negb_true_iff in Hd. cbn [diff_loop]. rewrite Hd. cbn [andb].
    cbn [simple forallb] in Hb. apply andb_true_iff in Hb as [Hy _]. destruct y; try discriminate.
    rewrite map_const_repeat. reflexivity.
Qed.

Lemma common_prefix_split (a b : path) :
  exists cp a' b', a = cp ++ a' /\ b = cp ++ b' /\ diverge a' b' = true.
Proof.
  revert b. induction a as [|x a IH]; intros b.
  - exists [], [], b. auto.
  - destruct b as [|y b].
    + exists [], (x :: a), []. auto.
    + destruct (comp_eqb x y) eqn:E.
      * apply comp_eqb_eq in E. subst y. destruct (IH b) as (cp & a' & b' & H1 & H2 & H3).
        exists (x :: cp), a', b'. subst. auto.
      * exists [], (x :: a), (y :: b). cbn [diverge]. rewrite E. auto.
Qed.

Lemma path_prefix_app cp b : path_prefix cp (cp ++ b) = true.
Proof. induction cp as [|c cp IH]; [reflexivity|]. cbn [app path_prefix]. rewrite comp_eqb_refl. exact IH. Qed.

Lemma diff_paths_simple cp d' t' :
  simple cp = true -> simple d' = true -> simple t' = true -> t' <> [] -> diverge t' d' = true ->
  diff_paths (cp ++ t') (or_cur (cp ++ d')) = Some (repeat Par (List.length d') ++ t').
Proof.
  intros Hcp Hd Ht Hne Hdiv. unfold diff_paths.
  rewrite (simple_no_root (cp ++ t')) by (rewrite simple_app, Hcp, Ht; reflexivity).
  assert (Hpl : plain (repeat Par (List.length d') ++ t') = true)
    by (apply plain_pars, simple_plain; exact Ht).
  destruct (cp ++ d') as [|c0 dd] eqn:Ed.
  - apply app_eq_nil in Ed as [-> ->]. cbn [or_cur has_root Bool.eqb negb app List.length repeat] in *.
    assert (E : diff_loop t' [Cur] [] = Some t').
    { destruct t' as [|[| | |x] r]; try discriminate; [congruence|]. destruct r; reflexivity. }
    rewrite E. cbn [option_map]. rewrite from_iter_plain by exact Hpl. reflexivity.
  - cbn [or_cur]. rewrite <- Ed.
    rewrite (simple_no_root (cp ++ d')) by (rewrite simple_app, Hcp, Hd; reflexivity).
    cbn [Bool.eqb negb]. rewrite diff_loop_common, (diff_loop_diverge t' d' Hne Hd Hdiv).
    cbn [option_map]. rewrite from_iter_plain by exact Hpl. reflexivity.
Qed.
