(** C17, inject_global_value: [ValueInjection] (src/rules/inject_value.rs) replaces a read of the
    global [X] - written [X], [_G.X] or [_G["X"]], at a place where no local of that name
    ([X], respectively [_G]) is in scope - by the literal expression of the configured value.
    The reference behaviour is the original program run with the global [X] preset to that value.

    - scalars (null, booleans, strings, numbers): the literal evaluates, in any store and any
      environment, with any fuel >= 5, to exactly the configured value (numbers bit for bit) and
      leaves the store alone ([inject_scalar_expr_sound]); so wherever the read of the global
      yields that value without running code, the original node and the injected node agree
      ([inject_ident_sound], [inject_field_sound], [inject_index_sound], [inject_prefix_sound]);
    - arrays and objects: the injected expression is the one the serializer of C14 builds
      ([inject_table_sound]); it evaluates to a FRESH table whose content is the configured value
      ([inject_table_value_sound], [inject_table_value_sound_exact]).  A table has an identity:
      each occurrence of the literal makes a new table where the preset global is ONE table, so a
      program that compares [X == X] (or mutates [X]) tells the two apart
      ([inject_table_identity_refuted]).

    Each theorem about numbers comes in two forms: unconditional (every JSON integer; rests on
    Flocq's rounding theorem through [EvaluatorF64.valid_of_Z], i.e. on the classical reals) and
    [_exact] (hypothesis [ints_exact (json_data j)]: integers below 2^53 in absolute value; closed
    under the global context).  None of the theorems uses fuel monotonicity
    (Proof/LoweringFuel.v).  Fuel bounds: 5 for a literal (least: [inject_scalar_fuel_tight]),
    7 for the parenthesised literal of prefix position. *)
From Coq Require Import ZArith NArith List Bool String Lia.
From Coq Require Import Floats.SpecFloat.
From DL Require Import Lib.Bytes Lib.F64 Lua.Syntax Lua.Sem Lua.EvalSpec Lua.DataSpec.
From DL Require Import Model.Evaluator Model.Removal.
From DL Require Model.Serializer Model.DefaultRules.
From DL Require Import Proof.SemFacts Proof.EvaluatorF64 Proof.EvaluatorStore Proof.DefaultRulesSem.
From DL Require Import Proof.DefaultRulesSoundExpr Proof.RefactorSem.
From DL Require Import Proof.SerializerF64 Proof.SerializerSound Proof.SerializerTheorems.
Import ListNotations.
Open Scope N_scope.
Local Notation len := List.length.

Definition scalar_value (j : json) : option value :=
  match j with
  | JNull => Some VNil
  | JBool b => Some (VBool b)
  | JStr s => Some (VStr s)
  | JInt z => Some (VNum (of_Z z))
  | JFloat bits => Some (VNum (of_bits bits))
  | JArr _ | JObj _ => None
  end.

Definition is_table_json (j : json) : Prop :=
  match j with JArr _ | JObj _ => True | _ => False end.

Definition G_is_globals (rho : env) (s : store) : Prop := reads rho nm_G s (VTable A_globals).

(** the global [x] holds [v] and reading the field runs no code *)
Definition global_holds (x : name) (s : store) (v : value) : Prop :=
  exists t, nth_N (tables s) (N.to_nat A_globals) = Some t /\
            raw_get (t_entries t) (VStr x) = v /\
            (v <> VNil \/ t_meta t = None).

Lemma inject_expr_ident x e sc : in_scope x sc = false -> inject_expr x e sc (EIdent x) = e.
Proof. intros H. cbn [inject_expr]. rewrite bytes_eqb_refl, H. reflexivity. Qed.

Lemma inject_expr_field x e sc :
  in_scope nm_G sc = false -> inject_expr x e sc (EField (EIdent nm_G) x) = e.
Proof. intros H. cbn [inject_expr]. rewrite !bytes_eqb_refl, H. reflexivity. Qed.

Lemma inject_expr_index x e sc :
  in_scope nm_G sc = false -> inject_expr x e sc (EIndex (EIdent nm_G) (EString x)) = e.
Proof. intros H. cbn [inject_expr]. rewrite !bytes_eqb_refl, H. reflexivity. Qed.

Lemma inject_prefix_ident x e sc : in_scope x sc = false -> inject_prefix x e sc (EIdent x) = EParen e.
Proof. intros H. cbn [inject_prefix]. rewrite bytes_eqb_refl, H. reflexivity. Qed.

Lemma inject_expr_shadowed x e sc : in_scope x sc = true -> inject_expr x e sc (EIdent x) = EIdent x.
Proof. intros H. cbn [inject_expr]. rewrite H, andb_false_r. reflexivity. Qed.

(** [DecimalNumber::new(v as f64)] keeps the double; the model's [of_Z z] is a valid binary64 for
    every [z] by Flocq's rounding theorem (classical reals: its axioms show in [Print Assumptions]
    of the unconditional theorems below); for |z| < 2^53 the double is [z] itself and no axiom
    is needed (the [_exact] variants, hypothesis [ints_exact (json_data j)] of C14). *)
Definition int_valid (j : json) : Prop :=
  match j with JInt z => valid (of_Z z) | _ => True end.

Lemma int_valid_all j : int_valid j.
Proof. destruct j; cbn [int_valid]; auto. apply valid_of_Z. Qed.

Lemma valid_of_Z_small z : (Z.abs z < 9007199254740992)%Z -> valid (of_Z z).
Proof.
  intros H. unfold valid. destruct z as [|p|p].
  - reflexivity.
  - rewrite of_Z_pos_small by lia. cbn [valid_binary]. apply small_repr_bounded. lia.
  - rewrite of_Z_neg_small by lia. cbn [valid_binary]. apply small_repr_bounded. lia.
Qed.

Lemma int_valid_exact j : ints_exact (json_data j) -> int_valid j.
Proof. destruct j; cbn [int_valid json_data ints_exact]; auto. apply valid_of_Z_small. Qed.

Section Inject.
Variable d : dialect.

Definition literal_of (e : expr) (v : value) : Prop :=
  forall rho va s k, (5 <= k)%nat -> eval d k rho va e s = Ok [v] s.

Lemma scalar_literal j v e :
  int_valid j -> scalar_value j = Some v -> value_expr j = Some e -> literal_of e v.
Proof.
  intros Hi Hv He rho va s k L. do 5 (destruct k as [|k]; [lia|]).
  destruct j as [|b|z|bits|str|items|fields]; cbn [scalar_value] in Hv; try discriminate Hv;
    inversion Hv; subst v; clear Hv; cbn [value_expr] in He; cbn [int_valid] in Hi.
  - inversion He; subst e. reflexivity.
  - destruct b; inversion He; subst e; reflexivity.
  - destruct ((0 <=? z)%Z && (z <? 18446744073709551616)%Z); inversion He; subst e.
    + apply eval_dec. exact Hi.
    + apply lit_of_f64_eval. exact Hi.
  - inversion He; subst e. apply lit_of_f64_eval. apply valid_of_bits.
  - inversion He; subst e. reflexivity.
Qed.

Theorem inject_scalar_expr_sound j v e rho va s :
  scalar_value j = Some v -> value_expr j = Some e ->
  forall k, (5 <= k)%nat -> eval d k rho va e s = Ok [v] s.
Proof. intros Hv He. exact (scalar_literal _ _ _ (int_valid_all j) Hv He rho va s). Qed.

Theorem inject_scalar_expr_sound_exact j v e rho va s :
  ints_exact (json_data j) -> scalar_value j = Some v -> value_expr j = Some e ->
  forall k, (5 <= k)%nat -> eval d k rho va e s = Ok [v] s.
Proof. intros Hx Hv He. exact (scalar_literal _ _ _ (int_valid_exact _ Hx) Hv He rho va s). Qed.

Theorem inject_ident_literal v e x sc rho va s :
  literal_of e v -> in_scope x sc = false -> reads rho x s v ->
  forall k, (5 <= k)%nat ->
  eval d k rho va (EIdent x) s = Ok [v] s /\
  eval d k rho va (inject_expr x e sc (EIdent x)) s = Ok [v] s.
Proof.
  intros Hlit Hsc Hr k L. split.
  - apply reads_eval; [exact Hr|lia].
  - rewrite (inject_expr_ident _ _ _ Hsc). apply Hlit. exact L.
Qed.

Theorem inject_ident_sound j v e x sc rho va s :
  scalar_value j = Some v -> value_expr j = Some e -> in_scope x sc = false ->
  reads rho x s v ->
  forall k, (5 <= k)%nat ->
  eval d k rho va (EIdent x) s = Ok [v] s /\
  eval d k rho va (inject_expr x e sc (EIdent x)) s = Ok [v] s.
Proof. intros Hv He. apply inject_ident_literal. exact (scalar_literal _ _ _ (int_valid_all j) Hv He). Qed.

Theorem inject_ident_sound_exact j v e x sc rho va s :
  ints_exact (json_data j) ->
  scalar_value j = Some v -> value_expr j = Some e -> in_scope x sc = false ->
  reads rho x s v ->
  forall k, (5 <= k)%nat ->
  eval d k rho va (EIdent x) s = Ok [v] s /\
  eval d k rho va (inject_expr x e sc (EIdent x)) s = Ok [v] s.
Proof. intros Hx Hv He. apply inject_ident_literal. exact (scalar_literal _ _ _ (int_valid_exact _ Hx) Hv He). Qed.

(** prefix position: [X.f], [X[k]], [X(...)], [X :: T<...>] *)

Theorem inject_prefix_literal v e x sc rho va s :
  literal_of e v -> in_scope x sc = false -> reads rho x s v ->
  forall k, (7 <= k)%nat ->
  inject_prefix x e sc (EIdent x) = EParen e /\
  eval d k rho va (EIdent x) s = Ok [v] s /\
  eval d k rho va (EParen e) s = Ok [v] s.
Proof.
  intros Hlit Hsc Hr k L. split; [exact (inject_prefix_ident _ _ _ Hsc)|]. split.
  - apply reads_eval; [exact Hr|lia].
  - destruct k as [|[|k]]; try lia. rewrite eval_S_paren. eapply bind_ok_intro.
    { rewrite eval1_S. eapply bind_ok_intro; [|reflexivity]. apply Hlit. lia. }
    reflexivity.
Qed.

Theorem inject_prefix_sound j v e x sc rho va s :
  scalar_value j = Some v -> value_expr j = Some e -> in_scope x sc = false ->
  reads rho x s v ->
  forall k, (7 <= k)%nat ->
  inject_prefix x e sc (EIdent x) = EParen e /\
  eval d k rho va (EIdent x) s = Ok [v] s /\
  eval d k rho va (EParen e) s = Ok [v] s.
Proof. intros Hv He. apply inject_prefix_literal. exact (scalar_literal _ _ _ (int_valid_all j) Hv He). Qed.

Theorem inject_prefix_sound_exact j v e x sc rho va s :
  ints_exact (json_data j) ->
  scalar_value j = Some v -> value_expr j = Some e -> in_scope x sc = false ->
  reads rho x s v ->
  forall k, (7 <= k)%nat ->
  inject_prefix x e sc (EIdent x) = EParen e /\
  eval d k rho va (EIdent x) s = Ok [v] s /\
  eval d k rho va (EParen e) s = Ok [v] s.
Proof. intros Hx Hv He. apply inject_prefix_literal. exact (scalar_literal _ _ _ (int_valid_exact _ Hx) Hv He). Qed.

Lemma global_holds_index x s v n : global_holds x s v -> index d (S n) (VTable A_globals) (VStr x) s = Ok v s.
Proof.
  intros (t & Ht & Hg & Hk).
  assert (Hv : v <> VNil \/ v = VNil /\ t_meta t = None).
  { destruct Hk as [Hk|Hk]; [left; exact Hk|]. destruct v; try (left; discriminate). right. auto. }
  destruct Hv as [Hv|[-> Hm]].
  - rewrite (index_raw_hit d n A_globals (VStr x) s t Ht); cbn [norm_key]; rewrite Hg; [reflexivity|exact Hv].
  - exact (index_plain_miss d n A_globals (VStr x) s t Ht Hm Hg).
Qed.

(** a global that [global_holds] is read by its plain name too, unless the value is [nil] and the
    name is one of the [ext...] names the reference interpreter defaults *)
Lemma global_holds_reads rho x s v :
  lookup rho x = None -> global_holds x s v -> (v <> VNil \/ is_ext_name x = false) -> reads rho x s v.
Proof.
  intros Hl (t & Ht & Hg & Hk) Hx. unfold reads. rewrite Hl. exists t. split; [exact Ht|].
  rewrite Hg. split; [exact Hk|]. unfold global_default.
  destruct v; try reflexivity. destruct Hx as [Hx|Hx]; [congruence|]. rewrite Hx. reflexivity.
Qed.

Theorem inject_field_literal v e x sc rho va s :
  literal_of e v -> in_scope nm_G sc = false -> G_is_globals rho s -> global_holds x s v ->
  forall k, (5 <= k)%nat ->
  eval d k rho va (EField (EIdent nm_G) x) s = Ok [v] s /\
  eval d k rho va (inject_expr x e sc (EField (EIdent nm_G) x)) s = Ok [v] s.
Proof.
  intros Hlit Hsc HG Hx k L. split.
  - do 2 (destruct k as [|k]; [lia|]). rewrite eval_S_field.
    eapply bind_ok_intro; [apply (reads_eval1 d _ _ _ _ _ _ HG); lia|].
    eapply bind_ok_intro; [apply global_holds_index; exact Hx|reflexivity].
  - rewrite (inject_expr_field _ _ _ Hsc). apply Hlit. exact L.
Qed.

Theorem inject_index_literal v e x sc rho va s :
  literal_of e v -> in_scope nm_G sc = false -> G_is_globals rho s -> global_holds x s v ->
  forall k, (5 <= k)%nat ->
  eval d k rho va (EIndex (EIdent nm_G) (EString x)) s = Ok [v] s /\
  eval d k rho va (inject_expr x e sc (EIndex (EIdent nm_G) (EString x))) s = Ok [v] s.
Proof.
  intros Hlit Hsc HG Hx k L. split.
  - do 3 (destruct k as [|k]; [lia|]). rewrite eval_S_index.
    eapply bind_ok_intro; [apply (reads_eval1 d _ _ _ _ _ _ HG); lia|].
    eapply bind_ok_intro; [rewrite eval1_S, eval_S_string; reflexivity|].
    eapply bind_ok_intro; [apply global_holds_index; exact Hx|reflexivity].
  - rewrite (inject_expr_index _ _ _ Hsc). apply Hlit. exact L.
Qed.

Theorem inject_field_sound j v e x sc rho va s :
  scalar_value j = Some v -> value_expr j = Some e -> in_scope nm_G sc = false ->
  G_is_globals rho s -> global_holds x s v ->
  forall k, (5 <= k)%nat ->
  eval d k rho va (EField (EIdent nm_G) x) s = Ok [v] s /\
  eval d k rho va (inject_expr x e sc (EField (EIdent nm_G) x)) s = Ok [v] s.
Proof. intros Hv He. apply inject_field_literal. exact (scalar_literal _ _ _ (int_valid_all j) Hv He). Qed.

Theorem inject_field_sound_exact j v e x sc rho va s :
  ints_exact (json_data j) ->
  scalar_value j = Some v -> value_expr j = Some e -> in_scope nm_G sc = false ->
  G_is_globals rho s -> global_holds x s v ->
  forall k, (5 <= k)%nat ->
  eval d k rho va (EField (EIdent nm_G) x) s = Ok [v] s /\
  eval d k rho va (inject_expr x e sc (EField (EIdent nm_G) x)) s = Ok [v] s.
Proof. intros Hx Hv He. apply inject_field_literal. exact (scalar_literal _ _ _ (int_valid_exact _ Hx) Hv He). Qed.

Theorem inject_index_sound j v e x sc rho va s :
  scalar_value j = Some v -> value_expr j = Some e -> in_scope nm_G sc = false ->
  G_is_globals rho s -> global_holds x s v ->
  forall k, (5 <= k)%nat ->
  eval d k rho va (EIndex (EIdent nm_G) (EString x)) s = Ok [v] s /\
  eval d k rho va (inject_expr x e sc (EIndex (EIdent nm_G) (EString x))) s = Ok [v] s.
Proof. intros Hv He. apply inject_index_literal. exact (scalar_literal _ _ _ (int_valid_all j) Hv He). Qed.

Theorem inject_index_sound_exact j v e x sc rho va s :
  ints_exact (json_data j) ->
  scalar_value j = Some v -> value_expr j = Some e -> in_scope nm_G sc = false ->
  G_is_globals rho s -> global_holds x s v ->
  forall k, (5 <= k)%nat ->
  eval d k rho va (EIndex (EIdent nm_G) (EString x)) s = Ok [v] s /\
  eval d k rho va (inject_expr x e sc (EIndex (EIdent nm_G) (EString x))) s = Ok [v] s.
Proof. intros Hx Hv He. apply inject_index_literal. exact (scalar_literal _ _ _ (int_valid_exact _ Hx) Hv He). Qed.

Lemma all_strings_entries items : forall l,
  all_strings items = Some l ->
  Serializer.seq_entries (map json_data items) = Some (map (fun s => TValue (EString s)) l).
Proof.
  induction items as [|j items IH]; intros l H.
  - inversion H; subst l. reflexivity.
  - unfold all_strings in H. cbn [fold_right] in H. fold (all_strings items) in H.
    destruct j; try discriminate H.
    destruct (all_strings items) as [l'|]; [|discriminate H]. inversion H; subst l.
    cbn [map json_data Serializer.seq_entries Serializer.to_expression]. rewrite (IH l' eq_refl). reflexivity.
Qed.

(** the StringList variant and the Array variant of [RulePropertyValue] give the same expression *)
Theorem inject_table_sound j e :
  value_expr j = Some e -> is_table_json j -> Serializer.to_expression (json_data j) = Some e.
Proof.
  intros He Ht. destruct j as [|b|z|bits|str|items|fields]; try contradiction; cbn [value_expr] in He.
  - destruct (all_strings items) as [l|] eqn:El; [|exact He].
    inversion He; subst e. cbn [json_data]. rewrite to_expression_seq, (all_strings_entries _ _ El). reflexivity.
  - exact He.
Qed.

Lemma inject_table_value_core j e :
  ints_ok (json_data j) ->
  value_expr j = Some e -> is_table_json j -> wf_keys (json_data j) -> seq_len_ok (json_data j) ->
  forall k rho va s, (size (json_data j) <= k)%nat ->
  exists a s', eval d k rho va e s = Ok [VTable a] s' /\
    (len (tables s) <= N.to_nat a)%nat /\
    (forall b t, nth_N (tables s) b = Some t -> nth_N (tables s') b = Some t) /\
    value_denotes_from (len (tables s)) s' (VTable a) (json_data j).
Proof.
  intros Hi He Ht Hw Hl k rho va s L.
  pose proof (inject_table_sound _ _ He Ht) as Hs.
  destruct (serialize_sound_fuel _ _ Hi Hw Hl Hs d k rho va s L) as (v & s' & E & K & D).
  assert (Ha : exists a, v = VTable a /\ (len (tables s) <= N.to_nat a)%nat).
  { destruct j; try contradiction; cbn [json_data] in D; inversion D; subst; eauto. }
  destruct Ha as (a & -> & Ha). exists a, s'. auto.
Qed.

(** every integer of the value (uses Flocq's rounding theorems, hence classical reals) *)
Theorem inject_table_value_sound j e :
  value_expr j = Some e -> is_table_json j -> wf_keys (json_data j) -> seq_len_ok (json_data j) ->
  forall k rho va s, (size (json_data j) <= k)%nat ->
  exists a s', eval d k rho va e s = Ok [VTable a] s' /\
    (len (tables s) <= N.to_nat a)%nat /\
    (forall b t, nth_N (tables s) b = Some t -> nth_N (tables s') b = Some t) /\
    value_denotes_from (len (tables s)) s' (VTable a) (json_data j).
Proof. intros. eapply inject_table_value_core; eauto. apply ints_ok_all. Qed.

(** integers below 2^53 in absolute value: no axiom *)
Theorem inject_table_value_sound_exact j e :
  ints_exact (json_data j) ->
  value_expr j = Some e -> is_table_json j -> wf_keys (json_data j) -> seq_len_ok (json_data j) ->
  forall k rho va s, (size (json_data j) <= k)%nat ->
  exists a s', eval d k rho va e s = Ok [VTable a] s' /\
    (len (tables s) <= N.to_nat a)%nat /\
    (forall b t, nth_N (tables s) b = Some t -> nth_N (tables s') b = Some t) /\
    value_denotes_from (len (tables s)) s' (VTable a) (json_data j).
Proof. intros. eapply inject_table_value_core; eauto. now apply ints_exact_ok. Qed.

End Inject.

(** the fuel bound 5 is the least one: [-inf] is written [-1 / 0] *)
Example inject_scalar_fuel_tight :
  value_expr (JFloat 18442240474082181120) = Some (EBinary BDiv (EUnary UMinus (DefaultRules.dec fone)) (DefaultRules.dec fzero)) /\
  eval L51 4 [] [] (EBinary BDiv (EUnary UMinus (DefaultRules.dec fone)) (DefaultRules.dec fzero)) (initial_store []) = Fuel.
Proof. split; vm_compute; reflexivity. Qed.

Definition nm_X : name := of_string "X".

Definition store_with_global (x : name) (v : value) (more : list table) : store :=
  match initial_tables with
  | g :: rest =>
    mkStore [] (mkTable ((VStr x, v) :: t_entries g) (t_meta g) :: rest ++ more) [] [] [] 0
  | [] => initial_store []
  end.

Definition st_X3 : store := store_with_global nm_X (VNum (of_Z 3)) [].

Example st_X3_reads : reads [] nm_X st_X3 (VNum (of_Z 3)).
Proof.
  unfold reads. cbn [lookup]. eexists. split; [vm_compute; reflexivity|].
  split; [left; vm_compute; discriminate|vm_compute; reflexivity].
Qed.

Example st_X3_holds : global_holds nm_X st_X3 (VNum (of_Z 3)).
Proof.
  eexists. split; [vm_compute; reflexivity|]. split; [vm_compute; reflexivity|left; discriminate].
Qed.

Example st_X3_G : G_is_globals [] st_X3.
Proof.
  unfold G_is_globals, reads. cbn [lookup]. eexists. split; [vm_compute; reflexivity|].
  split; [left; vm_compute; discriminate|vm_compute; reflexivity].
Qed.

Example inject_ident_example :
  scalar_value (JInt 3) = Some (VNum (of_Z 3)) /\
  (exists e, value_expr (JInt 3) = Some e /\
     eval L51 5 [] [] (EIdent nm_X) st_X3 = Ok [VNum (of_Z 3)] st_X3 /\
     eval L51 5 [] [] (inject_expr nm_X e [] (EIdent nm_X)) st_X3 = Ok [VNum (of_Z 3)] st_X3 /\
     eval L51 5 [] [] (EField (EIdent nm_G) nm_X) st_X3 = Ok [VNum (of_Z 3)] st_X3 /\
     eval L51 5 [] [] (inject_expr nm_X e [] (EField (EIdent nm_G) nm_X)) st_X3 = Ok [VNum (of_Z 3)] st_X3 /\
     eval L51 5 [] [] (EIndex (EIdent nm_G) (EString nm_X)) st_X3 = Ok [VNum (of_Z 3)] st_X3 /\
     eval L51 5 [] [] (inject_expr nm_X e [] (EIndex (EIdent nm_G) (EString nm_X))) st_X3 = Ok [VNum (of_Z 3)] st_X3 /\
     eval L51 7 [] [] (inject_prefix nm_X e [] (EIdent nm_X)) st_X3 = Ok [VNum (of_Z 3)] st_X3).
Proof. split; [reflexivity|]. eexists. split; [reflexivity|]. repeat split; vm_compute; reflexivity. Qed.

(** a [null] value: the global is absent *)
Example inject_null_example :
  reads [] nm_X (initial_store []) VNil /\ value_expr JNull = Some ENil /\
  eval L51 5 [] [] (EIdent nm_X) (initial_store []) = Ok [VNil] (initial_store []).
Proof.
  split; [|split; vm_compute; reflexivity].
  unfold reads. cbn [lookup]. eexists. split; [vm_compute; reflexivity|].
  split; [right; reflexivity|vm_compute; reflexivity].
Qed.

(** a table value: [{"a", "b"}] (StringList) and [{x = 1}] (Map) *)
Example inject_table_example :
  exists e1 e2,
    value_expr (JArr [JStr (of_string "a"); JStr (of_string "b")]) = Some e1 /\
    Serializer.to_expression (json_data (JArr [JStr (of_string "a"); JStr (of_string "b")])) = Some e1 /\
    value_expr (JObj [(of_string "x", JInt 1)]) = Some e2 /\
    wf_keys (json_data (JObj [(of_string "x", JInt 1)])) /\
    seq_len_ok (json_data (JObj [(of_string "x", JInt 1)])) /\
    ints_exact (json_data (JObj [(of_string "x", JInt 1)])).
Proof.
  eexists. eexists. split; [vm_compute; reflexivity|]. split; [vm_compute; reflexivity|].
  split; [vm_compute; reflexivity|]. cbn. repeat split; try discriminate; lia.
Qed.

(** the global [X] preset to ONE empty table (address 7, the first one after the initial tables) *)
Definition st_Xtab : store := store_with_global nm_X (VTable 7) [mkTable [] None].

(** [X == X] is true when the global [X] holds the configured (empty) array, and false once both
    reads are replaced by the table literal: the rule is not behaviour preserving for programs
    that observe the identity of a configured array / object (comparison, mutation, use as a key) *)
Theorem inject_table_identity_refuted :
  exists j e s0 s1 s2,
    value_expr j = Some e /\ is_table_json j /\
    reads [] nm_X s0 (VTable 7) /\ value_denotes s0 (VTable 7) (json_data j) /\
    eval L51 8 [] [] (EBinary BEq (EIdent nm_X) (EIdent nm_X)) s0 = Ok [VBool true] s1 /\
    eval L51 8 [] [] (EBinary BEq (inject_expr nm_X e [] (EIdent nm_X)) (inject_expr nm_X e [] (EIdent nm_X))) s0
      = Ok [VBool false] s2.
Proof.
  exists (JArr []), (ETable []), st_Xtab. eexists. eexists.
  split; [reflexivity|]. split; [exact I|]. split.
  { unfold reads. cbn [lookup]. eexists. split; [vm_compute; reflexivity|].
    split; [left; vm_compute; discriminate|vm_compute; reflexivity]. }
  split.
  { cbn [json_data map]. apply (VD_seq 0 st_Xtab 7 (mkTable [] None) []).
    - lia.
    - vm_compute; reflexivity.
    - reflexivity.
    - intros [|i] dd Hn; discriminate Hn.
    - intros k _. reflexivity. }
  split; vm_compute; reflexivity.
Qed.

(** the same in the initial store, for the literal alone *)
Example table_literal_not_self_equal :
  exists s', eval L51 8 [] [] (EBinary BEq (ETable []) (ETable [])) (initial_store []) = Ok [VBool false] s'.
Proof. eexists. vm_compute. reflexivity. Qed.
