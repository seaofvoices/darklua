(** C16, closure-representation independence of the reference interpreter: the clauses of
    [sim_all] (Proof/RefactorSimC.v, proved by induction on the fuel) as separate theorems.
    Definitions: Proof/RefactorSimDefs.v.  "The interpreter cannot distinguish [store_rel]-related
    stores and [env_agree]-ing environments": same fuel on both sides, every outcome (values,
    Lua errors, out-of-fuel, unsupported). *)
From Coq Require Import ZArith NArith List Bool String.
From DL Require Import Lib.Bytes Lib.F64 Lua.Syntax Lua.Sem Model.Refactor.
From DL Require Import Proof.DefaultRulesSem Proof.RefactorSimDefs.
From DL Require Import Proof.RefactorSimB Proof.RefactorSimC.
Import ListNotations.
Open Scope N_scope.

Section Export.
Variable d : dialect.
Variable n : nat.

Theorem sim_call f args s1 s2 : store_rel s1 s2 ->
  res_rel eq (call d n f args s1) (call d n f args s2).
Proof. apply (sa_call d n (sim_all_holds d n)). Qed.

Theorem sim_index o k s1 s2 : store_rel s1 s2 ->
  res_rel eq (index d n o k s1) (index d n o k s2).
Proof. apply (sa_index d n (sim_all_holds d n)). Qed.

Theorem sim_setindex o k v s1 s2 : store_rel s1 s2 ->
  res_rel eq (setindex d n o k v s1) (setindex d n o k v s2).
Proof. apply (sa_setindex d n (sim_all_holds d n)). Qed.

Theorem sim_tostr v s1 s2 : store_rel s1 s2 ->
  res_rel eq (tostr d n v s1) (tostr d n v s2).
Proof. apply (sa_tostr d n (sim_all_holds d n)). Qed.

Theorem sim_arith o a b s1 s2 : store_rel s1 s2 ->
  res_rel eq (arith d n o a b s1) (arith d n o a b s2).
Proof. apply (sa_arith d n (sim_all_holds d n)). Qed.

Theorem sim_concat a b s1 s2 : store_rel s1 s2 ->
  res_rel eq (concat d n a b s1) (concat d n a b s2).
Proof. apply (sa_concat d n (sim_all_holds d n)). Qed.

Theorem sim_equal a b s1 s2 : store_rel s1 s2 ->
  res_rel eq (equal d n a b s1) (equal d n a b s2).
Proof. apply (sa_equal d n (sim_all_holds d n)). Qed.

Theorem sim_less strict a b s1 s2 : store_rel s1 s2 ->
  res_rel eq (less d n strict a b s1) (less d n strict a b s2).
Proof. apply (sa_less d n (sim_all_holds d n)). Qed.

Theorem sim_length v s1 s2 : store_rel s1 s2 ->
  res_rel eq (length d n v s1) (length d n v s2).
Proof. apply (sa_length d n (sim_all_holds d n)). Qed.

Theorem sim_call_builtin b args s1 s2 : store_rel s1 s2 ->
  res_rel eq (call_builtin d n b args s1) (call_builtin d n b args s2).
Proof. apply (sa_builtin d n (sim_all_holds d n)). Qed.

Theorem sim_eval P rho1 rho2 va e s1 s2 :
  covers_expr P e -> env_agree P rho1 rho2 -> store_rel s1 s2 ->
  res_rel eq (eval d n rho1 va e s1) (eval d n rho2 va e s2).
Proof. intros Hc He. now apply (sa_eval d n (sim_all_holds d n) P). Qed.

Theorem sim_eval1 P rho1 rho2 va e s1 s2 :
  covers_expr P e -> env_agree P rho1 rho2 -> store_rel s1 s2 ->
  res_rel eq (eval1 d n rho1 va e s1) (eval1 d n rho2 va e s2).
Proof. intros Hc He. now apply (sa_eval1 d n (sim_all_holds d n) P). Qed.

Theorem sim_eval_list P rho1 rho2 va es s1 s2 :
  Forall (covers_expr P) es -> env_agree P rho1 rho2 -> store_rel s1 s2 ->
  res_rel eq (eval_list d n rho1 va es s1) (eval_list d n rho2 va es s2).
Proof. intros Hc He. now apply (sa_eval_list d n (sim_all_holds d n) P). Qed.

Theorem sim_eval_args P rho1 rho2 va a s1 s2 :
  (forall x, ment_args [x] a = true -> P x = true) -> env_agree P rho1 rho2 -> store_rel s1 s2 ->
  res_rel eq (eval_args d n rho1 va a s1) (eval_args d n rho2 va a s2).
Proof. intros Hc He. now apply (sa_eval_args d n (sim_all_holds d n) P). Qed.

Theorem sim_fill_table P rho1 rho2 va a entries pos s1 s2 :
  Forall (fun t => forall x, ment_tentry [x] t = true -> P x = true) entries ->
  env_agree P rho1 rho2 -> store_rel s1 s2 ->
  res_rel eq (fill_table d n rho1 va a entries pos s1) (fill_table d n rho2 va a entries pos s2).
Proof. intros Hc He. now apply (sa_fill d n (sim_all_holds d n) P). Qed.

Theorem sim_eval_target P rho1 rho2 va e s1 s2 :
  covers_expr P e -> env_agree P rho1 rho2 -> store_rel s1 s2 ->
  res_rel eq (eval_target d n rho1 va e s1) (eval_target d n rho2 va e s2).
Proof. intros Hc He. now apply (sa_eval_target d n (sim_all_holds d n) P). Qed.

Theorem sim_assign_target rho1 rho2 t v s1 s2 : store_rel s1 s2 ->
  res_rel eq (assign_target d n rho1 t v s1) (assign_target d n rho2 t v s2).
Proof. apply (sa_assign_target d n (sim_all_holds d n)). Qed.

Theorem sim_exec_stmt P rho1 rho2 va st s1 s2 :
  covers_stmt P st -> env_agree P rho1 rho2 -> store_rel s1 s2 ->
  res_rel (stmt_res_rel P) (exec_stmt d n rho1 va st s1) (exec_stmt d n rho2 va st s2).
Proof. intros Hc He. now apply (sa_stmt d n (sim_all_holds d n) P). Qed.

Theorem sim_exec_stmts P rho1 rho2 va ss last s1 s2 :
  (forall x, existsb (ment_stmt [x]) ss || optb (ment_last [x]) last = true -> P x = true) ->
  env_agree P rho1 rho2 -> store_rel s1 s2 ->
  res_rel eq (exec_stmts d n rho1 va ss last s1) (exec_stmts d n rho2 va ss last s2).
Proof. intros Hc He. now apply (sa_stmts d n (sim_all_holds d n) P). Qed.

Theorem sim_exec_block P rho1 rho2 va b s1 s2 :
  covers_block P b -> env_agree P rho1 rho2 -> store_rel s1 s2 ->
  res_rel eq (exec_block d n rho1 va b s1) (exec_block d n rho2 va b s2).
Proof. intros Hc He. now apply (sa_block d n (sim_all_holds d n) P). Qed.

Theorem sim_exec_while P rho1 rho2 va c b s1 s2 :
  covers_expr P c -> covers_block P b -> env_agree P rho1 rho2 -> store_rel s1 s2 ->
  res_rel eq (exec_while d n rho1 va c b s1) (exec_while d n rho2 va c b s2).
Proof. intros Hc Hb He. now apply (sa_while d n (sim_all_holds d n) P). Qed.

Theorem sim_exec_repeat P rho1 rho2 va b c s1 s2 :
  covers_block P b -> covers_expr P c -> env_agree P rho1 rho2 -> store_rel s1 s2 ->
  res_rel eq (exec_repeat d n rho1 va b c s1) (exec_repeat d n rho2 va b c s2).
Proof. intros Hb Hc He. now apply (sa_repeat d n (sim_all_holds d n) P). Qed.

Theorem sim_exec_numfor P rho1 rho2 va x i stop step b s1 s2 :
  covers_block P b -> env_agree P rho1 rho2 -> store_rel s1 s2 ->
  res_rel eq (exec_numfor d n rho1 va x i stop step b s1) (exec_numfor d n rho2 va x i stop step b s2).
Proof. intros Hb He. now apply (sa_numfor d n (sim_all_holds d n) P). Qed.

Theorem sim_exec_genfor P rho1 rho2 va vars f s ctl b s1 s2 :
  covers_block P b -> env_agree P rho1 rho2 -> store_rel s1 s2 ->
  res_rel eq (exec_genfor d n rho1 va vars f s ctl b s1) (exec_genfor d n rho2 va vars f s ctl b s2).
Proof. intros Hb He. now apply (sa_genfor d n (sim_all_holds d n) P). Qed.

End Export.

Print Assumptions sim_exec_stmts.
Print Assumptions sim_call.
