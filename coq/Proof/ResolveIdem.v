(** Renamers that always pick fresh names keep the nameless form (Lua/Resolve.v), and the
    normaliser is one of them, so [nameless] is idempotent.

    Both are cases of [nameless_after_ren] (Proof/ResolveFacts.v): the invariant [coherent] of
    the renamer's environment makes "bound, or free and one of the expected free names" imply
    [occ_ok] at every occurrence. *)
From Coq Require Import Arith PeanoNat NArith List Bool Lia.
From DL Require Import Lib.Bytes Lua.Syntax Lua.Resolve Proof.ResolveFacts.
Import ListNotations.

(** [g] says which names the free identifiers of the program may have; every new name is
    distinct from the new names of the binders in scope - on the environments that satisfy [J],
    which the traversal keeps -, is not one of the [g] names and is not [self]. *)
Section FreshPick.
Variable pick : renv -> name -> name.
Variable g : name -> bool.
Variable J : renv -> Prop.
Hypothesis J_bind : forall env x, J env -> J (bind pick env x).
Hypothesis J_self : forall env, J env -> J (bind_self env).
Hypothesis pick_fresh : forall env x, J env -> ~ In (pick env x) (map snd env).
Hypothesis pick_not_g : forall env x, g (pick env x) = false.
Hypothesis pick_not_self : forall env x, pick env x <> self_name.

Definition free_at (env : renv) (x : name) : bool :=
  match lookup env x with Some _ => true | None => g x end.

(** an entry is the implicit [self], or was made by [pick] *)
Definition entry_ok (e : name * name) : Prop :=
  (fst e = self_name /\ snd e = self_name) \/ (g (snd e) = false /\ snd e <> self_name).
(** the new name of a bound identifier leads back to its binder *)
Definition coherent (env : renv) : Prop :=
  J env /\ (forall x i, find_fst env x = Some i -> find_snd env (occ env x) = Some i) /\ Forall entry_ok env.

Lemma occ_in env x m : lookup env x = Some m -> In m (map snd env).
Proof.
  induction env as [|[o n] r IH]; [discriminate|]. cbn [lookup map snd].
  destruct (bytes_eqb o x); [intros H; inversion H; now left | intros H; right; now apply IH].
Qed.

Lemma lookup_self env y : Forall entry_ok env -> lookup env y = Some self_name -> y = self_name.
Proof.
  induction 1 as [|[o n] r He F IH]; [discriminate|]. cbn [lookup]. destruct (bytes_eqb o y) eqn:Eo.
  - intros L. inversion L; subst n. apply bytes_eqb_eq in Eo. subst o.
    destruct He as [[He _] | [_ He]]; [exact He | cbn in He; contradiction].
  - exact IH.
Qed.

Lemma coherent_step env o n :
  coherent env -> J ((o, n) :: env) -> entry_ok (o, n) ->
  (forall x m, bytes_eqb o x = false -> lookup env x = Some m -> n <> m) ->
  coherent ((o, n) :: env).
Proof.
  intros [_ [C F]] HJ E NE. split; [exact HJ|]. split; [|now constructor].
  intros x i H. cbn [find_fst] in H. unfold occ. cbn [lookup find_snd].
  destruct (bytes_eqb o x) eqn:Eo.
  - inversion H; subst i. now rewrite bytes_eqb_refl.
  - destruct (find_fst env x) as [i'|] eqn:Fx; [|discriminate]. cbn in H. inversion H; subst i.
    specialize (C x i' Fx). unfold occ in C.
    destruct (lookup env x) as [m|] eqn:L.
    + rewrite (bytes_eqb_neq _ _ (NE x m Eo L)), C. reflexivity.
    + apply lookup_none in L. congruence.
Qed.

Lemma coherent_bind env x : coherent env -> coherent (bind pick env x).
Proof.
  intros C. unfold bind. apply coherent_step; [exact C | apply J_bind, C | |].
  - right. cbn [snd]. split; [apply pick_not_g | apply pick_not_self].
  - intros y m _ L K. apply (pick_fresh env x); [apply C|]. rewrite K. now apply (occ_in env y).
Qed.

Lemma coherent_self env : coherent env -> coherent (bind_self env).
Proof.
  intros C. unfold bind_self. apply coherent_step; [exact C | apply J_self, C | left; split; reflexivity |].
  intros y m E L K. subst m. destruct C as [_ [_ F]].
  rewrite (lookup_self env y F L), bytes_eqb_refl in E. discriminate.
Qed.

Lemma free_find_snd env x :
  Forall entry_ok env -> find_fst env x = None -> g x = true -> find_snd env x = None.
Proof.
  intros F Fx Hg. induction F as [|[o n] r He F IH]; [reflexivity|].
  cbn [find_fst] in Fx. cbn [find_snd].
  destruct (bytes_eqb o x) eqn:Eo; [discriminate|].
  destruct (find_fst r x); [discriminate|].
  assert (NE : n <> x).
  { intros K. subst n. destruct He as [[He1 He2] | [He _]]; cbn [fst snd] in *.
    - subst o x. rewrite bytes_eqb_refl in Eo. discriminate.
    - congruence. }
  now rewrite (bytes_eqb_neq _ _ NE), IH.
Qed.

Lemma coherent_occ_ok env x : coherent env -> free_at env x = true -> occ_ok env x = true.
Proof.
  intros [_ [C F]] H. unfold free_at in H. unfold occ_ok.
  destruct (find_fst env x) as [i|] eqn:Fx.
  - rewrite (C x i Fx). cbn. apply Nat.eqb_refl.
  - pose proof (proj1 (lookup_none env x) Fx) as L. rewrite L in H. unfold occ. rewrite L.
    now rewrite (free_find_snd env x F Fx H).
Qed.

Theorem fresh_pick_nameless : forall b,
  J [] -> ao_block pick free_at [] b = true -> nameless (ren_block pick [] b) = nameless b.
Proof.
  intros b HJ. apply (nameless_after_ren pick free_at coherent coherent_bind coherent_self coherent_occ_ok).
  split; [exact HJ|]. split; [intros x i K; discriminate | constructor].
Qed.
End FreshPick.

(** the normaliser picks fresh names: [canon k] is not in an environment of at most k entries
    it built *)
Lemma canon_inj k k' : canon k = canon k' -> k = k'.
Proof. unfold canon. intros H. inversion H. now apply Nat2N.inj. Qed.

Lemma canon_not_self k : canon k <> self_name.
Proof. unfold canon, self_name. intros H. inversion H. Qed.

Lemma is_canon_canon k : is_canon (canon k) = true.
Proof. reflexivity. Qed.

Definition below_canon (env : renv) : Prop :=
  forall k, (List.length env <= k)%nat -> ~ In (canon k) (map snd env).

Lemma below_canon_cons env o n :
  below_canon env -> (forall k, (List.length env < k)%nat -> n <> canon k) -> below_canon ((o, n) :: env).
Proof.
  intros B NE k Hk [K|K]; cbn [List.length] in Hk.
  - now apply (NE k).
  - apply (B k); [lia | exact K].
Qed.

(** normalising twice is normalising once, for every tree whose free identifiers are not
    spelled like canonical names (no Lua identifier starts with '%') *)
Theorem nameless_idempotent : forall b, canon_free b = true -> nameless (nameless b) = nameless b.
Proof.
  intros b H.
  apply (fresh_pick_nameless canon_pick (fun x => negb (is_canon x)) below_canon); try assumption.
  - intros env x B. apply below_canon_cons; [exact B|]. intros k Hk K. apply canon_inj in K. lia.
  - intros env B. apply below_canon_cons; [exact B|]. intros k _ K. symmetry in K. now apply canon_not_self in K.
  - intros env x B. now apply B.
  - reflexivity.
  - intros env x. apply canon_not_self.
  - intros k _ [].
Qed.

(** the case of a list [G] of names that contains every free identifier of the program *)
Section Fresh.
Variable pick : renv -> name -> name.
Variable G : list name.

Definition gmem (x : name) : bool := existsb (bytes_eqb x) G.
Definition free_in_at (env : renv) (x : name) : bool :=
  match lookup env x with Some _ => true | None => gmem x end.
(** every free identifier of b is in G *)
Definition free_in (b : block) : bool := ao_block pick free_in_at [] b.
End Fresh.

(** renaming with names that are fresh among the live new names, outside a set [G] containing the
    program's free identifiers, and never [self], preserves the nameless form *)
Theorem nameless_fresh_rename_invariant : forall (pick : renv -> name -> name) (G : list name) (b : block),
  (forall env x, ~ In (pick env x) (map snd env)) ->
  (forall env x, gmem G (pick env x) = false) ->
  (forall env x, pick env x <> self_name) ->
  free_in pick G b = true ->
  nameless (ren_block pick [] b) = nameless b.
Proof.
  intros pick G b H1 H2 H3 H4.
  now apply (fresh_pick_nameless pick (gmem G) (fun _ => True)).
Qed.

Theorem rename_preserves_binding_partial :
  forall (pick : renv -> name -> name) (G : list name) (p : block),
  (forall env x, ~ In (pick env x) (map snd env)) ->
  (forall env x, gmem G (pick env x) = false) ->
  (forall env x, pick env x <> self_name) ->
  free_in pick G p = true ->
  fingerprint (nameless (ren_block pick [] p)) = fingerprint (nameless p).
Proof. intros pick G p H1 H2 H3 H4. f_equal. now apply nameless_fresh_rename_invariant with (G := G). Qed.
