(** C07 for the rules modelled in Model/Lowering.v.  The generic theorems of
    Proof/LoweringCensusVisit.v ask three things of a rule's hooks:
      (w) they do not increase the size measure,
      (r) the root of a rewritten node carries no occurrence of the rule's construct,
      (z) they introduce no occurrence of any of the nine constructs into a tree free of it.
    Per rule the three are proved together, by one case analysis on the node ([ok_expr],
    [ok_stmt]), and give [rule_ok] (composed in Proof/LoweringCensusAll.v).  remove_types alone has hooks on
    prefixes and blocks and leaves type kids behind: it goes through [removes_rule] and
    [preserves_rule] directly. *)
From Coq Require Import ZArith NArith List Bool Lia ZifyBool ZifyN ZifyNat.
From DL Require Import Lib.Bytes Lua.Syntax Lua.Census Model.Evaluator Model.Visit Model.Lowering
  Proof.LoweringCensusBase Proof.LoweringCensusKids Proof.LoweringCensusVisit.
Import ListNotations.
Local Open Scope nat_scope.

(** [root0] closes [root_* i n = 0%N] for a numeral [i] and a node [n] given by its constructor,
    unless [n] is the construct of index [i]: the root computes to [0] once the flags it looks at
    (number kind, operator, attribute count) are case-split.  On the construct itself it leaves
    a goal, which is how [try (...; root0; fail)] singles that case out. *)
Ltac root0 :=
  cbn [root_expr root_stmt root_last attrs_root];
  repeat (match goal with
          | |- context [if ?c then _ else _] => destruct c
          | |- context [match ?op with BAnd => _ | _ => _ end] => destruct op
          | f : fbody |- _ => destruct f
          end; cbn [root_expr root_stmt root_last attrs_root]); try reflexivity.

Lemma root_prefix_form i e : u i 7 = 0%N -> is_prefix_form e = true -> root_expr i e = 0%N.
Proof. intros U E. destruct e; try discriminate E; try reflexivity. exact U. Qed.

Lemma le_zero (a b : N) : (a <= b)%N -> b = 0%N -> a = 0%N.
Proof. lia. Qed.

Definition id_stmt_hook (g : stmt -> stmt) : nat -> stmt -> stmt * nat := fun k s => (g s, k).

(** the generic theorems, for a rule = the traversal with fuel [w_block b], read on [feature] *)
Lemma removes_rule i H (okS : stmt -> Prop) : i < 9 -> hooks_w H ->
  (forall e, root_expr i (h_expr H e) = 0%N /\ tyfree i (kids_expr (h_expr H e))) ->
  (forall e, is_prefix_form e = true -> root_expr i (h_prefix H e) = 0%N /\ tyfree i (kids_expr (h_prefix H e))) ->
  (forall k s, okS s -> root_stmt i (fst (h_stmt H k s)) = 0%N /\ tyfree i (kids_stmt (fst (h_stmt H k s)))) ->
  (forall b, match h_block H b with
             | Block ss last => (forall s, In s ss -> okS s) /\ (forall l, last = Some l -> root_last i l = 0%N)
             end) ->
  forall b, feature i (run_rule H b) = 0%N.
Proof.
  intros Hi HW Re Rp Rs Rb b. rewrite feature_f_block by exact Hi.
  apply (visit_removes i H okS HW Re Rp Rs Rb). lia.
Qed.

Lemma preserves_rule j H : j < 9 -> hooks_w H ->
  (forall e, f_expr j e = 0%N -> f_expr j (h_expr H e) = 0%N) ->
  (forall e, f_expr j e = 0%N -> f_expr j (h_prefix H e) = 0%N) ->
  (forall k s, f_stmt j s = 0%N -> f_stmt j (fst (h_stmt H k s)) = 0%N) ->
  (forall b, f_block j b = 0%N -> f_block j (h_block H b) = 0%N) ->
  forall b, feature j b = 0%N -> feature j (run_rule H b) = 0%N.
Proof.
  intros Hj HW Ze Zp Zs Zb b Z. rewrite feature_f_block in * by exact Hj.
  apply (proj1 (visit_preserves j H HW Ze Zp Zs Zb (w_block b)) 0 0 (KB b)); [exact Z|cbn [w_kid]; lia].
Qed.

(** what the rule for the construct of index [i] owes where it puts [e'] for [e] *)
Definition ok_expr (i : nat) (e e' : expr) : Prop :=
  w_expr e' <= w_expr e /\ root_expr i e' = 0%N /\ forall j, f_expr j e = 0%N -> f_expr j e' = 0%N.
Definition ok_stmt (i : nat) (s s' : stmt) : Prop :=
  w_stmt s' <= w_stmt s /\ root_stmt i s' = 0%N /\ forall j, f_stmt j s = 0%N -> f_stmt j s' = 0%N.

Lemma ok_expr_refl i e : root_expr i e = 0%N -> ok_expr i e e.
Proof. intros R. split; [lia|split; [exact R|auto]]. Qed.
Lemma ok_stmt_refl i s : root_stmt i s = 0%N -> ok_stmt i s s.
Proof. intros R. split; [lia|split; [exact R|auto]]. Qed.

Record rule_ok (i : nat) (H : hooks) : Prop := {
  ok_w : hooks_w H;
  ok_removes : forall b, feature i (run_rule H b) = 0%N;
  ok_preserves : forall j b, j < 9 -> feature j b = 0%N -> feature j (run_rule H b) = 0%N;
}.

(** the usual case: the construct is neither [continue] nor type syntax, and the processor
    has no hook on prefixes and blocks; only the rewritten nodes matter *)
Lemma rule_ok_plain i H : i < 9 -> u i 1 = 0%N -> u i 7 = 0%N ->
  (forall e, h_prefix H e = e) -> (forall b, h_block H b = b) ->
  (forall e, ok_expr i e (h_expr H e)) -> (forall k s, ok_stmt i s (fst (h_stmt H k s))) ->
  rule_ok i H.
Proof.
  intros Hi U1 U7 Ip Ib Oe Os.
  assert (hooks_w H) as HW.
  { split; [intros e; apply Oe|split; [intros e; rewrite Ip; lia|split; [intros k s; apply Os|intros b; rewrite Ib; lia]]]. }
  split; [exact HW|apply (removes_rule i H (fun _ => True) Hi HW)|intros j b Hj; revert b; apply (preserves_rule j H Hj HW)].
  - intros e. split; [apply Oe|apply tyfree_ne7, U7].
  - intros e E. rewrite Ip. split; [apply root_prefix_form; assumption|apply tyfree_ne7, U7].
  - intros k s _. split; [apply Os|apply tyfree_ne7, U7].
  - intros b. rewrite Ib. destruct b as [ss last]. split; [auto|]. intros [| |es] _; try reflexivity. exact U1.
  - intros e. apply Oe.
  - intros e. rewrite Ip. auto.
  - intros k s. apply Os.
  - intros b. rewrite Ib. auto.
Qed.

Lemma w_wrap_in_table e : w_expr (wrap_in_table e) <= 3 + w_expr e.
Proof. unfold wrap_in_table. destruct (can_return_multiple_values e); wsimp; lia. Qed.

Lemma w_convert c r acc : w_expr (convert_if_branch c r acc) <= 12 + (w_expr c + w_expr r) + w_expr acc.
Proof.
  unfold convert_if_branch. pose proof (w_wrap_in_table r). pose proof (w_wrap_in_table acc).
  destruct (is_truthy (evaluate r)) as [[|]|]; unfold num_one; wsimp; lia.
Qed.

Lemma w_if_fold els bs :
  w_expr (fold_right (fun b acc => match b with EBranch c r => convert_if_branch c r acc end) els bs)
  <= sum (map w_ebranch bs) + w_expr els.
Proof.
  induction bs as [|[c r] bs IH]; cbn [fold_right map]; [cbn; lia|].
  rewrite sum_cons. cbn [w_ebranch].
  pose proof (w_convert c r (fold_right (fun b acc => match b with EBranch c r => convert_if_branch c r acc end) els bs)).
  lia.
Qed.

Lemma f_wrap_in_table j e : f_expr j (wrap_in_table e) = f_expr j e.
Proof. unfold wrap_in_table. destruct (can_return_multiple_values e); fsimp; lia. Qed.

Lemma f_convert j c r acc : f_expr j (convert_if_branch c r acc) = (f_expr j c + f_expr j r + f_expr j acc)%N.
Proof.
  unfold convert_if_branch.
  destruct (is_truthy (evaluate r)) as [[|]|]; unfold num_one; fsimp; cbn [luau_number]; rewrite ?f_wrap_in_table; lia.
Qed.

Lemma f_if_fold j els bs :
  f_expr j (fold_right (fun b acc => match b with EBranch c r => convert_if_branch c r acc end) els bs)
  = (sumN (map (f_ebranch j) bs) + f_expr j els)%N.
Proof.
  induction bs as [|[c r] bs IH]; cbn [fold_right map]; [cbn; lia|].
  rewrite f_convert, IH, sumN_cons. cbn [f_ebranch]. lia.
Qed.

Lemma root_convert i c r acc : root_expr i (convert_if_branch c r acc) = 0%N.
Proof. unfold convert_if_branch. destruct (is_truthy (evaluate r)) as [[|]|]; reflexivity. Qed.

Lemma ok_rw_if e : ok_expr 2 e (rw_if_expression e).
Proof.
  destruct e; try (cbn [rw_if_expression]; apply ok_expr_refl; root0; fail). unfold rw_if_expression.
  destruct branches as [|[c r] bs].
  - split; [wsimp; lia|split; [reflexivity|intros j; fsimp; lia]].
  - pose proof (w_if_fold e (EBranch c r :: bs)).
    split; [wunf; lia|split; [apply root_convert|]]. intros j. funf. rewrite f_if_fold. lia.
Qed.

Lemma if_ok : rule_ok 2 hooks_if_expression.
Proof.
  apply rule_ok_plain; try reflexivity; [lia|exact ok_rw_if|].
  intros k s. apply (ok_stmt_refl _ s). destruct s; root0.
Qed.

Theorem removes_if_expression : forall b, feature 2 (rule_if_expression b) = 0%N.
Proof. exact (ok_removes _ _ if_ok). Qed.

Lemma luau_number_rw n : luau_number (rw_luau_number n) = false.
Proof. destruct n; reflexivity. Qed.

Lemma ok_rw_luau_number e : ok_expr 5 e (rw_luau_number_expr e).
Proof.
  destruct e; try (cbn [rw_luau_number_expr]; apply ok_expr_refl; root0; fail).
  split; [cbn; lia|]. cbn [rw_luau_number_expr root_expr f_expr]. rewrite luau_number_rw. auto.
Qed.

Lemma luau_number_ok : rule_ok 5 hooks_luau_number.
Proof.
  apply rule_ok_plain; try reflexivity; [lia|exact ok_rw_luau_number|].
  intros k s. apply (ok_stmt_refl _ s). destruct s; root0.
Qed.

Theorem removes_luau_number : forall b, feature 5 (rule_luau_number b) = 0%N.
Proof. exact (ok_removes _ _ luau_number_ok). Qed.

Lemma ok_rw_const s : ok_stmt 6 s (rw_const s).
Proof.
  destruct s; try (cbn [rw_const]; apply ok_stmt_refl; root0; fail). cbn [rw_const].
  split; [wunf; lia|split; [reflexivity|]]. intros j. funf. destruct is_const; lia.
Qed.

Lemma const_ok : rule_ok 6 hooks_const.
Proof.
  apply rule_ok_plain; try reflexivity; [lia| |intros k s; apply ok_rw_const].
  intros e. apply (ok_expr_refl _ e). destruct e; root0.
Qed.

Theorem removes_const : forall b, feature 6 (rule_const b) = 0%N.
Proof. exact (ok_removes _ _ const_ok). Qed.

Lemma w_clear_attrs f : w_fbody (clear_attrs f) = w_fbody f.
Proof. destruct f. reflexivity. Qed.
Lemma f_clear_attrs j f : (f_fbody j (clear_attrs f) <= f_fbody j f)%N.
Proof. destruct f. cbn [clear_attrs]. funf. cbn [N.eqb]. destruct (attrs =? 0)%N; lia. Qed.
Lemma attrs_root_clear i f : attrs_root i (clear_attrs f) = 0%N.
Proof. destruct f. reflexivity. Qed.

Lemma ok_rw_attribute e : ok_expr 8 e (rw_attribute e).
Proof.
  destruct e; try (cbn [rw_attribute]; apply ok_expr_refl; root0; fail). cbn [rw_attribute].
  split; [cbn [w_expr]; rewrite w_clear_attrs; lia|split; [apply attrs_root_clear|]].
  intros j. cbn [f_expr]. apply le_zero, f_clear_attrs.
Qed.

Lemma ok_rw_attribute_stmt s : ok_stmt 8 s (rw_attribute_stmt s).
Proof.
  destruct s; try (cbn [rw_attribute_stmt]; apply ok_stmt_refl; root0; fail); cbn [rw_attribute_stmt];
    (split; [cbn [w_stmt]; rewrite w_clear_attrs; lia|split; [cbn [root_stmt]; rewrite attrs_root_clear; reflexivity|]]);
    intros j; cbn [f_stmt]; pose proof (f_clear_attrs j f); lia.
Qed.

Lemma attribute_ok : rule_ok 8 hooks_attribute.
Proof.
  apply rule_ok_plain; try reflexivity; [lia|exact ok_rw_attribute|intros k s; apply ok_rw_attribute_stmt].
Qed.

Theorem removes_attribute : forall b, feature 8 (rule_attribute b) = 0%N.
Proof. exact (ok_removes _ _ attribute_ok). Qed.

Lemma w_interp_values st segs : sum (map w_expr (interp_values st segs)) <= sum (map w_iseg segs).
Proof.
  unfold interp_values. rewrite sum_flat_map. apply sum_map_le_pointwise. intros [s|e] _.
  - cbn. lia.
  - destruct st; unfold call_tostring; wsimp; lia.
Qed.

Lemma f_interp_values j st segs : sumN (map (f_expr j) (interp_values st segs)) = sumN (map (f_iseg j) segs).
Proof.
  unfold interp_values. rewrite sumN_flat_map. apply sumN_map_ext. intros [s|e] _.
  - reflexivity.
  - destruct st; unfold call_tostring; fsimp; lia.
Qed.

Lemma ok_rw_interp st e : ok_expr 3 e (rw_interpolated_string st e).
Proof.
  destruct e; try (cbn [rw_interpolated_string]; apply ok_expr_refl; root0; fail).
  assert (ok_expr 3 (EInterp segs) (ECall (EField (EIdent (lnm "string")) (lnm "format")) None
            (ATuple (EString (interp_format st segs) :: interp_values st segs)))) as X.
  { pose proof (w_interp_values st segs).
    split; [wsimp; lia|split; [reflexivity|]]. intros j. fsimp. rewrite f_interp_values. lia. }
  unfold rw_interpolated_string. destruct segs as [|[s|v] [|x rest]]; try exact X; unfold call_tostring;
    (split; [wsimp; lia|split; [reflexivity|intros j; fsimp; lia]]).
Qed.

Lemma interp_ok st : rule_ok 3 (hooks_interpolated_string st).
Proof.
  apply rule_ok_plain; try reflexivity; [lia|exact (ok_rw_interp st)|].
  intros k s. apply (ok_stmt_refl _ s). destruct s; root0.
Qed.

Theorem removes_interpolated_string : forall st b, feature 3 (rule_interpolated_string st b) = 0%N.
Proof. intros st. exact (ok_removes _ _ (interp_ok st)). Qed.

Lemma w_remove_parens e : w_expr (remove_parens e) <= w_expr e.
Proof. destruct e; cbn [remove_parens w_expr]; lia. Qed.
Lemma w_simplify_prefix p : w_expr (simplify_prefix p) <= w_expr p.
Proof. destruct p; cbn [simplify_prefix]; try lia. destruct p; cbn [w_expr]; lia. Qed.
Lemma f_remove_parens j e : f_expr j (remove_parens e) = f_expr j e.
Proof. destruct e; reflexivity. Qed.
Lemma f_simplify_prefix j p : f_expr j (simplify_prefix p) = f_expr j p.
Proof. destruct p; try reflexivity. destruct p; reflexivity. Qed.

Lemma ok_plain_assign i op var v : ok_stmt i (SCompound op var v) (plain_assign op var v).
Proof.
  pose proof (w_binop_bounds op). unfold plain_assign.
  split; [wsimp; lia|split; [reflexivity|intros j; fsimp; lia]].
Qed.

(** whatever the construct: the statements that replace a compound assignment carry no root
    occurrence at all (remove_floor_division relies on that for [//=]) *)
Lemma ok_rw_compound i k op var v :
  ok_stmt i (SCompound op var v) (fst (rw_compound_assign_k k (SCompound op var v))).
Proof.
  pose proof (w_binop_bounds op) as Hop. unfold rw_compound_assign_k.
  destruct var; try (cbn [fst]; apply ok_plain_assign).
  - (* field *)
    pose proof (w_remove_parens var). pose proof (w_simplify_prefix var).
    destruct (prefix_needs_temp var); cbn [fst]; unfold do_assign, plain_assign, local_temps;
      (split; [wsimp; lia|split; [reflexivity|]]);
      intros j; fsimp; rewrite ?f_remove_parens, ?f_simplify_prefix; lia.
  - (* index *)
    pose proof (w_remove_parens var1). pose proof (w_simplify_prefix var1). pose proof (w_remove_parens var2).
    destruct (prefix_needs_temp var1), (key_needs_temp var2); cbn [fst]; unfold do_assign, plain_assign, local_temps;
      (split; [wsimp; lia|split; [reflexivity|]]);
      intros j; fsimp; rewrite ?f_remove_parens, ?f_simplify_prefix; lia.
Qed.

Lemma ok_compound_hook k s : ok_stmt 0 s (fst (rw_compound_assign_k k s)).
Proof. destruct s; try (cbn [rw_compound_assign_k fst]; apply ok_stmt_refl; root0; fail). apply ok_rw_compound. Qed.

Lemma compound_ok : rule_ok 0 hooks_compound_assign.
Proof.
  apply rule_ok_plain; try reflexivity; [lia| |exact ok_compound_hook].
  intros e. apply (ok_expr_refl _ e). destruct e; root0.
Qed.

Theorem removes_compound_assign : forall b, feature 0 (rule_compound_assign b) = 0%N.
Proof. exact (ok_removes _ _ compound_ok). Qed.

Lemma ok_rw_floor e : ok_expr 4 e (rw_floor_division e).
Proof.
  destruct e; try (cbn [rw_floor_division]; apply ok_expr_refl; root0; fail). destruct op; try (apply ok_expr_refl; reflexivity).
  cbn [rw_floor_division]. split; [wsimp; lia|split; [reflexivity|intros j; fsimp; lia]].
Qed.

(** [//=] goes through the whole compound-assignment rule: its weight and its censuses are
    those of that traversal, its root that of the traversal's first step *)
Lemma ok_rw_floor_stmt s : ok_stmt 4 s (rw_floor_division_stmt s).
Proof.
  destruct s; try (cbn [rw_floor_division_stmt]; apply ok_stmt_refl; root0; fail). destruct op; try (apply ok_stmt_refl; reflexivity).
  cbn [rw_floor_division_stmt]. split; [|split].
  - apply (proj2 (visit_weight hooks_compound_assign (ok_w _ _ compound_ok) _)).
  - change (w_stmt (SCompound BIDiv var v)) with (S (39 + (2 * w_expr var + w_expr v))).
    rewrite visit_stmt_S. cbv zeta. cbn [fst]. rewrite root_stmt_map. apply ok_rw_compound.
  - intros j Z.
    apply (proj2 (visit_preserves j hooks_compound_assign (ok_w _ _ compound_ok) (fun e H => H) (fun e H => H)
                    (fun k s => proj2 (proj2 (ok_compound_hook k s)) j) (fun b H => H) _)); [exact Z|lia].
Qed.

Lemma floor_ok : rule_ok 4 hooks_floor_division.
Proof.
  apply rule_ok_plain; try reflexivity; [lia|exact ok_rw_floor|intros k s; apply ok_rw_floor_stmt].
Qed.

Theorem removes_floor_division : forall b, feature 4 (rule_floor_division b) = 0%N.
Proof. exact (ok_removes _ _ floor_ok). Qed.

Definition not_type_root (e : expr) : Prop :=
  match e with ETypeCast _ _ | ETypeInst _ _ => False | _ => True end.

Lemma strip_types_facts e :
  not_type_root (strip_types e) /\ w_expr (strip_types e) <= w_expr e /\
  forall j, (f_expr j (strip_types e) <= f_expr j e)%N.
Proof.
  induction e; try (cbn [strip_types]; split; [exact I|split; [lia|intros; lia]]).
  (* a cast and an instantiation alike: parentheses end the loop, otherwise it goes on below *)
  all: destruct IHe as (A & B & C); cbn [strip_types]; destruct (can_return_multiple_values e).
  1,3: split; [exact I|split; [wsimp; lia|intros j; fsimp; lia]].
  all: split; [exact A|split; [wsimp; lia|intros j; specialize (C j); fsimp; lia]].
Qed.

Lemma kids_params_clear ps : flat_map kids_param (map clear_param ps) = [].
Proof. induction ps as [|[x t] ps IH]; [reflexivity|]. cbn [map flat_map clear_param kids_param kids_opt_ty app]. exact IH. Qed.

Lemma kids_clear_fbody f : kt_free (kids_fbody (clear_fbody f)).
Proof. destruct f. cbn [clear_fbody kids_fbody kids_opt_ty app]. rewrite kids_params_clear. cbn [app]. kt. Qed.

Lemma w_params_clear ps : sum (map w_param (map clear_param ps)) <= sum (map w_param ps).
Proof. apply sum_map_le. intros [x t] _. cbn [clear_param]. wsimp. lia. Qed.

Lemma w_clear_fbody f : w_fbody (clear_fbody f) <= w_fbody f.
Proof. destruct f. cbn [clear_fbody]. wunf. cbn [wopt]. pose proof (w_params_clear params). lia. Qed.

Lemma f_params_clear j ps : sumN (map (f_param j) (map clear_param ps)) = 0%N.
Proof. apply sumN_map_zero. intros p Hp. apply in_map_iff in Hp as ([x t] & <- & _). reflexivity. Qed.

Lemma f_clear_fbody j f : (f_fbody j (clear_fbody f) <= f_fbody j f)%N.
Proof. destruct f. cbn [clear_fbody]. funf. cbn [optN]. rewrite f_params_clear. lia. Qed.

Lemma attrs_root_7 f : attrs_root 7 f = 0%N.
Proof. destruct f. cbn [attrs_root]. destruct (attrs =? 0)%N; reflexivity. Qed.

Lemma kt_free_kids_expr e : not_type_root e -> (forall f, e <> EFunction f) -> kt_free (kids_expr e).
Proof.
  intros N F. destruct e; cbn [kids_expr]; try contradiction; kt.
  - apply kt_free_flat_map. intros [b|e]; cbn [kids_iseg]; kt.
  - exfalso. exact (F f eq_refl).
  - apply kt_free_flat_map. intros [c r]; cbn [kids_ebranch]; kt.
Qed.

Lemma root7_plain e : not_type_root e -> root_expr 7 e = 0%N.
Proof. intros N. destruct e; try contradiction; root0. Qed.

Lemma rw_types_facts e :
  w_expr (rw_types e) <= w_expr e /\ (forall j, (f_expr j (rw_types e) <= f_expr j e)%N) /\
  root_expr 7 (rw_types e) = 0%N /\ tyfree 7 (kids_expr (rw_types e)).
Proof.
  unfold rw_types. destruct (strip_types_facts e) as (A & B & C).
  destruct (strip_types e); try contradiction;
    try (split; [exact B|split; [exact C|split; [root0|apply kt_free_tyfree, kt_free_kids_expr; [exact I|discriminate]]]]).
  cbn [w_expr f_expr root_expr kids_expr] in *. pose proof (w_clear_fbody f).
  split; [lia|split; [intros j; specialize (C j); pose proof (f_clear_fbody j f); lia|]].
  split; [apply attrs_root_7|apply kt_free_tyfree, kids_clear_fbody].
Qed.

Lemma rw_types_prefix_facts p :
  w_expr (rw_types_prefix p) <= w_expr p /\ (forall j, (f_expr j (rw_types_prefix p) <= f_expr j p)%N) /\
  (is_prefix_form p = true -> not_type_root (rw_types_prefix p) /\ forall f, rw_types_prefix p <> EFunction f).
Proof.
  induction p; try (cbn [rw_types_prefix]; split; [lia|split; [intros; lia|first [intros E; discriminate E|intros _; split; [exact I|discriminate]]]]).
  destruct IHp as (A & B & C). cbn [rw_types_prefix is_prefix_form].
  split; [wsimp; lia|split; [intros j; specialize (B j); fsimp; lia|exact C]].
Qed.

Lemma filter_weight (g : stmt -> bool) ss : sum (map w_stmt (filter g ss)) <= sum (map w_stmt ss).
Proof. induction ss as [|s ss IH]; [cbn; lia|]. cbn [filter map]. destruct (g s); cbn [map]; rewrite ?sum_cons; lia. Qed.

Lemma filter_census j (g : stmt -> bool) ss : (sumN (map (f_stmt j) (filter g ss)) <= sumN (map (f_stmt j) ss))%N.
Proof. induction ss as [|s ss IH]; [cbn; lia|]. cbn [filter map]. destruct (g s); cbn [map]; rewrite ?sumN_cons; lia. Qed.

Lemma rw_types_stmt_facts s :
  w_stmt (rw_types_stmt s) <= w_stmt s /\ forall j, (f_stmt j (rw_types_stmt s) <= f_stmt j s)%N.
Proof.
  destruct s; cbn [rw_types_stmt]; try (split; [lia|intros; lia]).
  - pose proof (w_clear_fbody f). split; [cbn [w_stmt]; lia|intros j; pose proof (f_clear_fbody j f); cbn [f_stmt]; lia].
  - pose proof (w_params_clear vars). split; [wunf; lia|intros j; funf; rewrite f_params_clear; lia].
  - pose proof (w_params_clear vars). split; [wunf; lia|intros j; funf; rewrite f_params_clear; lia].
  - pose proof (w_clear_fbody f). split; [cbn [w_stmt]; lia|intros j; pose proof (f_clear_fbody j f); cbn [f_stmt]; lia].
  - destruct var. cbn [clear_param]. split; [wsimp; lia|intros j; fsimp; lia].
Qed.

Lemma hooks_w_types : hooks_w hooks_types.
Proof.
  unfold hooks_w, hooks_types; cbn [h_expr h_prefix h_stmt h_block fst]. repeat split.
  - intros e. apply rw_types_facts.
  - intros e. apply rw_types_prefix_facts.
  - intros _ s. apply rw_types_stmt_facts.
  - intros [ss last]. cbn [rw_types_block]. wunf. pose proof (filter_weight (fun s => negb (is_type_stmt s)) ss). lia.
Qed.

Lemma removes_rw_types_stmt s : is_type_stmt s = false ->
  root_stmt 7 (rw_types_stmt s) = 0%N /\ tyfree 7 (kids_stmt (rw_types_stmt s)).
Proof.
  intros T. destruct s; try discriminate T; cbn [rw_types_stmt]; (split; [cbn [root_stmt]; try apply attrs_root_7; root0|]);
    apply kt_free_tyfree; cbn [kids_stmt]; rewrite ?kids_params_clear; try apply kids_clear_fbody; kt.
  - apply kt_free_flat_map. intros [c b]; cbn [kids_sbranch]; kt.
  - destruct els; cbn [kids_opt_block]; kt.
  - destruct var. cbn [clear_param kids_param kids_opt_ty]. kt.
  - destruct step; cbn [kids_opt_expr]; kt.
Qed.

Theorem removes_types : forall b, feature 7 (rule_types b) = 0%N.
Proof.
  intros b. apply (removes_rule 7 hooks_types (fun s => is_type_stmt s = false)); [lia|exact hooks_w_types|..].
  - intros e. apply rw_types_facts.
  - intros e E. cbn [hooks_types h_prefix]. destruct (rw_types_prefix_facts e) as (_ & _ & C).
    destruct (C E) as [N F]. split; [apply root7_plain, N|apply kt_free_tyfree, kt_free_kids_expr; assumption].
  - intros k s T. cbn [hooks_types h_stmt fst]. apply removes_rw_types_stmt, T.
  - intros [ss last]. cbn [hooks_types h_block rw_types_block]. split.
    + intros s Hs. apply filter_In in Hs as [_ Hs]. destruct (is_type_stmt s); [discriminate Hs|reflexivity].
    + intros l _. destruct l; reflexivity.
Qed.

Theorem preserves_types : forall j b, j < 9 -> feature j b = 0%N -> feature j (rule_types b) = 0%N.
Proof.
  intros j b Hj. apply (preserves_rule j hooks_types); [exact Hj|exact hooks_w_types|..].
  - intros e. apply le_zero. apply rw_types_facts.
  - intros e. apply le_zero. apply rw_types_prefix_facts.
  - intros k s. cbn [hooks_types h_stmt fst]. apply le_zero. apply rw_types_stmt_facts.
  - intros [ss last]. cbn [hooks_types h_block rw_types_block]. funf.
    pose proof (filter_census j (fun s => negb (is_type_stmt s)) ss). lia.
Qed.

Lemma types_ok : rule_ok 7 hooks_types.
Proof. split; [exact hooks_w_types|exact removes_types|exact preserves_types]. Qed.
