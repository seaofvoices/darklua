(** C17: two places where the rules as they are (and hence their models) do NOT behave like the
    reference program (the input run with [assert] bound to [function(...) return ... end],
    [debug.profilebegin] / [profileend] bound to [function() end]).  Witnesses by computation on
    the MODEL of the rule (Model/Removal.v), which the correspondence stream of vlib/c17.py ties
    to the Rust code on every run; both were replayed on darklua itself. *)
From Coq Require Import ZArith NArith List Bool String.
From DL Require Import Lib.Bytes Lib.F64 Lua.Syntax Lua.Sem Lua.RunCheck Lua.Fingerprint.
From DL Require Import Model.Removal.
Import ListNotations.
Open Scope N_scope.

Definition identity_fn : expr :=
  EFunction (FBody [] true None None None 0 (Block [] (Some (LReturn [EVarArgs])))).
Definition noop_fn : expr := EFunction (FBody [] false None None None 0 (Block [] None)).

(** the modified environment of the reference run *)
Definition with_identity_assert (b : block) : block :=
  match b with Block ss last => Block (SAssign [EIdent nm_assert] [identity_fn] :: ss) last end.
Definition with_noop_profiling (b : block) : block :=
  match b with
  | Block ss last =>
    Block (SAssign [EField (EIdent nm_debug) nm_profilebegin] [noop_fn]
           :: SAssign [EField (EIdent nm_debug) nm_profileend] [noop_fn] :: ss) last
  end.

Definition call_assert (es : list expr) : expr := ECall (EIdent nm_assert) None (ATuple es).

(** a removed call that directly becomes the node survives.  [assert(assert(false))]: the visitor
    hands a node to [process_statement] once; the statement the hook leaves, [assert(false)], is
    not processed again *)
Definition nested_assert : block := Block [SCall (call_assert [call_assert [EFalse]])] None.

Theorem assert_nested_refuted :
  rule_remove_assertions true nested_assert = Block [SCall (call_assert [EFalse])] None /\
  run_chunk L51 40 [] (with_identity_assert nested_assert) = OutOk [] [] /\
  run_chunk L51 40 [] (rule_remove_assertions true nested_assert) = OutErr [].
Proof. split; [vm_compute; reflexivity|]. split; vm_compute; reflexivity. Qed.

(** same in value position: [local x = assert(assert(false)) return x] *)
Definition nested_assert_value : block :=
  Block [SLocal false [Param (of_string "x") None] [call_assert [call_assert [EFalse]]]]
        (Some (LReturn [EIdent (of_string "x")])).

Theorem assert_nested_value_refuted :
  run_chunk L51 40 [] (with_identity_assert nested_assert_value) = OutOk [] [RBool false] /\
  run_chunk L51 40 [] (rule_remove_assertions true nested_assert_value) = OutErr [].
Proof. split; vm_compute; reflexivity. Qed.

Definition call_profileend : expr := ECall (EField (EIdent nm_debug) nm_profileend) None (ATuple []).
Definition count_values (e : expr) : block :=
  Block [] (Some (LReturn [ECall (EIdent nm_select) None (ATuple [EString [35]; e])])).

(** multi-value tail position.  [return select('#', debug.profileend())]: no value vs one [nil] *)
Theorem profile_tail_refuted :
  run_chunk L51 40 [] (with_noop_profiling (count_values call_profileend)) = OutOk [] [RNum (to_bits (of_Z 0))] /\
  run_chunk L51 40 [] (rule_remove_debug_profiling true (count_values call_profileend)) = OutOk [] [RNum (to_bits (of_Z 1))].
Proof. split; vm_compute; reflexivity. Qed.

(** [return select('#', assert())] *)
Theorem assert_tail_refuted :
  run_chunk L51 40 [] (with_identity_assert (count_values (call_assert []))) = OutOk [] [RNum (to_bits (of_Z 0))] /\
  run_chunk L51 40 [] (rule_remove_assertions true (count_values (call_assert []))) = OutOk [] [RNum (to_bits (of_Z 1))].
Proof. split; vm_compute; reflexivity. Qed.

(** the witnesses fall in the classes the check uses for attribution (Model/RemovalKnown.v) *)
From DL Require Import Model.RemovalKnown.
Example nested_witnesses_classified :
  k_nested nested_assert = true /\ k_nested nested_assert_value = true /\
  k_tail (count_values call_profileend) = true /\ k_tail (count_values (call_assert [])) = true /\
  known_class (Block [SCall (call_assert [EIdent (of_string "x")])] None) = 0.
Proof. repeat split; vm_compute; reflexivity. Qed.
