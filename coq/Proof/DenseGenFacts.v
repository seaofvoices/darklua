(** The no-fusion theorem for the model of the dense generator's push automaton. *)
From DL Require Import Lib.Bytes Model.Lexer Model.DenseGen Model.C02Spec Proof.LexerFacts.
Require Import Lia Arith PeanoNat.
Open Scope N_scope.

Definition R (x : bytes) := run cfg0 x.
Definition stA (x : bytes) : lstate := snd (snd (R x)).

Lemma R_app x y :
  R (x ++ y) = let '(o1, k1) := R x in let '(o2, k2) := run k1 y in (o1 ++ o2, k2).
Proof. unfold R. apply run_app. Qed.

Lemma R_app_eq x y z : R x = R y -> R (x ++ z) = R (y ++ z).
Proof. unfold R. apply run_app_eq. Qed.

Lemma R_ws x c :
  clean (stA x) = true -> ws c ->
  R (x ++ [c]) = (fst (R x) ++ flush (stA x), (fst (snd (R x)), LStart)).
Proof.
  intros Hc Hw. rewrite R_app. unfold stA in *.
  destruct (R x) as [o [stk st]]. cbn [fst snd] in *.
  rewrite run_one, step_clean_ws by assumption. reflexivity.
Qed.

Lemma stA_ws x c : clean (stA x) = true -> ws c -> stA (x ++ [c]) = LStart.
Proof. intros Hc Hw. unfold stA at 1. rewrite R_ws by assumption. reflexivity. Qed.

Lemma ws32 : ws 32. Proof. left; reflexivity. Qed.
Lemma ws10 : ws 10. Proof. right; reflexivity. Qed.

Lemma R_space_newline x z :
  clean (stA x) = true -> R (x ++ [32] ++ z) = R (x ++ [10] ++ z).
Proof.
  intros Hc. rewrite !app_assoc. apply R_app_eq.
  rewrite (R_ws x 32 Hc ws32), (R_ws x 10 Hc ws10). reflexivity.
Qed.

Lemma R_newline_twice x z :
  clean (stA x) = true -> R (x ++ [10] ++ [10] ++ z) = R (x ++ [10] ++ z).
Proof.
  intros Hc.
  replace (x ++ [10] ++ [10] ++ z) with (((x ++ [10]) ++ [10]) ++ z) by (rewrite <- !app_assoc; reflexivity).
  replace (x ++ [10] ++ z) with ((x ++ [10]) ++ z) by (rewrite <- !app_assoc; reflexivity).
  apply R_app_eq.
  assert (Hc' : clean (stA (x ++ [10])) = true) by (rewrite stA_ws; auto using ws10).
  rewrite (R_ws (x ++ [10]) 10 Hc' ws10).
  rewrite (stA_ws x 10 Hc ws10). cbn [flush]. rewrite app_nil_r.
  rewrite (R_ws x 10 Hc ws10). reflexivity.
Qed.

Lemma junction_extends st c : junction_ok st c = negb (extends st c).
Proof. destruct st; reflexivity. Qed.

Lemma R_junction x c s :
  clean (stA x) = true -> junction_ok (stA x) c = true ->
  R (x ++ c :: s) = R (x ++ 10 :: c :: s).
Proof.
  intros Hc Hj. rewrite junction_extends in Hj. apply Bool.negb_true_iff in Hj.
  replace (x ++ c :: s) with ((x ++ [c]) ++ s) by (rewrite <- app_assoc; reflexivity).
  replace (x ++ 10 :: c :: s) with ((x ++ [10; c]) ++ s) by (rewrite <- app_assoc; reflexivity).
  apply R_app_eq.
  rewrite !R_app. unfold stA in *. destruct (R x) as [o [stk st]]. cbn [fst snd] in *.
  change [10; c] with ([10] ++ [c]). rewrite run_app, !run_one.
  rewrite (step_clean_ws stk st 10 Hc ws10), run_one, (step_no_extend stk st c Hc Hj).
  destruct (step (stk, LStart) c) as [o1 k1]. reflexivity.
Qed.

Lemma strip_app_space x : strip_trailing_spaces (x ++ [32]) = strip_trailing_spaces x.
Proof. unfold strip_trailing_spaces. rewrite rev_app_distr. reflexivity. Qed.

Lemma strip_app_other x c : (c =? 32) = false -> strip_trailing_spaces (x ++ [c]) = x ++ [c].
Proof.
  intros H. unfold strip_trailing_spaces. rewrite rev_app_distr. cbn [rev app strip_spaces_r].
  rewrite H. cbn [rev]. rewrite rev_involutive. reflexivity.
Qed.

Lemma clean_before_space x : clean (stA (x ++ [32])) = true -> clean (stA x) = true.
Proof.
  intros H. destruct (clean (stA x)) eqn:E; [reflexivity|].
  unfold stA in *. rewrite R_app in H. destruct (R x) as [o [stk st]]. cbn [snd] in *.
  rewrite run_one in H.
  pose proof (unclean_space stk st E) as U.
  destruct (step (stk, st) 32) as [o2 [stk2 st2]]. cbn [snd] in *. congruence.
Qed.

Lemma R_strip x :
  clean (stA x) = true ->
  clean (stA (strip_trailing_spaces x)) = true
  /\ R (strip_trailing_spaces x ++ [10]) = R (x ++ [10]).
Proof.
  induction x as [|c y IH] using rev_ind; intros Hc.
  - split; [exact Hc|reflexivity].
  - destruct (c =? 32) eqn:E.
    + apply N.eqb_eq in E. subst c.
      rewrite strip_app_space.
      pose proof (clean_before_space y Hc) as Hy.
      destruct (IH Hy) as [IH1 IH2]. split; [exact IH1|].
      rewrite IH2. rewrite <- app_assoc.
      rewrite (R_space_newline y [10] Hy).
      pose proof (R_newline_twice y [] Hy) as D. rewrite !app_nil_r in D. symmetry. exact D.
    + rewrite strip_app_other by exact E. split; [exact Hc|reflexivity].
Qed.

Lemma R_strip_z x z :
  clean (stA x) = true -> R (strip_trailing_spaces x ++ [10] ++ z) = R (x ++ [10] ++ z).
Proof.
  intros Hc. rewrite !app_assoc. apply R_app_eq. apply R_strip. exact Hc.
Qed.

Definition is_sep (sep : bytes) : Prop := sep = [] \/ sep = [32] \/ sep = [10].

Lemma last_push_split g x s :
  out g = x ++ s -> lastlen g = List.length s -> last_push g = s /\ before_last_push g = x.
Proof.
  intros Ho Hl. unfold last_push, before_last_push. rewrite Ho, Hl, app_length.
  replace (List.length x + List.length s - List.length s)%nat with (List.length x) by lia.
  split.
  - rewrite skipn_app, skipn_all, Nat.sub_diag. reflexivity.
  - rewrite firstn_app, firstn_all, Nat.sub_diag. cbn [firstn]. apply app_nil_r.
Qed.

(** [pushed g g' s glued]: [g'] is [g] after a separator (nothing, a space or a new line) and
    the push [s]; where the separator is nothing, [glued] holds: the automaton's reason for
    writing none *)
Definition pushed (g g' : gen) (s : bytes) (glued : Prop) : Prop :=
  exists sep, is_sep sep /\ out g' = out g ++ sep ++ s /\ lastlen g' = List.length s /\ (sep = [] -> glued).

Lemma push_str_shape T span g c s' :
  pushed g (push_str T span g (c :: s')) (c :: s') (needs_space T g c = false).
Proof.
  unfold pushed, push_str, push_space_if_needed, is_sep.
  destruct (span <=? col g).
  - exists [10]. cbn. rewrite <- app_assoc. intuition discriminate.
  - destruct (needs_space T g c) eqn:En.
    + destruct (span <? _).
      * exists [10]. cbn. rewrite <- app_assoc. intuition discriminate.
      * exists [32]. cbn. rewrite <- app_assoc. intuition discriminate.
    + destruct (span <? _).
      * exists [10]. cbn. rewrite <- app_assoc. intuition discriminate.
      * exists []. cbn. intuition.
Qed.

Lemma push_break_shape T span g p s :
  pushed g (push_break T span g p s) s (pred_holds T p (last_push g) = false).
Proof.
  unfold pushed, push_break, is_sep.
  destruct (pred_holds T p (last_push g)) eqn:Ep.
  - destruct (fits span g (1 + blen s)).
    + exists [32]. cbn. rewrite <- app_assoc. intuition discriminate.
    + exists [10]. cbn. rewrite <- app_assoc. intuition discriminate.
  - destruct (negb (fits span g (blen s))).
    + exists [10]. cbn. rewrite <- app_assoc. intuition discriminate.
    + exists []. cbn. intuition.
Qed.

Lemma nlraw_shape span g n s : pushed g (raw_push (push_new_line_if_needed span g n) s) s True.
Proof.
  unfold pushed, push_new_line_if_needed, is_sep.
  destruct (span <=? col g).
  - exists [10]. cbn. rewrite <- app_assoc. intuition.
  - destruct (span <? col g + n).
    + exists [10]. cbn. rewrite <- app_assoc. intuition.
    + exists []. cbn. intuition.
Qed.

Lemma raw_shape g s : pushed g (raw_push g s) s True.
Proof. exists []. unfold is_sep. cbn. intuition. Qed.

(** the junction of a separable push: whatever separator was chosen, the tokens are those of
    the rendering with a new line, and [merge_char] may follow *)
Lemma sep_junction X sep c s' :
  clean (stA X) = true -> is_sep sep ->
  (sep = [] -> junction_ok (stA X) c = true) ->
  R (X ++ sep ++ c :: s') = R (X ++ [10] ++ c :: s')
  /\ clean (stA (strip_trailing_spaces (X ++ sep))) = true
  /\ R (strip_trailing_spaces (X ++ sep) ++ [10] ++ c :: s') = R (X ++ [10] ++ c :: s').
Proof.
  intros Hc Hs Hj. destruct Hs as [->|[->| ->]].
  - rewrite app_nil_r. cbn [app]. specialize (Hj eq_refl).
    split; [apply R_junction; assumption|].
    split; [apply R_strip; assumption|].
    apply R_strip_z; assumption.
  - split; [apply R_space_newline; assumption|].
    rewrite strip_app_space.
    split; [apply R_strip; assumption|].
    apply R_strip_z; assumption.
  - split; [reflexivity|].
    rewrite strip_app_other by reflexivity.
    split; [rewrite stA_ws; auto using ws10|].
    rewrite <- app_assoc. apply R_newline_twice. assumption.
Qed.

(** the invariant of the push loop: the output lexes like the canonical rendering [Y] of the pushes
    so far; [prev], if not empty, is the generator's last push; if [mg], moving the last push to a
    new line after stripping the spaces before it (what [merge_char] does when "(" does not fit)
    changes no token *)
Record Inv (g : gen) (Y prev : bytes) (mg : bool) : Prop := {
  inv_run : R (out g) = R Y;
  inv_prev : prev <> [] -> exists body, out g = body ++ prev /\ lastlen g = List.length prev;
  inv_len : (lastlen g <= List.length (out g))%nat;
  inv_mg : mg = true ->
           clean (stA (strip_trailing_spaces (before_last_push g))) = true
           /\ R (strip_trailing_spaces (before_last_push g) ++ [10] ++ last_push g) = R (out g)
}.

Lemma last_opt_app body prev : prev <> [] -> last_opt (body ++ prev) = last_opt prev.
Proof.
  intros Hp. induction body as [|b body IH]; [reflexivity|].
  cbn [app]. change (last_opt (b :: body ++ prev)) with
    (match body ++ prev with [] => Some b | _ :: _ => last_opt (body ++ prev) end).
  destruct (body ++ prev) eqn:E.
  - destruct body; [cbn in E; congruence|discriminate E].
  - exact IH.
Qed.

Lemma Inv_pushed g g' Y' c s' glued :
  clean (stA (out g)) = true -> pushed g g' (c :: s') glued ->
  (glued -> junction_ok (stA (out g)) c = true) ->
  R Y' = R (out g ++ [10] ++ c :: s') ->
  Inv g' Y' (c :: s') true.
Proof.
  intros Hc [sep [Hs [Ho [Hl Hg]]]] Hj HY.
  destruct (sep_junction (out g) sep c s' Hc Hs (fun E => Hj (Hg E))) as [A [B C]].
  assert (Ho' : out g' = (out g ++ sep) ++ c :: s') by (rewrite Ho, app_assoc; reflexivity).
  destruct (last_push_split g' (out g ++ sep) (c :: s') Ho' Hl) as [Lp Bp].
  constructor.
  - rewrite Ho, A. symmetry. exact HY.
  - intros _. exists (out g ++ sep). split; assumption.
  - rewrite Hl, Ho, !app_length. lia.
  - intros _. rewrite Lp, Bp. split; [exact B|]. rewrite C, Ho. symmetry. exact A.
Qed.

Lemma Inv_glued g g' Y z prev' :
  R (out g) = R Y -> out g' = out g ++ z -> (lastlen g' <= List.length (out g'))%nat ->
  (prev' <> [] -> prev' = z /\ lastlen g' = List.length z) ->
  Inv g' (Y ++ z) prev' false.
Proof.
  intros Irun Ho Hl Hp. constructor.
  - rewrite Ho. apply R_app_eq, Irun.
  - intros Hne. destruct (Hp Hne) as [-> E]. exists (out g). split; assumption.
  - exact Hl.
  - discriminate.
Qed.

(** less may be remembered: no previous push, no licence for [merge_char] *)
Lemma Inv_forget g Y prev mg : Inv g Y prev true -> Inv g Y [] mg.
Proof.
  intros [Irun _ Ilen Img]. constructor; [exact Irun| |exact Ilen|intros _; exact (Img eq_refl)].
  intros F. congruence.
Qed.

Lemma clean_junction_lparen st : clean st = true -> junction_ok st 40 = true.
Proof.
  destruct st as [|racc|ph racc|p|n|q esc racc|n cl racc|esc racc|racc|n racc|racc|n cl racc|];
    intros H; try discriminate H; try reflexivity.
  - destruct ph; reflexivity.
  - destruct p; try discriminate H; reflexivity.
Qed.

Lemma length_last_push g : (lastlen g <= List.length (out g))%nat -> List.length (last_push g) = lastlen g.
Proof. intros H. unfold last_push. rewrite skipn_length. lia. Qed.

Lemma before_last_app g : before_last_push g ++ last_push g = out g.
Proof. unfold before_last_push, last_push. apply firstn_skipn. Qed.

Lemma push_inv T span g Y prev mg it :
  Inv g Y prev mg ->
  item_ok T (snd (R Y)) prev mg it = true ->
  Inv (push T span g it) (Y ++ canon_item it) (next_prev it) (next_mg (snd (R Y)) it).
Proof.
  intros [Irun Iprev Ilen Img] Hok.
  unfold item_ok in Hok. fold (stA Y) in Hok.
  assert (Est : stA Y = stA (out g)) by (unfold stA; rewrite Irun; reflexivity).
  (* the two canonical renderings of a push [s]: with and without a new line in front *)
  assert (Ynl : forall s, R (Y ++ 10 :: s) = R (out g ++ [10] ++ s)).
  { intros s. symmetry. apply R_app_eq. exact Irun. }
  assert (Yraw : forall c s', clean (stA (out g)) = true -> junction_ok (stA (out g)) c = true ->
                 R (Y ++ c :: s') = R (out g ++ [10] ++ c :: s')).
  { intros c s' Hc Hj. cbn [app]. rewrite <- (R_junction (out g) c s' Hc Hj). symmetry. apply R_app_eq. exact Irun. }
  unfold push, canon_item, next_prev, next_mg. fold (stA Y). rewrite Est in *.
  destruct it as [m s]. cbn [imode itext] in *.
  destruct m as [|p|  |n| | ].
  - (* MStr: glued only if the junction is safe or the table separates the last byte written *)
    destruct s as [|c s']; [discriminate Hok|].
    apply andb_true_iff in Hok as [Hc Hj0].
    apply (Inv_pushed g _ _ c s' _ Hc (push_str_shape T span g c s')); [|apply Ynl].
    intros Hn. apply orb_true_iff in Hj0 as [J|J]; [exact J|].
    destruct (last_opt prev) as [l|] eqn:El; [|discriminate J].
    assert (Hp : prev <> []) by (intros ->; discriminate El).
    destruct (Iprev Hp) as [body [Hb _]].
    unfold needs_space in Hn. rewrite Hb, (last_opt_app body prev Hp), El in Hn. congruence.
  - (* MBreak: ... or the predicate holds of the previous push *)
    destruct s as [|c s']; [discriminate Hok|].
    apply andb_true_iff in Hok as [Hc Hj0].
    apply (Inv_pushed g _ _ c s' _ Hc (push_break_shape T span g p (c :: s'))); [|apply Ynl].
    intros Hn. apply orb_true_iff in Hj0 as [J|J]; [exact J|].
    assert (Hp : prev <> []) by (intros ->; discriminate J).
    destruct (Iprev Hp) as [body [Hb Hl']].
    destruct (last_push_split g body prev Hb Hl') as [Lp _]. congruence.
  - (* MRaw: always glued; [merge_char] may follow only a non-empty push after a clean state *)
    destruct s as [|c s'].
    + rewrite andb_false_r. apply (Inv_glued g); [exact Irun|reflexivity|cbn; lia|intros F; congruence].
    + destruct (clean (stA (out g))) eqn:Hc; cbn [negb orb andb] in *.
      * apply (Inv_pushed g _ _ c s' _ Hc (raw_shape g (c :: s')) (fun _ => Hok)).
        apply Yraw; [reflexivity|exact Hok].
      * apply (Inv_glued g); [exact Irun|reflexivity| |intros _; split; reflexivity].
        cbn [raw_push out lastlen]. rewrite app_length. lia.
  - (* MNlRaw *)
    destruct s as [|c s']; [discriminate Hok|].
    apply andb_true_iff in Hok as [Hc Hj].
    apply (Inv_pushed g _ _ c s' _ Hc (nlraw_shape span g n (c :: s')) (fun _ => Hj)).
    apply Yraw; assumption.
  - (* MMerge: "(" glued to the previous push *)
    apply andb_true_iff in Hok as [Hok Hm]. apply andb_true_iff in Hok as [Ht Hc].
    apply bytes_eqb_eq in Ht. subst s. subst mg.
    destruct (Img eq_refl) as [Mc Mr]. pose proof (clean_junction_lparen _ Hc) as Hj.
    unfold merge_char. destruct (fits span g 1).
    + apply (Inv_forget _ _ [40]).
      apply (Inv_pushed g _ _ 40 [] _ Hc (raw_shape g [40]) (fun _ => Hj)). apply Yraw; assumption.
    + (* the "(" does not fit: the output is the text before the previous push, a new line, and
         one push made of the previous push and the "(" *)
      pose proof (length_last_push g Ilen) as Llp.
      set (B := strip_trailing_spaces (before_last_push g)) in *.
      set (lp := last_push g) in *.
      assert (Hlp : exists c s', lp ++ [40] = c :: s') by (destruct lp; eexists; eexists; reflexivity).
      destruct Hlp as [c [s' Elp]]. apply (Inv_forget _ _ (c :: s')).
      apply (Inv_pushed {| out := B; col := 0; lastlen := 0 |} _ _ c s' False Mc); [|intros []|].
      * exists [10]. cbn [out lastlen]. rewrite <- Elp, app_length, Llp. cbn [List.length].
        split; [right; right; reflexivity|]. split; [reflexivity|]. split; [lia|discriminate].
      * cbn [out]. rewrite <- Elp, !app_assoc. apply R_app_eq. rewrite <- app_assoc, Mr. symmetry. exact Irun.
  - (* MSpace *)
    apply (Inv_glued g); [exact Irun|reflexivity| |intros F; congruence].
    cbn [space out lastlen]. rewrite app_length. lia.
Qed.

Lemma run_snd_app Y z : snd (run (snd (R Y)) z) = snd (R (Y ++ z)).
Proof.
  rewrite R_app. destruct (R Y) as [o k]. cbn [snd]. destruct (run k z) as [o2 k2]. reflexivity.
Qed.

Lemma stream_inv T span items : forall g Y prev mg,
  Inv g Y prev mg ->
  stream_ok_from T (snd (R Y)) prev mg items = true ->
  R (out (fold_left (push T span) items g)) = R (Y ++ canon items).
Proof.
  induction items as [|it rest IH]; intros g Y prev mg HI Hok.
  - cbn [fold_left canon flat_map]. rewrite app_nil_r. exact (inv_run _ _ _ _ HI).
  - cbn [stream_ok_from] in Hok. apply andb_true_iff in Hok as [H1 H2].
    cbn [fold_left]. unfold canon. cbn [flat_map]. fold (canon rest).
    rewrite app_assoc.
    apply (IH _ _ (next_prev it) (next_mg (snd (R Y)) it)).
    + exact (push_inv T span g Y prev mg it HI H1).
    + rewrite <- run_snd_app. exact H2.
Qed.

Lemma Inv_init : Inv gen0 [] [] false.
Proof.
  constructor.
  - reflexivity.
  - intros H; congruence.
  - cbn. lia.
  - intros H; discriminate H.
Qed.

(** THE AUTOMATON NEVER FUSES TOKENS: whenever every junction of the push list is safe under
    the table ([stream_ok], decidable), the text written at ANY column span lexes exactly as
    the canonical rendering of the pushes (a new line at every place a separator is allowed). *)
Theorem no_fusion_stream : forall T span items,
  stream_ok T items = true ->
  lex_all (emit T span items) = lex_all (canon items)
  /\ lex (emit T span items) = lex (canon items).
Proof.
  intros T span items H.
  assert (E : R (emit T span items) = R (canon items)).
  { unfold emit, emit_gen. apply (stream_inv T span items gen0 [] [] false Inv_init). exact H. }
  assert (L : lex_all (emit T span items) = lex_all (canon items)).
  { unfold lex_all. unfold R in E. rewrite E. reflexivity. }
  split; [exact L|]. unfold lex. rewrite L. reflexivity.
Qed.

Lemma In_range128 c : (c <? 128) = true -> In c range128.
Proof.
  intros H. apply N.ltb_lt in H. unfold range128.
  apply in_map_iff. exists (N.to_nat c). split; [apply N2Nat.id|].
  apply in_seq. lia.
Qed.

Lemma In_reps st : clean st = true -> is_start st = false -> In (rep st) reps.
Proof.
  intros Hc Hs.
  destruct st as [|racc|ph racc|p|n|q esc racc|n cl racc|esc racc|racc|n racc|racc|n cl racc|];
    try discriminate Hc; try discriminate Hs.
  - cbn. auto.
  - destruct ph; cbn; auto.
  - destruct p; try discriminate Hc; cbn; auto 20.
Qed.

Lemma rep_facts st :
  (forall c, junction_ok (rep st) c = junction_ok st c)
  /\ (forall l, consistent (rep st) l = consistent st l)
  /\ (forall c, excluded_str (rep st) c = excluded_str st c)
  /\ (forall f, first_consistent (rep st) f = first_consistent st f).
Proof.
  destruct st as [|racc|ph racc|p|n|q esc racc|n cl racc|esc racc|racc|n racc|racc|n cl racc|];
    repeat split; intros; try reflexivity; try (destruct ph; reflexivity).
  - cbn [rep junction_ok extends step_st]. destruct (is_ident_char c); reflexivity.
  - cbn [rep junction_ok extends step_st]. destruct (num_next ph c); reflexivity.
Qed.

(** what the finite condition says of one junction inside the adjacency universe *)
Lemma spacing_ok_str_at T st l c : spacing_ok_str T = true ->
  clean st = true -> is_start st = false -> (l <? 128) = true -> (c <? 128) = true ->
  consistent st l = true -> excluded_str st c = false ->
  junction_ok st c || sp T l c = true.
Proof.
  (* unfolded in the goal, not in a hypothesis: checking the latter makes the kernel evaluate the
     table sweep as far as it can *)
  unfold spacing_ok_str. intros H Hc Hs Hl Hc128 Hcons Hx.
  rewrite forallb_forall in H. specialize (H _ (In_reps st Hc Hs)).
  rewrite forallb_forall in H. specialize (H _ (In_range128 l Hl)).
  rewrite forallb_forall in H. specialize (H _ (In_range128 c Hc128)). cbn beta in H.
  destruct (rep_facts st) as [Rj [Rc [Re _]]]. rewrite Rj, Rc, Re, Hcons, Hx in H. exact H.
Qed.

Lemma spacing_ok_brk_at T p st l f : spacing_ok_brk T = true ->
  clean st = true -> is_start st = false -> (l <? 128) = true -> (f <? 128) = true ->
  consistent st l = true -> first_consistent st f = true -> excluded_brk st p = false ->
  junction_ok st (pred_char p) || br T p f l = true.
Proof.
  unfold spacing_ok_brk. intros H Hc Hs Hl Hf Hcons Hfc Hx.
  assert (Hp : In p all_preds) by (destruct p; cbn; auto 10).
  rewrite forallb_forall in H. specialize (H _ Hp).
  rewrite forallb_forall in H. specialize (H _ (In_reps st Hc Hs)).
  rewrite forallb_forall in H. specialize (H _ (In_range128 l Hl)). cbn beta in H.
  destruct (rep_facts st) as [Rj [Rc [Re Rf]]].
  unfold excluded_brk in *. rewrite Rj, Rc, Re, Hcons, Hx in H.
  destruct (junction_ok st (pred_char p)); [reflexivity|]. cbn [andb negb] in H.
  rewrite forallb_forall in H. specialize (H _ (In_range128 f Hf)). cbn beta in H.
  rewrite Rf, Hfc in H. exact H.
Qed.

Lemma adj_to_item T k prev mg it :
  spacing_ok T = true -> adj_ok k prev mg it = true -> item_ok T k prev mg it = true.
Proof.
  unfold spacing_ok. intros Hsp Ha. apply andb_true_iff in Hsp as [Hstr Hbrk].
  unfold adj_ok in Ha. unfold item_ok in *. destruct k as [stk st]. cbn [snd] in *.
  destruct (imode it) as [|p|  |n| | ]; try exact Ha.
  - (* MStr *)
    destruct (itext it) as [|c s']; [exact Ha|].
    apply andb_true_iff in Ha as [Hc Ha]. rewrite Hc. cbn [andb].
    destruct (is_start st) eqn:Es; [destruct st; try discriminate Es; reflexivity|]. cbn [orb] in Ha.
    destruct (last_opt prev) as [l|]; [|discriminate Ha].
    rewrite !andb_true_iff, Bool.negb_true_iff in Ha. destruct Ha as [[[Hcons Hl128] Hc128] Hx].
    apply spacing_ok_str_at; assumption.
  - (* MBreak *)
    destruct (itext it) as [|c s']; [exact Ha|].
    apply andb_true_iff in Ha as [Ha Hrest]. apply andb_true_iff in Ha as [Hpc Hc].
    apply N.eqb_eq in Hpc. subst c. rewrite Hc. cbn [andb].
    destruct (is_start st) eqn:Es; [destruct st; try discriminate Es; reflexivity|]. cbn [orb] in Hrest.
    destruct prev as [|f prev']; [discriminate Hrest|].
    unfold pred_holds. destruct (last_opt (f :: prev')) as [l|]; [|discriminate Hrest].
    rewrite !andb_true_iff, Bool.negb_true_iff in Hrest. destruct Hrest as [[[[Hcons Hfc] Hl128] Hf128] Hx].
    apply spacing_ok_brk_at; assumption.
Qed.

Lemma adjacency_to_stream T : spacing_ok T = true ->
  forall items k prev mg,
  adjacency_ok_from k prev mg items = true -> stream_ok_from T k prev mg items = true.
Proof.
  intros Hsp. induction items as [|it rest IH]; intros k prev mg H; [reflexivity|].
  cbn [adjacency_ok_from stream_ok_from] in *. apply andb_true_iff in H as [H1 H2].
  rewrite (adj_to_item T k prev mg it Hsp H1). cbn [andb]. apply IH. exact H2.
Qed.

(** NO FUSION.  For every table satisfying the decidable condition [spacing_ok], for every
    push list inside the adjacency universe and every column span, the text written by the
    automaton lexes exactly as the canonical rendering of the pushes. *)
Theorem no_fusion : forall T, spacing_ok T = true ->
  forall span items, adjacency_ok items = true ->
  lex (emit T span items) = lex (canon items).
Proof.
  intros T Hsp span items Ha.
  apply (no_fusion_stream T span items).
  unfold stream_ok. apply adjacency_to_stream; assumption.
Qed.
