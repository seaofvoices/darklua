(** Bundler model (Model/Bundle.v): every pushed error is justified by the graph, the chain of a
    "cyclic require" error walks along edges, and only reachable files get defined. *)
From Coq Require Import NArith Arith PeanoNat List Bool Lia.
From DL Require Import Lib.Bytes Model.Rename Model.Bundle Proof.BundleSpec Proof.BundleBasics
  Proof.BundleRel.
Import ListNotations.
Open Scope N_scope.

Section Sound.
Variable g : graph.
Variable roots : list req.

Definition justified (e : error) : Prop :=
  match e with
  | ENotFound lit => In (RNotFound lit) roots \/
      exists f reqs r, reach g roots f /\ lookup g f = Some (KLua reqs r) /\ In (RNotFound lit) reqs
  | ECyclic chain => names_cycle g chain /\ exists f, hd_error chain = Some f /\ reach g roots f
  | EResource f => reach g roots f /\ (lookup g f = None \/ lookup g f = Some KBroken)
  | EModule f => reach g roots f /\ exists reqs r, lookup g f = Some (KLua reqs r) /\ r <> Some 1%nat
  end.

Lemma walk_tail a l : walk g (a :: l) -> walk g l.
Proof. destruct l as [|b l]; cbn; tauto. Qed.

Lemma walk_snoc l a b : walk g (l ++ [a]) -> edge g a b -> walk g ((l ++ [a]) ++ [b]).
Proof.
  induction l as [|x l IH]; intros W E.
  - cbn. auto.
  - cbn [app] in *. destruct (l ++ [a]) as [|y t] eqn:Eq; [destruct l; discriminate|].
    cbn [app]. cbn [walk] in W |- *. destruct W as [E1 W]. split; [exact E1|].
    apply (IH W E).
Qed.

Lemma walk_skipn i : forall l, walk g l -> walk g (skipn i l).
Proof.
  induction i as [|i IH]; intros l W; [exact W|].
  destruct l as [|x l]; [exact W|]. cbn [skipn]. apply IH. eapply walk_tail; exact W.
Qed.

Lemma walk_path mid : forall a b, walk g (a :: mid ++ [b]) -> path g a b.
Proof.
  induction mid as [|m mid IH]; intros a b W.
  - cbn in W. apply path_edge. tauto.
  - cbn [app walk] in W. destruct W as [E W]. eapply path_step; [exact E|]. now apply IH.
Qed.

Lemma names_cycle_path chain f :
  names_cycle g chain -> hd_error chain = Some f -> path g f f.
Proof.
  intros [f' [mid [-> W]]] [= ->]. now apply walk_path in W.
Qed.

Lemma cyclic_chain stack f i :
  index_of f stack = Some i -> walk g (stack ++ [f]) ->
  names_cycle g (skipn i stack ++ [f]) /\ hd_error (skipn i stack ++ [f]) = Some f.
Proof.
  intros Hi W. destruct (index_of_some _ _ _ Hi) as [L [tl E]].
  assert (E2 : skipn i (stack ++ [f]) = skipn i stack ++ [f]).
  { rewrite skipn_app. replace (i - List.length stack)%nat with O by lia. reflexivity. }
  split.
  - exists f, tl. split; [now rewrite E|]. rewrite <- E2. now apply walk_skipn.
  - now rewrite E.
Qed.

Definition J (s : state) : Prop :=
  (forall e, In e (errors s) -> justified e) /\
  (forall f, In f (map fst (defs s)) -> reach g roots f).

Lemma J_push e s : justified e -> J s -> J (push_error e s).
Proof.
  intros Je [A B]. split; [|exact B]. cbn. intros e' H.
  apply in_app_or in H as [H|[<-|[]]]; auto.
Qed.

Lemma J_define f sites s : reach g roots f -> J s -> J (fst (define f sites s)).
Proof.
  intros R [A B]. split; [exact A|]. cbn [define fst defs]. intros f' H.
  rewrite map_app in H. apply in_app_or in H as [H|[<-|[]]]; auto.
Qed.

(** what must be known of a call site before it is processed under the require stack [stack] *)
Definition site_pre (stack : list file) (r : req) : Prop :=
  match r with
  | RFile b => walk g (stack ++ [b]) /\ reach g roots b
  | RNotFound lit => justified (ENotFound lit)
  end.

Lemma sites_of_file stack f reqs ret :
  walk g (stack ++ [f]) -> reach g roots f -> lookup g f = Some (KLua reqs ret) ->
  Forall (site_pre (stack ++ [f])) reqs.
Proof.
  intros W R Hl. apply Forall_forall. intros [b|lit] Hin; cbn [site_pre].
  - assert (E : edge g f b) by (exists reqs, ret; auto).
    split; [now apply walk_snoc|eapply reach_step; eauto].
  - right. exists f, reqs, ret. auto.
Qed.

Lemma Inl_Vis_sound :
  (forall stack f s s' r, Inl g stack f s s' r ->
     walk g (stack ++ [f]) -> reach g roots f -> J s ->
     J s' /\ (forall e, r = inr e -> justified e)) /\
  (forall stack rs s s' xs, Vis g stack rs s s' xs ->
     Forall (site_pre stack) rs -> J s -> J s').
Proof.
  apply Inl_Vis_ind.
  - (* cached *) intros stack f s k Hc W R Js. split; [exact Js|discriminate].
  - (* cyclic *) intros stack f s i Hc Hi W R Js. split; [exact Js|].
    intros e [= <-]. destruct (cyclic_chain _ _ _ Hi W) as [A B].
    split; [exact A|]. exists f. auto.
  - (* resource *) intros stack f s Hc Hi Hl W R Js. split; [exact Js|].
    intros e [= <-]. split; assumption.
  - (* data *) intros stack f s Hc Hi Hl W R Js. split; [now apply J_define|discriminate].
  - (* lua *) intros stack f s reqs s1 sites Hc Hi Hl HV IH W R Js.
    split; [|discriminate]. apply J_define; [exact R|].
    apply IH; [eapply sites_of_file; eassumption|exact Js].
  - (* module *) intros stack f s reqs ret s1 sites Hc Hi Hl Hr HV IH W R Js.
    split; [apply IH; [eapply sites_of_file; eassumption|exact Js]|].
    intros e [= <-]. split; [exact R|]. exists reqs, ret. auto.
  - (* nil *) intros stack s _ Js. exact Js.
  - (* notfound *) intros stack lit rest s s' xs HV IH P Js. inversion_clear P as [|? ? Hr Prest].
    apply IH; [exact Prest|]. now apply J_push.
  - (* skip *) intros stack f rest s s' xs Hm HV IH P Js. inversion_clear P as [|? ? Hr Prest].
    now apply IH.
  - (* inl *) intros stack f rest s s1 k s' xs Hm HI IH1 HV IH2 P Js.
    inversion_clear P as [|? ? Hr Prest]. destruct Hr as [W R].
    apply IH2; [exact Prest|]. now apply IH1.
  - (* inr *) intros stack f rest s s1 e s' xs Hm HI IH1 HV IH2 P Js.
    inversion_clear P as [|? ? Hr Prest]. destruct Hr as [W R]. destruct (IH1 W R Js) as [J1 Je].
    apply IH2; [exact Prest|]. apply (J_push e s1); [now apply Je|exact J1].
Qed.

Lemma J_init : J init.
Proof. split; cbn; intros ? []. Qed.

Lemma run_entry_J fuel s sites : run_entry g fuel roots = Some (s, sites) -> J s.
Proof.
  intros H. apply run_entry_sound in H. apply (proj2 Inl_Vis_sound) in H; [exact H| |apply J_init].
  apply Forall_forall. intros [b|lit] Hin; cbn [site_pre].
  - split; [exact I|now apply reach_root].
  - now left.
Qed.

End Sound.
