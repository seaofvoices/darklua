(** Fuel monotonicity of the reference interpreter ([Lua/Sem.v]).

    [refines m1 m2]: whenever [m1] does not run out of fuel (it returns [Ok], [Err] or
    [Unsup]) [m2] returns exactly the same result.  Main theorem [fuel_monotone]: for each of
    the 24 functions [F] of the mutual fixpoint, [refines (F d n args) (F d (S n) args)];
    corollaries [F_mono] (the [Ok] form, for [n <= m]) and some [F_refines_le].  [Err] results
    have to be covered because [pcall] turns an [Err] of the callee into an [Ok].

    Method: induction on the fuel.  In the step both sides are rewritten with the unfolding
    equation of the function ([Proof/SemUnfold.v]); the two bodies have the same shape and
    differ only in the fuel handed to the recursive calls, and a small tactic walks them.

    Also here: the loop [repeat_loop] of [exec_repeat] and the equation of that function
    ([exec_repeat_unf], [exec_repeat_S]), the one unfolding equation that is not in
    [Proof/SemUnfold.v]. *)
From Coq Require Import ZArith NArith List Bool String Lia.
From Coq Require Import Floats.SpecFloat.
From DL Require Import Lib.Bytes Lib.F64 Lua.Syntax Lua.Sem.
From DL Require Export Proof.SemUnfold.
Import ListNotations.
Open Scope N_scope.

Definition refines {A} (m1 m2 : M A) : Prop := forall s, m1 s <> Fuel -> m2 s = m1 s.

Lemma refines_refl {A} (m : M A) : refines m m.
Proof. intros s _. reflexivity. Qed.

Lemma refines_trans {A} (m1 m2 m3 : M A) : refines m1 m2 -> refines m2 m3 -> refines m1 m3.
Proof.
  intros H12 H23 s Hs. rewrite (H23 s).
  - exact (H12 s Hs).
  - rewrite (H12 s Hs). exact Hs.
Qed.

Lemma refines_fuel {A} (m : M A) : refines (fun _ => Fuel) m.
Proof. intros s Hs. exfalso. apply Hs. reflexivity. Qed.

(** the same for a computation that is [Fuel] pointwise: used with the zero-fuel equations
    ([eval_0] ...), since matching [eval d 0 ...] against [fun _ => Fuel] by conversion unfolds
    the interpreter *)
Lemma refines_out {A} (m1 m2 : M A) : (forall s, m1 s = Fuel) -> refines m1 m2.
Proof. intros H s Hs. exfalso. apply Hs, H. Qed.

Lemma refines_eq {A} (m1 m2 : M A) : (forall s, m1 s = m2 s) -> refines m1 m2.
Proof. intros H s _. symmetry. apply H. Qed.

Lemma refines_bind {A B} (m1 m2 : M A) (f1 f2 : A -> M B) :
  refines m1 m2 -> (forall a, refines (f1 a) (f2 a)) -> refines (bind m1 f1) (bind m2 f2).
Proof.
  intros Hm Hf s Hs. unfold bind in *. specialize (Hm s). destruct (m1 s) as [a s1|e s1| |w].
  - rewrite Hm by discriminate. now apply Hf.
  - now rewrite Hm.
  - contradiction.
  - now rewrite Hm.
Qed.

Lemma refines_bind_l {A B} (m : M A) (f1 f2 : A -> M B) :
  (forall a, refines (f1 a) (f2 a)) -> refines (bind m f1) (bind m f2).
Proof. intros H. apply refines_bind; [apply refines_refl|exact H]. Qed.

Lemma refines_ok {A} (m1 m2 : M A) s a s' : refines m1 m2 -> m1 s = Ok a s' -> m2 s = Ok a s'.
Proof. intros H E. rewrite (H s) by (rewrite E; discriminate). exact E. Qed.

Lemma refines_pcall_wrap m1 m2 : refines m1 m2 -> refines (pcall_wrap m1) (pcall_wrap m2).
Proof.
  intros H s Hs. unfold pcall_wrap in *. specialize (H s).
  destruct (m1 s) as [a s1|e s1| |w]; try contradiction; now rewrite H.
Qed.

Definition repeat_loop (EL : env -> list expr -> M (list value)) (XS : env -> stmt -> M (env * signal)) (last : option laststmt) : list stmt -> env -> M (env * signal) :=
  fix go (ss : list stmt) (rho : env) : M (env * signal) :=
    match ss with
    | [] =>
    match last with
    | None => ret (rho, SigNone)
    | Some LBreak => ret (rho, SigBreak)
    | Some LContinue => ret (rho, SigContinue)
    | Some (LReturn es) => vs <- EL rho es ;; ret (rho, SigReturn vs)
    end
    | st :: rest =>
    '(rho', sg) <- XS rho st ;;
    match sg with
    | SigNone => go rest rho'
    | _ => ret (rho', sg)
    end
    end.

Lemma exec_repeat_unf d n (rho : env) (va : list value) (b : block) (c : expr) :
  exec_repeat d (S n) rho va b c =
  (    match b with
    | Block stmts last =>
      '(rho', sg) <- repeat_loop (fun r => eval_list d n r va) (fun r => exec_stmt d n r va) last stmts rho ;;
      match sg with
      | SigBreak => ret SigNone
      | SigReturn _ => ret sg
      | _ =>
        cv <- eval1 d n rho' va c ;;
        if truthy cv then ret SigNone else exec_repeat d n rho va b c
      end
    end).
Proof. exact_no_check (@eq_refl _ (exec_repeat d (S n) rho va b c)). Qed.

Section Repeat.
Variable d : dialect.

Definition repeat_go (n : nat) (va : list value) (last : option laststmt) : list stmt -> env -> M (env * signal) :=
  repeat_loop (fun r => eval_list d n r va) (fun r => exec_stmt d n r va) last.

Lemma exec_repeat_S n rho va stmts last c :
  exec_repeat d (S n) rho va (Block stmts last) c =
  ('(rho', sg) <- repeat_go n va last stmts rho ;;
   match sg with
   | SigBreak => ret SigNone
   | SigReturn _ => ret sg
   | _ =>
     cv <- eval1 d n rho' va c ;;
     if truthy cv then ret SigNone else exec_repeat d n rho va (Block stmts last) c
   end).
Proof. exact (exec_repeat_unf d n rho va (Block stmts last) c). Qed.

Lemma repeat_go_nil n va last rho :
  repeat_go n va last [] rho =
  match last with
  | None => ret (rho, SigNone)
  | Some LBreak => ret (rho, SigBreak)
  | Some LContinue => ret (rho, SigContinue)
  | Some (LReturn es) => vs <- eval_list d n rho va es ;; ret (rho, SigReturn vs)
  end.
Proof. reflexivity. Qed.
Lemma repeat_go_cons n va last st rest rho :
  repeat_go n va last (st :: rest) rho =
  ('(rho', sg) <- exec_stmt d n rho va st ;;
   match sg with
   | SigNone => repeat_go n va last rest rho'
   | _ => ret (rho', sg)
   end).
Proof. reflexivity. Qed.

End Repeat.

Record mono_at (d : dialect) (n m : nat) : Prop := {
  mono_call : forall (f : value) (args : list value), refines (call d n f args) (call d m f args);
  mono_index : forall (o k : value), refines (index d n o k) (index d m o k);
  mono_setindex : forall (o k v : value), refines (setindex d n o k v) (setindex d m o k v);
  mono_tostr : forall (v : value), refines (tostr d n v) (tostr d m v);
  mono_arith : forall (o : binop) (a b : value), refines (arith d n o a b) (arith d m o a b);
  mono_concat : forall (a b : value), refines (concat d n a b) (concat d m a b);
  mono_equal : forall (a b : value), refines (equal d n a b) (equal d m a b);
  mono_less : forall (strict : bool) (a b : value), refines (less d n strict a b) (less d m strict a b);
  mono_length : forall (v : value), refines (length d n v) (length d m v);
  mono_call_builtin : forall (b : N) (args : list value), refines (call_builtin d n b args) (call_builtin d m b args);
  mono_eval : forall (rho : env) (va : list value) (e : expr), refines (eval d n rho va e) (eval d m rho va e);
  mono_eval1 : forall (rho : env) (va : list value) (e : expr), refines (eval1 d n rho va e) (eval1 d m rho va e);
  mono_eval_list : forall (rho : env) (va : list value) (es : list expr), refines (eval_list d n rho va es) (eval_list d m rho va es);
  mono_eval_args : forall (rho : env) (va : list value) (a : args), refines (eval_args d n rho va a) (eval_args d m rho va a);
  mono_fill_table : forall (rho : env) (va : list value) (a : N) (entries : list tentry) (pos : Z), refines (fill_table d n rho va a entries pos) (fill_table d m rho va a entries pos);
  mono_exec_block : forall (rho : env) (va : list value) (b : block), refines (exec_block d n rho va b) (exec_block d m rho va b);
  mono_exec_stmts : forall (rho : env) (va : list value) (ss : list stmt) (last : option laststmt), refines (exec_stmts d n rho va ss last) (exec_stmts d m rho va ss last);
  mono_assign_target : forall (rho : env) (tgt : (option N * value * value)) (v : value), refines (assign_target d n rho tgt v) (assign_target d m rho tgt v);
  mono_eval_target : forall (rho : env) (va : list value) (e : expr), refines (eval_target d n rho va e) (eval_target d m rho va e);
  mono_exec_stmt : forall (rho : env) (va : list value) (st : stmt), refines (exec_stmt d n rho va st) (exec_stmt d m rho va st);
  mono_exec_while : forall (rho : env) (va : list value) (c : expr) (b : block), refines (exec_while d n rho va c b) (exec_while d m rho va c b);
  mono_exec_repeat : forall (rho : env) (va : list value) (b : block) (c : expr), refines (exec_repeat d n rho va b c) (exec_repeat d m rho va b c);
  mono_exec_numfor : forall (rho : env) (va : list value) (x : name) (i stop step : f64) (b : block), refines (exec_numfor d n rho va x i stop step b) (exec_numfor d m rho va x i stop step b);
  mono_exec_genfor : forall (rho : env) (va : list value) (vars : list param) (f s ctl : value) (b : block), refines (exec_genfor d n rho va vars f s ctl b) (exec_genfor d m rho va vars f s ctl b)
}.

(** Both sides of a goal [refines (body n) (body m)] have the same shape: descend through
    [bind] and through every [match]/[if] whose scrutinee is syntactically the same on both
    sides; close the leaves by reflexivity, by the induction hypothesis on the fuel ([ihtac])
    or by a hypothesis of an inner induction. *)
Local Ltac step_gen ihtac :=
  lazymatch goal with
  | |- refines ?a ?b =>
    first
      [ constr_eq a b; apply refines_refl
      | lazymatch goal with
        | |- refines (bind _ _) (bind _ _) => apply refines_bind; [ | intro ]
        | |- refines (match ?x with _ => _ end) (match ?y with _ => _ end) =>
          constr_eq x y; destruct x; cbv beta match
        end
      | ihtac
      | match goal with H : context [@refines] |- _ => solve [apply H] end ]
  end.
Local Ltac no_ih := idtac; fail.
Local Ltac walk0 := repeat step_gen no_ih.

Lemma format_go_mono d n m : (forall v, refines (tostr d n v) (tostr d m v)) ->
  forall k f vs acc, refines (format_go d n k f vs acc) (format_go d m k f vs acc).
Proof.
  intros HT. induction k as [|k IHk]; intros f vs acc; cbn [format_go]; walk0.
Qed.

Lemma if_go_mono d n m rho va els : (forall e, refines (eval1 d n rho va e) (eval1 d m rho va e)) ->
  forall bs, refines (if_go d n rho va els bs) (if_go d m rho va els bs).
Proof. intros HE. induction bs as [|b bs IH]; cbn [if_go]; walk0. Qed.

Lemma interp_go_mono d n m rho va :
  (forall e, refines (eval1 d n rho va e) (eval1 d m rho va e)) -> (forall v, refines (tostr d n v) (tostr d m v)) ->
  forall ss acc, refines (interp_go d n rho va ss acc) (interp_go d m rho va ss acc).
Proof. intros HE HT. induction ss as [|x ss IH]; intros acc; cbn [interp_go]; walk0. Qed.

Lemma targets_loop_mono (ET1 ET2 : expr -> M (option N * value * value)) :
  (forall e, refines (ET1 e) (ET2 e)) ->
  forall vs, refines (targets_loop ET1 vs) (targets_loop ET2 vs).
Proof. intros HE. induction vs as [|x vs IH]; cbn [targets_loop]; walk0. Qed.

Lemma assign_loop_mono (AT1 AT2 : (option N * value * value) -> value -> M unit) :
  (forall t v, refines (AT1 t v) (AT2 t v)) ->
  forall ts vs, refines (assign_loop AT1 ts vs) (assign_loop AT2 ts vs).
Proof. intros HA. induction ts as [|x ts IH]; intros vs; cbn [assign_loop]; walk0. Qed.

Lemma path_loop_mono (I1 I2 : value -> value -> M value) :
  (forall o k, refines (I1 o k) (I2 o k)) ->
  forall ks o, refines (path_loop I1 o ks) (path_loop I2 o ks).
Proof. intros HI. induction ks as [|k ks IH]; intros o; cbn [path_loop]; walk0. Qed.

Lemma sif_loop_mono (E1 E2 : expr -> M value) (X1 X2 : block -> M signal) els :
  (forall e, refines (E1 e) (E2 e)) -> (forall b, refines (X1 b) (X2 b)) ->
  forall bs, refines (sif_loop E1 X1 els bs) (sif_loop E2 X2 els bs).
Proof. intros HE HX. induction bs as [|b bs IH]; cbn [sif_loop]; walk0. Qed.

Lemma repeat_loop_mono (EL1 EL2 : env -> list expr -> M (list value))
      (XS1 XS2 : env -> stmt -> M (env * signal)) last :
  (forall r es, refines (EL1 r es) (EL2 r es)) -> (forall r st, refines (XS1 r st) (XS2 r st)) ->
  forall ss rho, refines (repeat_loop EL1 XS1 last ss rho) (repeat_loop EL2 XS2 last ss rho).
Proof. intros HE HX. induction ss as [|st ss IH]; intros rho; cbn [repeat_loop]; walk0. Qed.

Lemma mono_at_0 d m : mono_at d 0 m.
Proof. constructor; intros; apply refines_fuel. Qed.

Section Step.
Variable d : dialect.
Variables n m : nat.
Hypothesis HM : mono_at d n m.

(** a leaf: a recursive call, or a loop over recursive calls *)
Ltac ih :=
  idtac;
  lazymatch goal with
  | |- refines (Sem.call _ _ _ _) _ => apply (mono_call d n m HM)
  | |- refines (Sem.index _ _ _ _) _ => apply (mono_index d n m HM)
  | |- refines (Sem.setindex _ _ _ _ _) _ => apply (mono_setindex d n m HM)
  | |- refines (Sem.tostr _ _ _) _ => apply (mono_tostr d n m HM)
  | |- refines (Sem.arith _ _ _ _ _) _ => apply (mono_arith d n m HM)
  | |- refines (Sem.concat _ _ _ _) _ => apply (mono_concat d n m HM)
  | |- refines (Sem.equal _ _ _ _) _ => apply (mono_equal d n m HM)
  | |- refines (Sem.less _ _ _ _ _) _ => apply (mono_less d n m HM)
  | |- refines (Sem.length _ _ _) _ => apply (mono_length d n m HM)
  | |- refines (Sem.call_builtin _ _ _ _) _ => apply (mono_call_builtin d n m HM)
  | |- refines (Sem.eval _ _ _ _ _) _ => apply (mono_eval d n m HM)
  | |- refines (Sem.eval1 _ _ _ _ _) _ => apply (mono_eval1 d n m HM)
  | |- refines (Sem.eval_list _ _ _ _ _) _ => apply (mono_eval_list d n m HM)
  | |- refines (Sem.eval_args _ _ _ _ _) _ => apply (mono_eval_args d n m HM)
  | |- refines (Sem.fill_table _ _ _ _ _ _ _) _ => apply (mono_fill_table d n m HM)
  | |- refines (Sem.exec_block _ _ _ _ _) _ => apply (mono_exec_block d n m HM)
  | |- refines (Sem.exec_stmts _ _ _ _ _ _) _ => apply (mono_exec_stmts d n m HM)
  | |- refines (Sem.assign_target _ _ _ _ _) _ => apply (mono_assign_target d n m HM)
  | |- refines (Sem.eval_target _ _ _ _ _) _ => apply (mono_eval_target d n m HM)
  | |- refines (Sem.exec_stmt _ _ _ _ _) _ => apply (mono_exec_stmt d n m HM)
  | |- refines (Sem.exec_while _ _ _ _ _ _) _ => apply (mono_exec_while d n m HM)
  | |- refines (Sem.exec_repeat _ _ _ _ _ _) _ => apply (mono_exec_repeat d n m HM)
  | |- refines (Sem.exec_numfor _ _ _ _ _ _ _ _ _) _ => apply (mono_exec_numfor d n m HM)
  | |- refines (Sem.exec_genfor _ _ _ _ _ _ _ _ _) _ => apply (mono_exec_genfor d n m HM)
  | |- refines (pcall_wrap _) _ => apply refines_pcall_wrap; ih
  | |- refines (binop_sem _ _ _ _ _) _ => unfold binop_sem; cbv beta match
  | |- refines (format_go _ _ _ _ _ _) _ => apply format_go_mono; intros; ih
  | |- refines (if_go _ _ _ _ _ _) _ => apply if_go_mono; intros; ih
  | |- refines (interp_go _ _ _ _ _ _) _ => apply interp_go_mono; intros; ih
  | |- refines (targets_loop _ _) _ => apply targets_loop_mono; intros; cbv beta; ih
  | |- refines (assign_loop _ _ _) _ => apply assign_loop_mono; intros; cbv beta; ih
  | |- refines (path_loop _ _ _) _ => apply path_loop_mono; intros; cbv beta; ih
  | |- refines (sif_loop _ _ _ _) _ => apply sif_loop_mono; intros; cbv beta; ih
  | |- refines (repeat_loop _ _ _ _ _) _ => apply repeat_loop_mono; intros; cbv beta; ih
  end.
Ltac walk := repeat step_gen ih.
Ltac unf_walk lem := rewrite !lem; cbv beta zeta; walk.

Lemma mono_at_S : mono_at d (S n) (S m).
Proof.
  constructor; intros.
  - unf_walk call_unf.
  - unf_walk index_unf.
  - unf_walk setindex_unf.
  - unf_walk tostr_S.
  - unf_walk arith_S.
  - unf_walk concat_S.
  - unf_walk equal_S.
  - unf_walk less_S.
  - unf_walk length_S.
  - unf_walk call_builtin_S.
  - destruct e as [ | | | | | | | | | | | | | | | op l r | | | ];
      try (first [ unf_walk eval_S_nil | unf_walk eval_S_true | unf_walk eval_S_false | unf_walk eval_S_number
                 | unf_walk eval_S_string | unf_walk eval_S_varargs | unf_walk eval_S_ident | unf_walk eval_S_field
                 | unf_walk eval_S_index | unf_walk eval_S_call | unf_walk eval_S_function | unf_walk eval_S_if
                 | unf_walk eval_S_paren | unf_walk eval_S_table | unf_walk eval_S_unary | unf_walk eval_S_interp
                 | unf_walk eval_S_typecast | unf_walk eval_S_typeinst ]; fail).
    destruct op;
      first [ unf_walk eval_S_and | unf_walk eval_S_or
            | rewrite !eval_S_binop by reflexivity; cbv beta zeta; walk ].
  - unf_walk eval1_S.
  - unf_walk eval_list_unf.
  - unf_walk eval_args_unf.
  - unf_walk fill_table_unf.
  - unf_walk exec_block_unf.
  - unf_walk exec_stmts_unf.
  - unf_walk assign_target_unf.
  - unf_walk eval_target_unf.
  - unf_walk exec_stmt_unf.
  - unf_walk exec_while_S.
  - unf_walk exec_repeat_unf.
  - unf_walk exec_numfor_S.
  - unf_walk exec_genfor_S.
Qed.

End Step.

Lemma mono_at_le d : forall n m, (n <= m)%nat -> mono_at d n m.
Proof.
  induction n as [|n IHn]; intros m Hle.
  - apply mono_at_0.
  - destruct m as [|m]; [lia|]. apply mono_at_S, IHn. lia.
Qed.

(** one more unit of fuel never changes a result that did not run out of fuel *)
Theorem fuel_monotone : forall (d : dialect) (n : nat),
  (forall (f : value) (args : list value), refines (call d n f args) (call d (S n) f args)) /\
  (forall (o k : value), refines (index d n o k) (index d (S n) o k)) /\
  (forall (o k v : value), refines (setindex d n o k v) (setindex d (S n) o k v)) /\
  (forall (v : value), refines (tostr d n v) (tostr d (S n) v)) /\
  (forall (o : binop) (a b : value), refines (arith d n o a b) (arith d (S n) o a b)) /\
  (forall (a b : value), refines (concat d n a b) (concat d (S n) a b)) /\
  (forall (a b : value), refines (equal d n a b) (equal d (S n) a b)) /\
  (forall (strict : bool) (a b : value), refines (less d n strict a b) (less d (S n) strict a b)) /\
  (forall (v : value), refines (length d n v) (length d (S n) v)) /\
  (forall (b : N) (args : list value), refines (call_builtin d n b args) (call_builtin d (S n) b args)) /\
  (forall (rho : env) (va : list value) (e : expr), refines (eval d n rho va e) (eval d (S n) rho va e)) /\
  (forall (rho : env) (va : list value) (e : expr), refines (eval1 d n rho va e) (eval1 d (S n) rho va e)) /\
  (forall (rho : env) (va : list value) (es : list expr), refines (eval_list d n rho va es) (eval_list d (S n) rho va es)) /\
  (forall (rho : env) (va : list value) (a : args), refines (eval_args d n rho va a) (eval_args d (S n) rho va a)) /\
  (forall (rho : env) (va : list value) (a : N) (entries : list tentry) (pos : Z), refines (fill_table d n rho va a entries pos) (fill_table d (S n) rho va a entries pos)) /\
  (forall (rho : env) (va : list value) (b : block), refines (exec_block d n rho va b) (exec_block d (S n) rho va b)) /\
  (forall (rho : env) (va : list value) (ss : list stmt) (last : option laststmt), refines (exec_stmts d n rho va ss last) (exec_stmts d (S n) rho va ss last)) /\
  (forall (rho : env) (tgt : (option N * value * value)) (v : value), refines (assign_target d n rho tgt v) (assign_target d (S n) rho tgt v)) /\
  (forall (rho : env) (va : list value) (e : expr), refines (eval_target d n rho va e) (eval_target d (S n) rho va e)) /\
  (forall (rho : env) (va : list value) (st : stmt), refines (exec_stmt d n rho va st) (exec_stmt d (S n) rho va st)) /\
  (forall (rho : env) (va : list value) (c : expr) (b : block), refines (exec_while d n rho va c b) (exec_while d (S n) rho va c b)) /\
  (forall (rho : env) (va : list value) (b : block) (c : expr), refines (exec_repeat d n rho va b c) (exec_repeat d (S n) rho va b c)) /\
  (forall (rho : env) (va : list value) (x : name) (i stop step : f64) (b : block), refines (exec_numfor d n rho va x i stop step b) (exec_numfor d (S n) rho va x i stop step b)) /\
  (forall (rho : env) (va : list value) (vars : list param) (f s ctl : value) (b : block), refines (exec_genfor d n rho va vars f s ctl b) (exec_genfor d (S n) rho va vars f s ctl b)).
Proof.
  intros d n. destruct (mono_at_le d n (S n) (Nat.le_succ_diag_r n)). repeat apply conj; assumption.
Qed.

Lemma call_mono d n m (f : value) (args : list value) s0 r s1 :
  (n <= m)%nat -> call d n f args s0 = Ok r s1 -> call d m f args s0 = Ok r s1.
Proof. intros Hle. apply refines_ok, mono_call, mono_at_le, Hle. Qed.

Lemma index_mono d n m (o k : value) s0 r s1 :
  (n <= m)%nat -> index d n o k s0 = Ok r s1 -> index d m o k s0 = Ok r s1.
Proof. intros Hle. apply refines_ok, mono_index, mono_at_le, Hle. Qed.

Lemma setindex_mono d n m (o k v : value) s0 r s1 :
  (n <= m)%nat -> setindex d n o k v s0 = Ok r s1 -> setindex d m o k v s0 = Ok r s1.
Proof. intros Hle. apply refines_ok, mono_setindex, mono_at_le, Hle. Qed.

Lemma tostr_mono d n m (v : value) s0 r s1 :
  (n <= m)%nat -> tostr d n v s0 = Ok r s1 -> tostr d m v s0 = Ok r s1.
Proof. intros Hle. apply refines_ok, mono_tostr, mono_at_le, Hle. Qed.

Lemma arith_mono d n m (o : binop) (a b : value) s0 r s1 :
  (n <= m)%nat -> arith d n o a b s0 = Ok r s1 -> arith d m o a b s0 = Ok r s1.
Proof. intros Hle. apply refines_ok, mono_arith, mono_at_le, Hle. Qed.

Lemma concat_mono d n m (a b : value) s0 r s1 :
  (n <= m)%nat -> concat d n a b s0 = Ok r s1 -> concat d m a b s0 = Ok r s1.
Proof. intros Hle. apply refines_ok, mono_concat, mono_at_le, Hle. Qed.

Lemma equal_mono d n m (a b : value) s0 r s1 :
  (n <= m)%nat -> equal d n a b s0 = Ok r s1 -> equal d m a b s0 = Ok r s1.
Proof. intros Hle. apply refines_ok, mono_equal, mono_at_le, Hle. Qed.

Lemma less_mono d n m (strict : bool) (a b : value) s0 r s1 :
  (n <= m)%nat -> less d n strict a b s0 = Ok r s1 -> less d m strict a b s0 = Ok r s1.
Proof. intros Hle. apply refines_ok, mono_less, mono_at_le, Hle. Qed.

Lemma length_mono d n m (v : value) s0 r s1 :
  (n <= m)%nat -> length d n v s0 = Ok r s1 -> length d m v s0 = Ok r s1.
Proof. intros Hle. apply refines_ok, mono_length, mono_at_le, Hle. Qed.

Lemma call_builtin_mono d n m (b : N) (args : list value) s0 r s1 :
  (n <= m)%nat -> call_builtin d n b args s0 = Ok r s1 -> call_builtin d m b args s0 = Ok r s1.
Proof. intros Hle. apply refines_ok, mono_call_builtin, mono_at_le, Hle. Qed.

Lemma eval_refines_le d n m (rho : env) (va : list value) (e : expr) : (n <= m)%nat -> refines (eval d n rho va e) (eval d m rho va e).
Proof. intros Hle. apply mono_eval, mono_at_le, Hle. Qed.
Lemma eval_mono d n m (rho : env) (va : list value) (e : expr) s0 r s1 :
  (n <= m)%nat -> eval d n rho va e s0 = Ok r s1 -> eval d m rho va e s0 = Ok r s1.
Proof. intros Hle. apply refines_ok, eval_refines_le, Hle. Qed.

Lemma eval1_refines_le d n m (rho : env) (va : list value) (e : expr) : (n <= m)%nat -> refines (eval1 d n rho va e) (eval1 d m rho va e).
Proof. intros Hle. apply mono_eval1, mono_at_le, Hle. Qed.
Lemma eval1_mono d n m (rho : env) (va : list value) (e : expr) s0 r s1 :
  (n <= m)%nat -> eval1 d n rho va e s0 = Ok r s1 -> eval1 d m rho va e s0 = Ok r s1.
Proof. intros Hle. apply refines_ok, eval1_refines_le, Hle. Qed.

Lemma eval_list_refines_le d n m (rho : env) (va : list value) (es : list expr) : (n <= m)%nat -> refines (eval_list d n rho va es) (eval_list d m rho va es).
Proof. intros Hle. apply mono_eval_list, mono_at_le, Hle. Qed.
Lemma eval_list_mono d n m (rho : env) (va : list value) (es : list expr) s0 r s1 :
  (n <= m)%nat -> eval_list d n rho va es s0 = Ok r s1 -> eval_list d m rho va es s0 = Ok r s1.
Proof. intros Hle. apply refines_ok, eval_list_refines_le, Hle. Qed.

Lemma eval_args_refines_le d n m (rho : env) (va : list value) (a : args) : (n <= m)%nat -> refines (eval_args d n rho va a) (eval_args d m rho va a).
Proof. intros Hle. apply mono_eval_args, mono_at_le, Hle. Qed.
Lemma eval_args_mono d n m (rho : env) (va : list value) (a : args) s0 r s1 :
  (n <= m)%nat -> eval_args d n rho va a s0 = Ok r s1 -> eval_args d m rho va a s0 = Ok r s1.
Proof. intros Hle. apply refines_ok, eval_args_refines_le, Hle. Qed.

Lemma fill_table_mono d n m (rho : env) (va : list value) (a : N) (entries : list tentry) (pos : Z) s0 r s1 :
  (n <= m)%nat -> fill_table d n rho va a entries pos s0 = Ok r s1 -> fill_table d m rho va a entries pos s0 = Ok r s1.
Proof. intros Hle. apply refines_ok, mono_fill_table, mono_at_le, Hle. Qed.

Lemma exec_block_refines_le d n m (rho : env) (va : list value) (b : block) : (n <= m)%nat -> refines (exec_block d n rho va b) (exec_block d m rho va b).
Proof. intros Hle. apply mono_exec_block, mono_at_le, Hle. Qed.
Lemma exec_block_mono d n m (rho : env) (va : list value) (b : block) s0 r s1 :
  (n <= m)%nat -> exec_block d n rho va b s0 = Ok r s1 -> exec_block d m rho va b s0 = Ok r s1.
Proof. intros Hle. apply refines_ok, exec_block_refines_le, Hle. Qed.

Lemma exec_stmts_refines_le d n m (rho : env) (va : list value) (ss : list stmt) (last : option laststmt) : (n <= m)%nat -> refines (exec_stmts d n rho va ss last) (exec_stmts d m rho va ss last).
Proof. intros Hle. apply mono_exec_stmts, mono_at_le, Hle. Qed.
Lemma exec_stmts_mono d n m (rho : env) (va : list value) (ss : list stmt) (last : option laststmt) s0 r s1 :
  (n <= m)%nat -> exec_stmts d n rho va ss last s0 = Ok r s1 -> exec_stmts d m rho va ss last s0 = Ok r s1.
Proof. intros Hle. apply refines_ok, exec_stmts_refines_le, Hle. Qed.

Lemma assign_target_mono d n m (rho : env) (tgt : (option N * value * value)) (v : value) s0 r s1 :
  (n <= m)%nat -> assign_target d n rho tgt v s0 = Ok r s1 -> assign_target d m rho tgt v s0 = Ok r s1.
Proof. intros Hle. apply refines_ok, mono_assign_target, mono_at_le, Hle. Qed.

Lemma eval_target_mono d n m (rho : env) (va : list value) (e : expr) s0 r s1 :
  (n <= m)%nat -> eval_target d n rho va e s0 = Ok r s1 -> eval_target d m rho va e s0 = Ok r s1.
Proof. intros Hle. apply refines_ok, mono_eval_target, mono_at_le, Hle. Qed.

Lemma exec_stmt_refines_le d n m (rho : env) (va : list value) (st : stmt) : (n <= m)%nat -> refines (exec_stmt d n rho va st) (exec_stmt d m rho va st).
Proof. intros Hle. apply mono_exec_stmt, mono_at_le, Hle. Qed.
Lemma exec_stmt_mono d n m (rho : env) (va : list value) (st : stmt) s0 r s1 :
  (n <= m)%nat -> exec_stmt d n rho va st s0 = Ok r s1 -> exec_stmt d m rho va st s0 = Ok r s1.
Proof. intros Hle. apply refines_ok, exec_stmt_refines_le, Hle. Qed.

Lemma exec_while_mono d n m (rho : env) (va : list value) (c : expr) (b : block) s0 r s1 :
  (n <= m)%nat -> exec_while d n rho va c b s0 = Ok r s1 -> exec_while d m rho va c b s0 = Ok r s1.
Proof. intros Hle. apply refines_ok, mono_exec_while, mono_at_le, Hle. Qed.

Lemma exec_repeat_mono d n m (rho : env) (va : list value) (b : block) (c : expr) s0 r s1 :
  (n <= m)%nat -> exec_repeat d n rho va b c s0 = Ok r s1 -> exec_repeat d m rho va b c s0 = Ok r s1.
Proof. intros Hle. apply refines_ok, mono_exec_repeat, mono_at_le, Hle. Qed.

Lemma exec_numfor_mono d n m (rho : env) (va : list value) (x : name) (i stop step : f64) (b : block) s0 r s1 :
  (n <= m)%nat -> exec_numfor d n rho va x i stop step b s0 = Ok r s1 -> exec_numfor d m rho va x i stop step b s0 = Ok r s1.
Proof. intros Hle. apply refines_ok, mono_exec_numfor, mono_at_le, Hle. Qed.

Lemma exec_genfor_mono d n m (rho : env) (va : list value) (vars : list param) (f s ctl : value) (b : block) s0 r s1 :
  (n <= m)%nat -> exec_genfor d n rho va vars f s ctl b s0 = Ok r s1 -> exec_genfor d m rho va vars f s ctl b s0 = Ok r s1.
Proof. intros Hle. apply refines_ok, mono_exec_genfor, mono_at_le, Hle. Qed.

Print Assumptions fuel_monotone.
Print Assumptions eval_mono.
