(** convert_require keeps the target, at the level of the written require argument
    ([generate_require] produces bytes, [find_require] reads them back), the variant for
    requiring files directly in the working directory, the refutation of the unrestricted
    statement, and instances showing that the hypotheses are satisfiable. *)
From DL Require Import Lib.Bytes Model.Paths Model.Require Proof.PathsBasics Proof.PathsFacts
  Proof.RequireFacts Proof.PathsRoundtrip Proof.PathsConvert.
Require Import Lia PeanoNat.
Open Scope N_scope.

Lemma wf_rel_rel_prefix k st : forallb wf_comp st = true -> wf_rel (rel_prefix k ++ st) = true.
Proof.
  intros H. destruct k as [|k]; [exact H|].
  change (forallb wf_comp (repeat Par (S k) ++ st) = true). induction (S k) as [|j IH]; [exact H|exact IH].
Qed.

Lemma wf_rel_gen_prefix init k st : forallb wf_comp st = true -> wf_rel (gen_prefix init k ++ st) = true.
Proof.
  intros H. destruct init; [destruct k|]; try (apply wf_rel_rel_prefix; exact H).
  (* [@self] is a well-formed name *)
  exact H.
Qed.

Lemma generated_wf tgt d s t :
  no_alias tgt (d ++ [Norm s]) t -> simple d = true -> simple t = true -> path_prefix t d = false ->
  forallb wf_comp (strip_target tgt t) = true ->
  wf_rel (strip_target tgt (generate_path tgt (d ++ [Norm s]) t)) = true.
Proof.
  intros Hno Hd Ht Hpre Hwf.
  destruct (generated_stripped tgt d s t Hd Ht Hpre Hno) as (cp & d' & st & _ & _ & _ & _ & Est & ->).
  rewrite Est, forallb_app in Hwf. apply andb_true_iff in Hwf as [_ Hwf].
  apply wf_rel_gen_prefix. exact Hwf.
Qed.

(** the theorem on the written argument: the target configuration may have aliases, as long as
    none of their locations contains the target *)
Theorem convert_keeps_target_no_alias :
  forall (tgt : config) (rcs : rc_files) (f : fs) (d : path) (s : bytes) (t : path) (m : bytes),
    no_alias tgt (d ++ [Norm s]) t ->
    parse_path (module_folder_name tgt) = [Norm m] ->
    simple d = true -> simple t = true ->
    path_prefix t d = false ->
    strip_target tgt t <> [] ->
    forallb wf_comp (strip_target tgt t) = true ->
    unambiguous tgt f t ->
    exists t',
      find_require tgt rcs f (d ++ [Norm s]) (generate_require tgt (d ++ [Norm s]) t) = Found t' /\
      same_file t' t = true.
Proof.
  intros tgt rcs f d s t m Hno Hmfn Hd Ht Hpre Hstrip Hwf Hun.
  unfold find_require, generate_require.
  rewrite parse_write_roundtrip by (apply generated_wf; assumption).
  apply (convert_keeps_target_paths tgt rcs f d s t m); assumption.
Qed.

Theorem convert_keeps_target :
  forall (tgt : config) (rcs : rc_files) (f : fs) (d : path) (s : bytes) (t : path) (m : bytes),
    c_sources tgt = [] ->
    parse_path (module_folder_name tgt) = [Norm m] ->
    simple d = true -> simple t = true ->
    path_prefix t d = false ->
    strip_target tgt t <> [] ->
    forallb wf_comp (strip_target tgt t) = true ->
    unambiguous tgt f t ->
    exists t',
      find_require tgt rcs f (d ++ [Norm s]) (generate_require tgt (d ++ [Norm s]) t) = Found t' /\
      same_file t' t = true.
Proof.
  intros tgt rcs f d s t m Hsrc. apply convert_keeps_target_no_alias.
  unfold no_alias. rewrite Hsrc. reflexivity.
Qed.

(** requiring file directly in the working directory: the locators answer [./t] *)
Theorem convert_keeps_target_toplevel :
  forall (tgt : config) (rcs : rc_files) (f : fs) (s : bytes) (t : path) (m : bytes),
    parse_path (module_folder_name tgt) = [Norm m] ->
    init_source tgt [Norm s] = false ->
    simple t = true ->
    strip_target tgt t <> [] ->
    forallb wf_comp (strip_target tgt t) = true ->
    unambiguous tgt f t ->
    exists t',
      find_require tgt rcs f [Norm s] (generate_require tgt [Norm s] (Cur :: t)) = Found t' /\
      same_file t' (Cur :: t) = true.
Proof.
  intros tgt rcs f s t m Hmfn Hinit Ht Hstrip Hwf Hun.
  assert (Hne : t <> []) by (intros ->; apply Hstrip; reflexivity).
  pose proof (strip_target_simple tgt t Ht) as Hst.
  unfold find_require, generate_require.
  rewrite (generate_path_relative tgt [Norm s] (Cur :: t)) by (try exact Hinit; reflexivity).
  change (Cur :: t) with ([Cur] ++ t).
  rewrite (strip_target_app tgt [Cur] t Hne), parse_write_roundtrip by exact Hwf.
  cbn [app]. rewrite normalize_true_cur_simple by exact Hst.
  unfold find_require_path.
  rewrite head_toplevel, (locate_unambiguous_cur tgt f m _ t Hmfn Ht Hstrip Hun (normalize_true_cur_simple _ Hst)).
  exists (Cur :: t). split; [reflexivity|apply same_file_refl].
Qed.

Local Open Scope string_scope.
Definition S (s : string) : bytes := of_string s.
Definition Pn (l : list string) : path := map (fun s => Norm (S s)) l.

Definition path_mode (mfn : string) : config :=
  {| c_luau := false; c_mfn := S mfn; c_sources := []; c_project := None; c_use_rc := false |}.
Definition luau_mode : config :=
  {| c_luau := true; c_mfn := S "init"; c_sources := []; c_project := None; c_use_rc := false |}.

(** "convert_require ... produces a require that resolves, under the target mode, to the same file
    the original resolved to under the current mode" *)
Definition convert_full_statement : Prop :=
  forall (cur tgt : config) (rcs : rc_files) (f : fs) (src : path) (literal : bytes) (t : path),
    find_require cur rcs f src literal = Found t ->
    exists t', find_require tgt rcs f src (generate_require tgt src t) = Found t' /\ same_file t' t = true.

(** [src/b.lua] and [src/b.luau] both exist; [require("./b.lua")] in [src/a.lua] becomes
    [require("./b")], which is [src/b.luau] *)
Theorem convert_keeps_target_refuted : ~ convert_full_statement.
Proof.
  intros H.
  destruct (H (path_mode "init") luau_mode []
              (mk_fs [Pn ["src"; "a.lua"]; Pn ["src"; "b.lua"]; Pn ["src"; "b.luau"]])
              (Pn ["src"; "a.lua"]) (S "./b.lua") (Pn ["src"; "b.lua"]) eq_refl) as (t' & Ht' & Hs).
  vm_compute in Ht'. inversion Ht'; subst. vm_compute in Hs. discriminate.
Qed.

(** the same holds when the target is unambiguous but the resolved path starts with "." :
    [sources: { pkg: "./pkg" }], [require("pkg/b")] in [src/a.lua] resolves to [./pkg/b.lua]
    and becomes [require("./pkg/b")], which is [src/pkg/b] *)
Definition path_mode_pkg : config :=
  {| c_luau := false; c_mfn := S "init"; c_sources := [(S "pkg", [Cur; Norm (S "pkg")])];
     c_project := Some []; c_use_rc := false |}.
Definition luau_mode_pkg : config :=
  {| c_luau := true; c_mfn := S "init"; c_sources := [(S "@pkg", [Cur; Norm (S "pkg")])];
     c_project := Some []; c_use_rc := false |}.

Theorem convert_relative_result_refuted :
  exists (f : fs) (src : path) (literal : bytes) (t : path),
    find_require path_mode_pkg [] f src literal = Found t /\
    unambiguous luau_mode_pkg f t /\
    is_require_relative t = true /\
    find_require luau_mode_pkg [] f src (generate_require luau_mode_pkg src t) = Failed ENotFound.
Proof.
  exists (mk_fs [Pn ["src"; "a.lua"]; Pn ["pkg"; "b.lua"]]), (Pn ["src"; "a.lua"]), (S "pkg/b"),
         (Cur :: Pn ["pkg"; "b.lua"]).
  repeat split; vm_compute; reflexivity.
Qed.

Example convert_keeps_target_instance :
  let tgt := luau_mode in
  let f := mk_fs [Pn ["src"; "sub"; "init.luau"]; Pn ["src"; "b"; "init.lua"]; Pn ["src"; "b.txt"]] in
  let d := Pn ["src"; "sub"] in
  let t := Pn ["src"; "b"; "init.lua"] in
  c_sources tgt = [] /\ parse_path (module_folder_name tgt) = [Norm (S "init")] /\
  simple d = true /\ simple t = true /\ path_prefix t d = false /\ strip_target tgt t <> [] /\
  forallb wf_comp (strip_target tgt t) = true /\ unambiguous tgt f t /\
  generate_require tgt (d ++ [Norm (S "init.luau")])%list t = S "./b" /\
  find_require tgt [] f (d ++ [Norm (S "init.luau")])%list (S "./b") = Found t.
Proof. repeat split; try (vm_compute; reflexivity). vm_compute. discriminate. Qed.

Example convert_keeps_target_toplevel_instance :
  let tgt := path_mode "index" in
  let f := mk_fs [Pn ["main.lua"]; Pn ["lib"; "index.luau"]] in
  let t := Pn ["lib"; "index.luau"] in
  parse_path (module_folder_name tgt) = [Norm (S "index")] /\ init_source tgt [Norm (S "main.lua")] = false /\
  simple t = true /\ strip_target tgt t <> [] /\ forallb wf_comp (strip_target tgt t) = true /\
  unambiguous tgt f t /\
  generate_require tgt [Norm (S "main.lua")] (Cur :: t) = S "./lib".
Proof. repeat split; try (vm_compute; reflexivity). vm_compute. discriminate. Qed.

Example candidates_six_instance :
  candidates (Pn ["src"; "example"]) (S "init") =
  [ Pn ["src"; "example"]; Pn ["src"; "example.luau"]; Pn ["src"; "example.lua"];
    Pn ["src"; "example"; "init"]; Pn ["src"; "example"; "init.luau"]; Pn ["src"; "example"; "init.lua"] ].
Proof. vm_compute. reflexivity. Qed.

(** names that merely begin with the module folder name are not module-folder files: the test is
    on the whole file name and on the file stem (up to the LAST dot) *)
Example init_like_names_are_ordinary_files :
  is_module_folder_name luau_mode (Pn ["src"; "pkg"; "init.spec.luau"]) = false /\
  is_module_folder_name luau_mode (Pn ["src"; "pkg"; "init.server.luau"]) = false /\
  is_module_folder_name (path_mode "index") (Pn ["src"; "pkg"; "index.spec.lua"]) = false /\
  is_module_folder_name luau_mode (Pn ["src"; "pkg"; "init.luau"]) = true /\
  is_module_folder_name luau_mode (Pn ["src"; "pkg"; "init.config"]) = true /\
  head_path luau_mode None (Pn ["src"; "pkg"; "init.spec.luau"]) [Cur; Norm (S "helper")] = inl (Pn ["src"; "pkg"; "helper"]) /\
  head_path luau_mode None (Pn ["src"; "pkg"; "init.luau"]) [Cur; Norm (S "helper")] = inl (Pn ["src"; "helper"]) /\
  generate_require luau_mode (Pn ["src"; "a.lua"]) (Pn ["src"; "pkg"; "init.spec.luau"]) = S "./pkg/init.spec" /\
  generate_require (path_mode "init") (Pn ["src"; "pkg"; "init.spec.luau"]) (Pn ["src"; "pkg"; "helper.luau"]) = S "./helper".
Proof. vm_compute. repeat split; reflexivity. Qed.

Lemma is_module_folder_name_last c q n :
  is_module_folder_name c (q ++ [Norm n])%list =
  bytes_eqb n (module_folder_name c) || opt_bytes_eqb (name_stem n) (module_folder_name c).
Proof. unfold is_module_folder_name. rewrite file_stem_snoc, file_name_snoc. reflexivity. Qed.

(** the darklua configuration in [project/] (not the working directory), [project/.luaurc] with
    [{"aliases": {"pkg": "packages"}}]: [require("@pkg/lib")] in [project/src/main.lua] is
    [project/packages/lib.lua] (the [.luaurc] alias is not joined onto the configuration
    location: the decoy [project/project/packages/lib.lua] is not chosen), and convert_require
    path -> luau writes [require("../packages/lib")], which is the same file *)
Example configuration_in_subdirectory_luaurc_alias :
  let cur := {| c_luau := false; c_mfn := S "init"; c_sources := [(S "vendor", Pn ["vendor"])];
                c_project := Some (Pn ["project"]); c_use_rc := true |} in
  let tgt := {| c_luau := true; c_mfn := S "init"; c_sources := [(S "@vendor", Pn ["vendor"])];
                c_project := Some (Pn ["project"]); c_use_rc := true |} in
  let rcs : rc_files := [(Pn ["project"], [(S "pkg", Pn ["packages"])])] in
  let f := mk_fs [Pn ["project"; "src"; "main.lua"]; Pn ["project"; ".luaurc"];
                  Pn ["project"; "packages"; "lib.lua"]; Pn ["project"; "project"; "packages"; "lib.lua"];
                  Pn ["project"; "vendor"; "lib.lua"]; Pn ["vendor"; "lib.lua"]] in
  let src := Pn ["project"; "src"; "main.lua"] in
  find_require cur rcs f src (S "@pkg/lib") = Found (Pn ["project"; "packages"; "lib.lua"]) /\
  find_require tgt rcs f src (S "@pkg/lib") = Found (Pn ["project"; "packages"; "lib.lua"]) /\
  find_require cur rcs f src (S "vendor/lib") = Found (Pn ["project"; "vendor"; "lib.lua"]) /\
  generate_require tgt src (Pn ["project"; "packages"; "lib.lua"]) = S "../packages/lib" /\
  find_require tgt rcs f src (S "../packages/lib") = Found (Pn ["project"; "packages"; "lib.lua"]) /\
  generate_require tgt src (Pn ["project"; "vendor"; "lib.lua"]) = S "@vendor/lib".
Proof. vm_compute. repeat split; reflexivity. Qed.

(** a target source/alias whose value is exactly the resolved FILE

    [generate_path] writes the alias name alone ([skip(count)] leaves nothing); [strip_target] looks
    at the GENERATED path (the alias name), not at the resolved file, so nothing is popped even when
    the file is a module-folder file; the target mode then finds the file as candidate 0 of itself.
    No "unambiguous" hypothesis is needed: the file only has to exist. *)
Theorem convert_keeps_target_file_alias :
  forall (tgt : config) (rcs : rc_files) (f : fs) (src t : path) (name : bytes),
    simple t = true -> t <> [] ->
    (* the longest target alias that contains the file is the file itself *)
    best_alias (project_location tgt src) t (c_sources tgt) None = Some (name, t) ->
    (* the alias name is an ordinary name that [strip_target] leaves alone *)
    wf_name name = true ->
    is_module_folder_name tgt [Norm name] = false -> is_lua_ext (name_ext name) = false ->
    (* under the target mode the alias name alone designates the file *)
    head_path tgt (rc_aliases tgt rcs src) src [Norm name] = inl t ->
    is_file f t = true ->
    generate_require tgt src t = name /\
    find_require tgt rcs f src (generate_require tgt src t) = Found t.
Proof.
  intros tgt rcs f src t name Ht Hne Hbest Hwf Hmfn Hext Hhead Hfile.
  assert (Hgen : strip_target tgt (generate_path tgt src t) = [Norm name]).
  { unfold generate_path.
    rewrite (simple_not_relative t Ht), (normalize_simple false t Ht), Hbest.
    rewrite skipn_all, parse_path_wf_name by exact Hwf.
    unfold extend. cbn [fold_left].
    unfold strip_target. rewrite Hmfn.
    change (extension [Norm name]) with (name_ext name). rewrite Hext. reflexivity. }
  unfold generate_require. rewrite Hgen. change (write_require_path [Norm name]) with name.
  split; [reflexivity|].
  unfold find_require. rewrite parse_path_wf_name by exact Hwf.
  rewrite (normalize_simple true [Norm name]) by reflexivity.
  unfold find_require_path. rewrite Hhead. unfold locate.
  rewrite (normalize_simple true t Ht).
  unfold candidates. cbn [first_file]. rewrite Hfile. rewrite (normalize_simple true t Ht). reflexivity.
Qed.

(** [sources: { "@value": "src/value/init.luau" }] (a module-folder file), both target modes; the
    require reaches the file through another spelling *)
Example convert_keeps_target_file_alias_instance :
  let srcs := [(S "@value", Pn ["src"; "value"; "init.luau"]); (S "@vdir", Pn ["src"; "value"])] in
  let pm := {| c_luau := false; c_mfn := S "init"; c_sources := srcs; c_project := Some []; c_use_rc := false |} in
  let lm := {| c_luau := true; c_mfn := S "init"; c_sources := srcs; c_project := Some []; c_use_rc := false |} in
  let f := mk_fs [Pn ["src"; "a.lua"]; Pn ["src"; "value"; "init.luau"]; Pn ["src"; "value.luau"]] in
  let src := Pn ["src"; "a.lua"] in
  let t := Pn ["src"; "value"; "init.luau"] in
  find_require lm [] f src (S "./value/init") = Found t /\
  best_alias (project_location pm src) t (c_sources pm) None = Some (S "@value", t) /\
  wf_name (S "@value") = true /\ is_module_folder_name pm [Norm (S "@value")] = false /\
  head_path pm None src [Norm (S "@value")] = inl t /\ head_path lm None src [Norm (S "@value")] = inl t /\
  is_file f t = true /\
  generate_require pm src t = S "@value" /\ generate_require lm src t = S "@value" /\
  find_require pm [] f src (S "@value") = Found t /\ find_require lm [] f src (S "@value") = Found t.
Proof. vm_compute. repeat split; reflexivity. Qed.

(** the nearest [.luaurc] is used even when it declares no aliases: [.luaurc] {lib -> vendorA},
    [src/.luaurc] without aliases, configured [@lib -> vendorB]: [require("@lib/x")] in
    [src/main.luau] is [vendorB/x.lua] in both modes, and luau -> path writes [../vendorB/x] *)
Example nearest_luaurc_without_aliases :
  let lm := {| c_luau := true; c_mfn := S "init"; c_sources := [(S "@lib", Pn ["vendorB"])];
               c_project := Some []; c_use_rc := true |} in
  let pm := {| c_luau := false; c_mfn := S "init"; c_sources := []; c_project := Some []; c_use_rc := true |} in
  let pm' := {| c_luau := false; c_mfn := S "init"; c_sources := [(S "@lib", Pn ["vendorB"])]; c_project := Some []; c_use_rc := true |} in
  let rcs : rc_files := [([], [(S "lib", Pn ["vendorA"])]); (Pn ["src"], [])] in
  let f := mk_fs [Pn ["src"; "main.luau"]; Pn [".luaurc"]; Pn ["src"; ".luaurc"]; Pn ["vendorA"; "x.lua"]; Pn ["vendorB"; "x.lua"]] in
  let src := Pn ["src"; "main.luau"] in
  first_rc rcs (ancestors src) = Some (Pn ["src"], []) /\
  find_require lm rcs f src (S "@lib/x") = Found (Pn ["vendorB"; "x.lua"]) /\
  find_require pm' rcs f src (S "@lib/x") = Found (Pn ["vendorB"; "x.lua"]) /\
  find_require pm rcs f src (S "@lib/x") = Failed EUnknownSource /\
  generate_require pm src (Pn ["vendorB"; "x.lua"]) = S "../vendorB/x" /\
  find_require lm rcs f (Pn ["main.luau"]) (S "@lib/x") = Found (Pn ["vendorA"; "x.lua"]).
Proof. vm_compute. repeat split; reflexivity. Qed.
