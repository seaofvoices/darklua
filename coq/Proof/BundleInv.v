(** Bundler model (Model/Bundle.v): the structural invariant of the state (cache and definitions
    agree, every file is defined at most once, every definition is the processed body of its
    file, a call site is left alone only when an error was pushed), by induction on derivations. *)
From Coq Require Import NArith Arith PeanoNat List Bool Lia.
From DL Require Import Lib.Bytes Model.Rename Model.Bundle Proof.BundleSpec Proof.BundleBasics
  Proof.BundleRel.
From DL Require Import Proof.ListFacts.
Import ListNotations.
Open Scope N_scope.

Section Inv.
Variable g : graph.

(** [site_ok] as it holds while errors may still come: a replaced site points below [k] at the
    definition of the file it resolves to; a site is left alone only in a state with errors *)
Definition wsite (s : state) (k : nat) (r : req) (x : site) : Prop :=
  match x with
  | None => errors s <> []
  | Some j => (j < k)%nat /\ site_ok (defs s) r x
  end.

Definition entry_ok (s : state) (k : nat) (f : file) (sites : list site) : Prop :=
  match lookup g f with
  | Some KData => sites = []
  | Some (KLua reqs (Some 1%nat)) => Forall2 (wsite s k) reqs sites
  | _ => False
  end.

Record Good (s : state) : Prop := mkGood {
  G_hit : forall f k, cache_get (cache s) f = Some k -> nth_error (map fst (defs s)) k = Some f;
  G_miss : forall f, cache_get (cache s) f = None -> ~ In f (map fst (defs s));
  G_nodup : NoDup (map fst (defs s));
  G_skip : skip s <> [] -> errors s <> [];
  G_entry : forall k f sites, nth_error (defs s) k = Some (f, sites) -> entry_ok s k f sites
}.

Lemma wsite_grows s s' k k' r x : grows s s' -> (k <= k')%nat -> wsite s k r x -> wsite s' k' r x.
Proof.
  intros Gr L. destruct x as [j|]; cbn [wsite]; [|now apply grows_errors_nonempty].
  intros [Lj S]. split; [lia|]. destruct r as [f|lit]; [|exact S]. now apply (grows_nth_fst s).
Qed.

Lemma entry_ok_grows s s' k f sites : grows s s' -> entry_ok s k f sites -> entry_ok s' k f sites.
Proof.
  intros Gr. unfold entry_ok. destruct (lookup g f) as [[reqs [[|[|n]]|]| |]|]; auto.
  apply Forall2_weaken. intros r x. now apply wsite_grows.
Qed.

Lemma push_nonempty e s : errors (push_error e s) <> [].
Proof. cbn. destruct (errors s); discriminate. Qed.

Lemma Good_init : Good init.
Proof.
  constructor; cbn; [discriminate|tauto|constructor|tauto|]. intros [|k]; discriminate.
Qed.

Lemma Good_push e s : Good s -> Good (push_error e s).
Proof.
  intros [H1 H2 H3 H4 H5]. constructor; cbn [push_error cache skip defs]; auto.
  - intros _. apply push_nonempty.
  - intros k f sites H. eapply entry_ok_grows; [apply grows_push|now apply H5].
Qed.

Lemma Good_skip_push f e s : Good s -> Good (add_skip f (push_error e s)).
Proof.
  intros G. destruct (Good_push e s G) as [H1 H2 H3 H4 H5]. constructor; auto.
  intros _. apply push_nonempty.
Qed.

Lemma define_nth f sites s :
  nth_error (map fst (defs (fst (define f sites s)))) (List.length (defs s)) = Some f.
Proof.
  cbn [define fst defs]. rewrite map_app, <- (map_length fst). apply nth_error_snoc_len.
Qed.

Lemma Good_define f sites s :
  Good s -> ~ In f (map fst (defs s)) -> entry_ok s (List.length (defs s)) f sites ->
  Good (fst (define f sites s)).
Proof.
  intros [H1 H2 H3 H4 H5] NI EO.
  assert (Gr : grows s (fst (define f sites s))) by apply grows_define.
  constructor; cbn [define fst cache skip defs errors].
  - intros f' k. cbn [cache_get]. destruct (N.eqb_spec f f') as [<-|NE].
    + intros [= <-]. apply define_nth.
    + intros H. apply (grows_nth_fst s _ _ _ Gr). now apply H1.
  - intros f'. cbn [cache_get]. destruct (N.eqb_spec f f') as [<-|NE]; [discriminate|].
    intros H. rewrite map_app. intros C. apply in_app_or in C as [C|[C|[]]].
    + now apply (H2 f').
    + now apply NE.
  - rewrite map_app. now apply NoDup_snoc.
  - exact H4.
  - intros k f' sites' H. apply (entry_ok_grows s _ _ _ _ Gr).
    apply nth_error_snoc_inv in H as [H|[-> [= -> ->]]]; [now apply H5|exact EO].
Qed.

(** files on the require stack are not defined by what runs below them *)
Definition frame (stack : list file) (s s' : state) : Prop :=
  forall x, In x stack -> In x (map fst (defs s')) -> In x (map fst (defs s)).

Lemma frame_trans stack s1 s2 s3 : frame stack s1 s2 -> frame stack s2 s3 -> frame stack s1 s3.
Proof. intros A B x Hx H. apply A; [exact Hx|]. now apply B. Qed.

Lemma frame_define stack f sites s0 s :
  index_of f stack = None -> frame (stack ++ [f]) s0 s -> frame stack s0 (fst (define f sites s)).
Proof.
  intros NI F x Hx H. cbn [define fst defs] in H. rewrite map_app in H.
  apply in_app_or in H as [H|[H|[]]].
  - apply F; [apply in_or_app; now left|exact H].
  - cbn in H. subst x. now apply index_of_none in NI.
Qed.

Lemma Inl_Vis_frame :
  (forall stack f s s' r, Inl g stack f s s' r -> frame stack s s') /\
  (forall stack rs s s' xs, Vis g stack rs s s' xs -> frame stack s s').
Proof.
  assert (R : forall stack s, frame stack s s) by (intros stack s x _ Hx; exact Hx).
  apply Inl_Vis_ind; auto.
  - (* data *) intros stack f s _ Hi _. now apply frame_define.
  - (* lua *) intros stack f s reqs s1 sites _ Hi _ _ IH. now apply frame_define.
  - (* module *) intros stack f s reqs ret s1 sites _ _ _ _ _ IH x Hx.
    apply IH. apply in_or_app. now left.
  - (* inl *) intros stack f rest s s1 k s' xs _ _ IH1 _ IH2. now apply (frame_trans _ _ s1).
  - (* inr *) intros stack f rest s s1 e s' xs _ _ IH1 _ IH2. now apply (frame_trans _ _ s1).
Qed.

Lemma Inl_cached stack f s s' k : Inl g stack f s s' (inl k) -> cache_get (cache s') f = Some k.
Proof.
  inversion 1; subst; [assumption| |]; cbn [define fst cache cache_get]; now rewrite N.eqb_refl.
Qed.

Lemma Inl_Vis_good :
  (forall stack f s s' r, Inl g stack f s s' r -> Good s -> Good s') /\
  (forall stack rs s s' xs, Vis g stack rs s s' xs -> Good s ->
     Good s' /\ Forall2 (wsite s' (List.length (defs s'))) rs xs).
Proof.
  apply Inl_Vis_ind; try (intros; assumption).
  - (* data *) intros stack f s Hc Hi Hl G.
    apply Good_define; [exact G|now apply (G_miss s G)|]. unfold entry_ok. now rewrite Hl.
  - (* lua: [f] is on the stack while its call sites are processed, so it is still undefined *)
    intros stack f s reqs s1 sites Hc Hi Hl HV IH G. destruct (IH G) as [G1 W1].
    apply Good_define; [exact G1| |unfold entry_ok; now rewrite Hl].
    intros C. apply (G_miss s G f Hc). apply (proj2 Inl_Vis_frame _ _ _ _ _ HV); [|exact C].
    apply in_or_app. right. now left.
  - (* module *) intros stack f s reqs ret s1 sites Hc Hi Hl Hr HV IH G. now apply IH.
  - (* nil *) intros stack s G. split; [exact G|constructor].
  - (* notfound *) intros stack lit rest s s' xs HV IH G.
    destruct (IH (Good_push _ _ G)) as [G' W']. split; [exact G'|]. constructor; [|exact W'].
    eapply grows_errors_nonempty; [eapply Vis_grows; exact HV|apply push_nonempty].
  - (* skip *) intros stack f rest s s' xs Hm HV IH G.
    destruct (IH G) as [G' W']. split; [exact G'|]. constructor; [|exact W'].
    eapply grows_errors_nonempty; [eapply Vis_grows; exact HV|].
    apply (G_skip s G). eapply memf_true; exact Hm.
  - (* inl *) intros stack f rest s s1 k s' xs Hm HI IH1 HV IH2 G.
    destruct (IH2 (IH1 G)) as [G' W']. split; [exact G'|]. constructor; [|exact W'].
    assert (Nk : nth_error (map fst (defs s')) k = Some f).
    { eapply grows_nth_fst; [eapply Vis_grows; exact HV|].
      apply (G_hit s1 (IH1 G)). eapply Inl_cached; exact HI. }
    split; [|exact Nk]. rewrite <- (map_length fst). apply nth_error_Some. congruence.
  - (* inr *) intros stack f rest s s1 e s' xs Hm HI IH1 HV IH2 G.
    destruct (IH2 (Good_skip_push _ _ _ (IH1 G))) as [G' W']. split; [exact G'|].
    constructor; [|exact W'].
    eapply grows_errors_nonempty; [eapply Vis_grows; exact HV|apply push_nonempty].
Qed.

Definition Vis_good := proj2 Inl_Vis_good.

Lemma wsite_strong s k rs xs :
  Forall2 (wsite s k) rs xs -> errors s = [] ->
  Forall2 (site_ok (defs s)) rs xs /\ (forall j, In (Some j) xs -> (j < k)%nat).
Proof.
  intros F E. induction F as [|r x rs xs H F [A B]]; [split; [constructor|intros j []]|].
  destruct x as [j|]; [|contradiction]. destruct H as [L S]. split; [now constructor|].
  intros j' [[= <-]|C]; [exact L|now apply B].
Qed.

(** a definition refers only to earlier ones: what rules out a cycle among the defined files *)
Definition ranked (ms : list (file * list site)) : Prop :=
  forall k f sites, nth_error ms k = Some (f, sites) -> forall j, In (Some j) sites -> (j < k)%nat.

Lemma Good_defs_ok s : Good s -> errors s = [] -> defs_ok g (defs s) /\ ranked (defs s).
Proof.
  intros G E.
  assert (A : forall k f sites, nth_error (defs s) k = Some (f, sites) ->
            match lookup g f with
            | Some KData => sites = []
            | Some (KLua reqs (Some 1%nat)) => Forall2 (site_ok (defs s)) reqs sites
            | _ => False
            end /\ forall j, In (Some j) sites -> (j < k)%nat).
  { intros k f sites H. pose proof (G_entry s G k f sites H) as B. unfold entry_ok in B.
    destruct (lookup g f) as [[reqs [[|[|n]]|]| |]|]; try contradiction.
    - now apply wsite_strong.
    - subst sites. split; [reflexivity|intros j []]. }
  split.
  - intros f sites H. apply In_nth_error in H as [k H]. exact (proj1 (A k f sites H)).
  - intros k f sites H. exact (proj2 (A k f sites H)).
Qed.

End Inv.
