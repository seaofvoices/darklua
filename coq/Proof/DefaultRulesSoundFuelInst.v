(** The trailing-[nil] case of remove_nil_declaration ([nil_decl_trailing_sound_all]) on a concrete
    declaration. *)
From Coq Require Import ZArith NArith List Bool String Lia.
From DL Require Import Lib.Bytes Lib.F64 Lua.Syntax Lua.Sem Model.Evaluator Model.DefaultRules.
Import ListNotations.
Open Scope N_scope.

(** [local a, b = ext_f(), nil]: the kept value may yield several values and is parenthesised *)
Example nil_decl_trailing_example :
  let xs := [Param (of_string "a") None; Param (of_string "b") None] in
  let es := [ECall (EIdent (of_string "ext_f")) None (ATuple [])] in
  let st := SLocal false xs (es ++ repeat ENil 1) in
  let s := initial_store [[ONum 1; ONum 2]] in
  rw_nil_declaration st = SLocal false xs [EParen (ECall (EIdent (of_string "ext_f")) None (ATuple []))] /\
  exists s', exec_stmt L51 20 [] [] st s = Ok ([(of_string "b", 1); (of_string "a", 0)], SigNone) s' /\
             exec_stmt L51 20 [] [] (rw_nil_declaration st) s = Ok ([(of_string "b", 1); (of_string "a", 0)], SigNone) s'.
Proof. cbv zeta. split; [reflexivity|]. eexists. split; vm_compute; reflexivity. Qed.
