(** C01, block-level rewrites that need no static evaluation:
    filter_after_early_return ([early_return_sound]), remove_empty_do ([empty_do_sound*]),
    remove_method_definition ([method_def_*_sound]), remove_nil_declaration when every value is a
    literal [nil] ([nil_decl_partial], [nil_decl_single_sound]) and what the rule answers on trailing
    [nil]s. *)
From Coq Require Import ZArith NArith List Bool String Lia.
From DL Require Import Lib.Bytes Lib.F64 Lua.Syntax Lua.Sem Model.Evaluator Model.DefaultRules
  Proof.SemFacts Proof.DefaultRulesSem.
Import ListNotations.
Open Scope N_scope.

Section Block.
Variable d : dialect.

Definition never_none (n : nat) : Prop :=
  forall st rho va s rho' sg s',
    stmt_returns st = true -> exec_stmt d n rho va st s = Ok (rho', sg) s' -> sg <> SigNone.

Lemma stmts_none_inv k :
  (forall m, (m < k)%nat -> never_none m) ->
  forall ss rho va last s s',
    exec_stmts d k rho va ss last s = Ok SigNone s' ->
    existsb stmt_returns ss = false /\ (forall es, last <> Some (LReturn es)).
Proof.
  intros IH ss. revert k IH.
  induction ss as [|st rest IHss]; intros k IH rho va last s s' H; fuel_S k H.
  - rewrite exec_stmts_S_nil in H. split; [reflexivity|]. intros es E. subst last.
    inv_ok H. discriminate.
  - rewrite exec_stmts_S_cons in H. apply bind_ok in H as ([rho1 sg1] & s1 & H1 & H2).
    cbn [stmts_cont] in H2. destruct sg1; try (inv_ok H2; discriminate).
    cbn [existsb]. destruct (stmt_returns st) eqn:Er.
    + exfalso. eapply (IH k); eauto.
    + cbn [orb]. eapply IHss; [|exact H2]. intros m Hm. apply IH. lia.
Qed.

Lemma never_none_all : forall n, never_none n.
Proof.
  induction n as [n IH] using lt_wf_ind.
  intros st rho va s rho' sg s' Hr H.
  destruct st; try discriminate Hr. destruct b as [ss last].
  fuel_S n H. rewrite exec_stmt_S_do in H. inv_ok H.
  inversion E; subst; clear E. intros ->.
  fuel_S n H0. rewrite exec_block_S in H0.
  apply stmts_none_inv in H0 as [A B].
  - cbn [stmt_returns] in Hr. destruct last as [[| |es]|]; try discriminate Hr.
    + exact (B es eq_refl).
    + congruence.
  - intros m Hm. apply IH. lia.
Qed.

(** the statements after a statement that always returns, and the block's last statement,
    are never reached: the two runs coincide for every outcome (value, error, out of fuel) *)
Theorem early_return_stmts : forall pre st rest last n rho va s,
  stmt_returns st = true ->
  exec_stmts d n rho va (pre ++ st :: rest) last s = exec_stmts d n rho va (pre ++ [st]) None s.
Proof.
  induction pre as [|x pre IH]; intros st rest last n rho va s Hr;
    (destruct n as [|n]; [autorewrite with fuel0; reflexivity|]);
    cbn [app]; rewrite !exec_stmts_S_cons; apply bind_eq; intros [rho1 sg1] s1 H1; cbn [stmts_cont].
  - destruct sg1; try reflexivity. exfalso. eapply never_none_all; eauto.
  - destruct sg1; try reflexivity. apply IH. exact Hr.
Qed.

Lemma search_remove_after_spec ss i :
  search_remove_after ss = Some i ->
  exists pre st rest, ss = pre ++ st :: rest /\ stmt_returns st = true /\ firstn (S i) ss = pre ++ [st].
Proof.
  revert i; induction ss as [|x ss IH]; intros i H; [discriminate|].
  cbn [search_remove_after] in H. destruct (stmt_returns x) eqn:E.
  - inversion H; subst. exists [], x, ss. auto.
  - destruct (search_remove_after ss) as [j|]; [|discriminate]. inversion H; subst.
    destruct (IH j eq_refl) as (pre & st & rest & -> & Hs & Hf).
    exists (x :: pre), st, rest. repeat split; auto.
    change (firstn (S (S j)) (x :: pre ++ st :: rest)) with (x :: firstn (S j) (pre ++ st :: rest)).
    rewrite Hf. reflexivity.
Qed.

(** the rule's rewrite of a block ([Processor::process_block]) leaves the run of the block
    unchanged, at the same fuel, for every outcome *)
Theorem early_return_sound : forall b n rho va s,
  exec_block d n rho va (rw_early_return b) s = exec_block d n rho va b s.
Proof.
  intros [ss last] n rho va s. unfold rw_early_return.
  destruct (search_remove_after ss) as [i|] eqn:E; [|reflexivity].
  destruct (search_remove_after_spec _ _ E) as (pre & st & rest & -> & Hs & Hf). rewrite Hf.
  destruct n as [|n]; [autorewrite with fuel0; reflexivity|].
  rewrite !exec_block_S. symmetry. now apply early_return_stmts.
Qed.

Theorem empty_do_stmt_sound : forall n rho va s r s',
  exec_stmt d n rho va (SDo (Block [] None)) s = Ok r s' -> r = (rho, SigNone) /\ s' = s.
Proof.
  intros n rho va s r s' H.
  fuel_S n H. rewrite exec_stmt_S_do in H. inv_ok H.
  fuel_S n H0. rewrite exec_block_S in H0.
  fuel_S n H0. rewrite exec_stmts_S_nil in H0. inv_ok H0. subst. auto.
Qed.

Lemma empty_do_stmt_run n rho va s :
  exec_stmt d (S (S (S n))) rho va (SDo (Block [] None)) s = Ok (rho, SigNone) s.
Proof. rewrite exec_stmt_S_do, exec_block_S, exec_stmts_S_nil. reflexivity. Qed.

Theorem empty_do_head_sound : forall n rho va rest last s,
  exec_stmts d (S (S (S (S n)))) rho va (SDo (Block [] None) :: rest) last s =
  exec_stmts d (S (S (S n))) rho va rest last s.
Proof.
  intros. rewrite exec_stmts_S_cons. unfold bind. rewrite empty_do_stmt_run. reflexivity.
Qed.

(** whenever the list with the empty [do end] completes (or fails with a Lua error), so does
    the list without it when it stands first *)
Theorem empty_do_sound : forall n rho va rest last s r,
  exec_stmts d n rho va (SDo (Block [] None) :: rest) last s = r -> r <> Fuel ->
  exists n', exec_stmts d n' rho va rest last s = r.
Proof.
  intros n rho va rest last s r H Hf.
  do 4 (destruct n as [|n]; [subst r; exfalso; apply Hf; reflexivity|]).
  exists (S (S (S n))). rewrite <- H. symmetry. apply empty_do_head_sound.
Qed.

(** [function base.fields:m(ps) body end] and [function base.fields.m(self, ps) body end]
    run the same code after allocating their closure records ... *)
Theorem method_def_stmt_sound : forall n rho va base fields m f,
  exec_stmt d (S n) rho va (SFunction base fields (Some m) f) =
  (c <- new_closure (mkClosure f rho true) ;; sfunction_store d n rho va base (fields ++ [m]) c) /\
  exec_stmt d (S n) rho va (rw_method_def (SFunction base fields (Some m) f)) =
  (c <- new_closure (mkClosure (add_self f) rho false) ;; sfunction_store d n rho va base (fields ++ [m]) c).
Proof.
  intros. split.
  - apply exec_stmt_S_function.
  - cbn [rw_method_def]. rewrite exec_stmt_S_function. rewrite app_nil_r. reflexivity.
Qed.

(** ... and the two closure records are indistinguishable by [call] (the only consumer of
    closure records): same effective parameters, variadic flag, body, captured environment *)
Theorem method_def_closure_sound : forall f rho,
  let c1 := mkClosure f rho true in
  let c2 := mkClosure (add_self f) rho false in
  effective_params c1 = effective_params c2 /\ closure_variadic c1 = closure_variadic c2 /\
  closure_block c1 = closure_block c2 /\ c_env c1 = c_env c2.
Proof. intros [ps v vt rt g at_ body] rho. cbv zeta. repeat split. Qed.

Theorem method_def_call_sound : forall n a args s1 s2 f rho,
  get_closure a s1 = Ok (mkClosure f rho true) s1 ->
  get_closure a s2 = Ok (mkClosure (add_self f) rho false) s2 ->
  call d (S n) (VClosure a) args s1 =
    call_closure d n (effective_params (mkClosure f rho true)) (closure_variadic (mkClosure f rho true))
                 (closure_block (mkClosure f rho true)) rho args s1 /\
  call d (S n) (VClosure a) args s2 =
    call_closure d n (effective_params (mkClosure f rho true)) (closure_variadic (mkClosure f rho true))
                 (closure_block (mkClosure f rho true)) rho args s2.
Proof.
  intros n a args s1 s2 f rho H1 H2. rewrite !call_S_closure. unfold bind. rewrite H1, H2.
  destruct (method_def_closure_sound f rho) as (E1 & E2 & E3 & E4). cbv zeta in *.
  rewrite <- E1, <- E2, <- E3. split; reflexivity.
Qed.

(** every variable is initialised with a literal [nil]: [local a, b = nil, nil] and
    [local a, b] (the variables keep their order, so the same cells are bound to the same
    names).  The general case, in which the variables of the [nil] values move behind the
    others ([local a, b = nil, e] becomes [local b, a = e]), permutes the fresh cells and is
    not covered: PARTIAL. *)
Lemma eval_list_nils : forall k n rho va s vs s',
  eval_list d n rho va (repeat ENil k) s = Ok vs s' -> vs = repeat VNil k /\ s' = s.
Proof.
  induction k as [|k IH]; intros n rho va s vs s' H; fuel_S n H.
  - cbn [repeat] in H. rewrite eval_list_S_nil in H. inv_ok H. subst; auto.
  - cbn [repeat] in H. destruct k as [|k].
    + cbn [repeat] in H. rewrite eval_list_S_one in H.
      fuel_S n H. rewrite eval_S_nil in H. inv_ok H. subst; auto.
    + change (repeat ENil (S k)) with (ENil :: repeat ENil k) in H. rewrite eval_list_S_cons in H.
      apply bind_ok in H as (v & s1 & Hv & H). apply bind_ok in H as (ws & s2 & Hw & H). inv_ok H. subst.
      apply IH in Hw as [-> ->].
      apply eval1_inv in Hv as (m & xs & -> & Hv & ->).
      fuel_S m Hv. rewrite eval_S_nil in Hv. inv_ok Hv. subst. auto.
Qed.

Lemma local_go_padding : forall xs ws k acc s,
  local_go xs (ws ++ repeat VNil k) acc s = local_go xs ws acc s.
Proof.
  induction xs as [|x xs IH]; intros ws k acc s; [reflexivity|]. cbn [local_go].
  destruct ws as [|w ws].
  - cbn [app]. assert (arg (repeat VNil k) 0 = arg [] 0) as -> by (destruct k; reflexivity).
    apply bind_eq. intros a s1 _. destruct k as [|k]; [reflexivity|]. cbn [repeat tl].
    apply (IH [] k).
  - cbn [app tl]. change (arg (w :: ws ++ repeat VNil k) 0) with (arg (w :: ws) 0).
    apply bind_eq. intros a s1 _. apply IH.
Qed.

(** what the rule answers on [local xs = es, nil, ..., nil] ([k >= 1] literal [nil]s behind the
    other values, as many values as variables): the [nil]s go, the last kept value is
    parenthesised when it may yield several values *)
Lemma split_vars_nils : forall xs, split_vars xs (repeat ENil (List.length xs)) = ([], xs).
Proof. induction xs as [|x xs IH]; [reflexivity|]. cbn [List.length repeat split_vars]. rewrite IH. reflexivity. Qed.

Lemma split_vars_trailing : forall es xs k,
  List.length xs = (List.length es + k)%nat -> forallb (fun e => negb (is_nil e)) es = true ->
  split_vars xs (es ++ repeat ENil k) = (firstn (List.length es) xs, skipn (List.length es) xs).
Proof.
  induction es as [|e es IH]; intros xs k Hl Hn.
  - cbn [app List.length firstn skipn plus] in *. rewrite <- Hl. apply split_vars_nils.
  - destruct xs as [|x xs]; [discriminate|]. cbn [forallb] in Hn. apply andb_true_iff in Hn as [He Hn].
    cbn [app split_vars List.length firstn skipn]. rewrite (IH xs k) by (auto; cbn in Hl; lia).
    destruct (is_nil e); [discriminate|]. reflexivity.
Qed.

Lemma filter_trailing : forall es k, forallb (fun e => negb (is_nil e)) es = true ->
  filter (fun e => negb (is_nil e)) (es ++ repeat ENil k) = es.
Proof.
  induction es as [|e es IH]; intros k Hn; cbn [app].
  - induction k; [reflexivity|assumption].
  - cbn [forallb] in Hn. apply andb_true_iff in Hn as [He Hn]. cbn [filter]. rewrite He, IH; auto.
Qed.

Lemma rw_nil_declaration_trailing xs es k :
  (1 <= k)%nat -> List.length xs = (List.length es + k)%nat ->
  forallb (fun e => negb (is_nil e)) es = true -> names_distinct (map param_name xs) = true ->
  rw_nil_declaration (SLocal false xs (es ++ repeat ENil k)) = SLocal false xs (map_last paren_if_multi es).
Proof.
  intros Hk Hl Hn Hd. unfold rw_nil_declaration.
  assert (List.length (es ++ repeat ENil k) = List.length xs) as Hlen.
  { rewrite app_length, repeat_length. lia. }
  assert (firstn (List.length xs) (es ++ repeat ENil k)
          ++ filter hse (skipn (List.length xs) (es ++ repeat ENil k)) = es ++ repeat ENil k) as ->.
  { rewrite firstn_all2 by lia. rewrite skipn_all2 by lia. apply app_nil_r. }
  rewrite Hlen, Nat.ltb_irrefl, Hd. cbn [andb negb].
  assert (existsb is_nil (es ++ repeat ENil k) = true) as ->.
  { rewrite existsb_app. destruct k; [lia|]. cbn. apply orb_true_r. }
  cbn [negb]. rewrite (split_vars_trailing _ _ _ Hl Hn), (filter_trailing _ _ Hn), firstn_skipn. reflexivity.
Qed.

Theorem nil_decl_partial : forall xs n rho va s r s',
  xs <> [] -> names_distinct (map param_name xs) = true ->
  exec_stmt d n rho va (SLocal false xs (repeat ENil (List.length xs))) s = Ok r s' ->
  exec_stmt d n rho va (rw_nil_declaration (SLocal false xs (repeat ENil (List.length xs)))) s = Ok r s'.
Proof.
  intros xs n rho va s r s' Hne Hd H.
  assert (rw_nil_declaration (SLocal false xs (repeat ENil (List.length xs))) = SLocal false xs []) as ->.
  { apply (rw_nil_declaration_trailing xs [] (List.length xs)); auto. destruct xs; [congruence|cbn; lia]. }
  fuel_S n H. rewrite exec_stmt_S_local in H. rewrite exec_stmt_S_local.
  apply bind_ok in H as (vs & s1 & Hv & H).
  fuel_S n Hv. rewrite eval_list_S_nil, bind_ret_l.
  apply eval_list_nils in Hv as [-> ->].
  unfold bind in *. rewrite <- (local_go_padding xs [] (List.length xs)). exact H.
Qed.

Theorem nil_decl_single_sound : forall n rho va x s r s',
  exec_stmt d n rho va (SLocal false [x] [ENil]) s = Ok r s' ->
  rw_nil_declaration (SLocal false [x] [ENil]) = SLocal false [x] [] /\
  exec_stmt d n rho va (SLocal false [x] []) s = Ok r s'.
Proof.
  intros n rho va x s r s' H. split; [reflexivity|].
  assert ([x] <> []) as Hne by discriminate. exact (nil_decl_partial [x] n rho va s r s' Hne eq_refl H).
Qed.

End Block.

(** The rewrites fire on concrete programs, which run. *)

Definition sident (x : string) : expr := EIdent (of_string x).
Definition scall0 (f : string) : stmt := SCall (ECall (sident f) None (ATuple [])).
Definition snum (z : Z) : expr := ENumber (NDec (to_bits (of_Z z)) None).

(** [ext_a() do do return 1 end end ext_b() return 2] *)
Example early_return_example :
  let b := Block [scall0 "ext_a"; SDo (Block [SDo (Block [] (Some (LReturn [snum 1])))] None); scall0 "ext_b"]
                 (Some (LReturn [snum 2])) in
  let s := initial_store [] in
  rw_early_return b = Block [scall0 "ext_a"; SDo (Block [SDo (Block [] (Some (LReturn [snum 1])))] None)] None /\
  exists s', exec_block L51 20 [] [] b s = Ok (SigReturn [VNum (of_Z 1)]) s' /\
             exec_block L51 20 [] [] (rw_early_return b) s = Ok (SigReturn [VNum (of_Z 1)]) s' /\
             trace s' = [EvCall (of_string "ext_a") []].
Proof. cbv zeta. split; [reflexivity|]. eexists. repeat split; vm_compute; reflexivity. Qed.

(** [do end ext_a()] *)
Example empty_do_example :
  let b := Block [SDo (Block [] None); scall0 "ext_a"] None in
  let s := initial_store [] in
  rw_empty_do b = Block [scall0 "ext_a"] None /\
  exists s', exec_block L51 20 [] [] b s = Ok SigNone s' /\
             exec_block L51 19 [] [] (rw_empty_do b) s = Ok SigNone s'.
Proof. cbv zeta. split; [reflexivity|]. eexists. split; vm_compute; reflexivity. Qed.

(** [local t = {} function t:m(a) return self, a end return t:m(5)] and its rewriting
    [function t.m(self, a) ...] return the same values *)
Example method_def_example :
  let f := FBody [Param (of_string "a") None] false None None None 0
                 (Block [] (Some (LReturn [sident "self"; sident "a"]))) in
  let prog st := Block [SLocal false [Param (of_string "t") None] [ETable []]; st]
                       (Some (LReturn [ECall (sident "t") (Some (of_string "m")) (ATuple [snum 5])])) in
  let st := SFunction (of_string "t") [] (Some (of_string "m")) f in
  let s := initial_store [] in
  rw_method_def st = SFunction (of_string "t") [of_string "m"] None (add_self f) /\
  exists s1 s2 a, exec_block L51 30 [] [] (prog st) s = Ok (SigReturn [VTable a; VNum (of_Z 5)]) s1 /\
                  exec_block L51 30 [] [] (prog (rw_method_def st)) s = Ok (SigReturn [VTable a; VNum (of_Z 5)]) s2.
Proof. cbv zeta. split; [reflexivity|]. do 3 eexists. split; vm_compute; reflexivity. Qed.

Example nil_decl_example :
  let st := SLocal false [Param (of_string "a") None] [ENil] in
  let s := initial_store [] in
  exists s', exec_stmt L51 5 [] [] st s = Ok ([(of_string "a", 0)], SigNone) s' /\
             exec_stmt L51 5 [] [] (rw_nil_declaration st) s = Ok ([(of_string "a", 0)], SigNone) s'.
Proof. cbv zeta. eexists. split; vm_compute; reflexivity. Qed.
