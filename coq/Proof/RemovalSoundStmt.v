(** C17, statement position: what [RemoveFunctionCallProcessor::process_statement] leaves in place
    of a removed call statement.

    [assert(a1, ..., an)] / [debug.profilebegin(a1, ..., an)] as a STATEMENT becomes
    [expressions_as_statement (preserve_args (ATuple [a1..an]))]: the arguments with side effects
    are kept in order - as call statements when the argument is a call under parentheses / type
    casts ([inner_expr]), otherwise gathered into [local _ = v1, v2, ...].

    - [calls_as_statement_sound]: when every kept argument is a call, the statement evaluates the
      kept arguments once, in order, and ends in EXACTLY the store and environment they leave;
    - [removed_call_stmt_sound]: hence it does what the original statement does with the callee
      bound to a function that returns nothing / its arguments and leaves the store alone;
    - [assert_removal_sound], [profile_removal_sound]: the same on the hook [rc_stmt] of the model;
    - [local_underscore_sound]: a kept argument that is NOT a call is evaluated once, but the store
      gets one more cell and the environment a binding of [_];
      [local_underscore_shadows_refuted]: which is observable when [_] is a variable of the
      program (recorded finding). *)
From Coq Require Import ZArith NArith List Bool String Lia.
From DL Require Import Lib.Bytes Lib.F64 Lua.Syntax Lua.Sem Lua.EvalSpec.
From DL Require Import Model.Evaluator Model.Removal.
From DL Require Import Proof.SemFacts Proof.EvaluatorStore Proof.DefaultRulesSem Proof.RefactorSem.
From DL Require Import Proof.RemovalSoundValue.
Import ListNotations.
Open Scope N_scope.

Definition is_call (e : expr) : bool := match e with ECall _ _ _ => true | _ => false end.

(* Unfolding [eas_go] once on a variable tail leaves a term with a recursive call in every
   branch of its nested wildcard matches, which is dear to check.  On the way to
   [calls_as_statement_sound] the accumulator only ever holds call statements: with that shape the
   inner match on it computes and 19 branches remain. *)
Lemma eas_go_call cs v rest p m a :
  inner_expr v = ECall p m a ->
  eas_go (map SCall cs) (v :: rest) = eas_go (map SCall (ECall p m a :: cs)) rest.
Proof. intros H. destruct cs; cbn [eas_go map]; rewrite H; reflexivity. Qed.

Lemma eas_go_calls es : forall cs,
  Forall (fun e => is_call (inner_expr e) = true) es ->
  eas_go (map SCall cs) es = map SCall (rev cs ++ map inner_expr es).
Proof.
  induction es as [|e es IH]; intros cs Hf.
  - cbn [eas_go map]. rewrite app_nil_r, map_rev. reflexivity.
  - inversion Hf as [|? ? He Hes]; subst. cbn [map].
    destruct (inner_expr e) eqn:E; try discriminate He.
    rewrite (eas_go_call _ _ _ _ _ _ E), (IH _ Hes). cbn [rev]. rewrite <- app_assoc. reflexivity.
Qed.

Lemma eas_calls es :
  Forall (fun e => is_call (inner_expr e) = true) es -> eas_go [] es = map SCall (map inner_expr es).
Proof. exact (eas_go_calls es []). Qed.

(* by induction on [e], so that the tail [[]] lets every branch of [eas_go] compute *)
Lemma eas_single_noncall e :
  is_call (inner_expr e) = false ->
  expressions_as_statement [e] = SLocal false [Param nm_underscore None] [inner_expr e].
Proof.
  induction e; intros H; try discriminate H; try reflexivity; exact (IHe H).
Qed.

Lemma rc_stmt_matched M sc p a :
  m_matches M sc p = true ->
  rc_stmt M true sc (SCall (ECall p None a)) = expressions_as_statement (preserve_args a).
Proof. intros H. cbn [rc_stmt]. rewrite H. reflexivity. Qed.

Lemma assert_matches_assert sc : in_scope nm_assert sc = false -> assert_matches sc (EIdent nm_assert) = true.
Proof. intros H. unfold assert_matches. rewrite H. reflexivity. Qed.

Lemma profile_matches_debug sc f :
  in_scope nm_debug sc = false -> f = nm_profilebegin \/ f = nm_profileend ->
  profile_matches sc (EField (EIdent nm_debug) f) = true.
Proof. intros H Hf. unfold profile_matches. rewrite H. destruct Hf as [-> | ->]; reflexivity. Qed.

(** [function(...) return ... end] *)
Definition identity_body : fbody := FBody [] true None None None 0 (Block [] (Some (LReturn [EVarArgs]))).

Section Stmt.
Variable d : dialect.
Variable rho : env.
Variable va : list value.

(** parentheses and type casts only truncate *)
Lemma inner_expr_eval_first e : forall k s vs s1,
  eval d k rho va e s = Ok vs s1 ->
  exists k' vs', eval d k' rho va (inner_expr e) s = Ok vs' s1 /\ first vs' = first vs.
Proof.
  induction e; intros k st vs st1 H; cbn [inner_expr]; try (exists k, vs; split; [exact H|reflexivity]);
    fuel_S k H.
  - rewrite eval_S_paren in H. apply eval1_ret_inv in H as (k1 & vs1 & H & ->). exact (IHe _ _ _ _ H).
  - rewrite eval_S_typecast in H. apply eval1_ret_inv in H as (k1 & vs1 & H & ->). exact (IHe _ _ _ _ H).
Qed.

Lemma evals_in_order_inner es s s' :
  evals_in_order d rho va es s s' -> evals_in_order d rho va (map inner_expr es) s s'.
Proof.
  induction 1 as [s|e es s k vs s1 s' He Hes IH]; cbn [map].
  - constructor.
  - destruct (inner_expr_eval_first _ _ _ _ _ He) as (k' & vs' & He' & _).
    econstructor; [exact He'|exact IH].
Qed.

Lemma call_stmt_exec k e s vs s1 :
  eval d k rho va e s = Ok vs s1 ->
  forall j, (k + 1 <= j)%nat -> exec_stmt d j rho va (SCall e) s = Ok (rho, SigNone) s1.
Proof.
  intros H j L. destruct j as [|j]; [lia|]. rewrite exec_stmt_S_call.
  eapply bind_ok_intro; [eapply eval_up; [exact H|lia]|reflexivity].
Qed.

Lemma call_stmts_exec es s s' :
  evals_in_order d rho va es s s' ->
  exists m, forall j, (m <= j)%nat ->
    exec_stmts d j rho va (map SCall es) None s = Ok SigNone s'.
Proof.
  induction 1 as [s|e es s k vs s1 s' He Hes (m & IH)]; cbn [map].
  - exists 1%nat. intros j L. destruct j as [|j]; [lia|]. rewrite exec_stmts_S_nil. reflexivity.
  - exists (k + m + 2)%nat. intros j L. destruct j as [|j]; [lia|]. rewrite exec_stmts_S_cons.
    eapply bind_ok_intro; [apply (call_stmt_exec _ _ _ _ _ He); lia|].
    cbn [stmts_cont]. apply IH. lia.
Qed.

Lemma do_stmts_exec ss s s' m :
  (forall j, (m <= j)%nat -> exec_stmts d j rho va ss None s = Ok SigNone s') ->
  forall j, (m + 2 <= j)%nat -> exec_stmt d j rho va (SDo (Block ss None)) s = Ok (rho, SigNone) s'.
Proof.
  intros Hm j L. destruct j as [|[|j]]; try lia. rewrite exec_stmt_S_do.
  eapply bind_ok_intro; [rewrite exec_block_S; apply Hm; lia|reflexivity].
Qed.

Theorem calls_as_statement_sound es s s' :
  evals_in_order d rho va es s s' ->
  Forall (fun e => is_call (inner_expr e) = true) es ->
  exists m, forall j, (m <= j)%nat ->
    exec_stmt d j rho va (expressions_as_statement es) s = Ok (rho, SigNone) s'.
Proof.
  intros Hio Hf. apply evals_in_order_inner in Hio.
  unfold expressions_as_statement. rewrite (eas_calls _ Hf).
  destruct (call_stmts_exec _ _ _ Hio) as (m & Hm).
  (* no call: [do end]; one: the bare call; more: [do c1 c2 ... end] *)
  destruct es as [|e1 [|e2 rest]]; cbn [map] in *.
  1, 3: exists (m + 2)%nat; apply do_stmts_exec; exact Hm.
  inversion Hio as [|? ? ? k vs s1 ? He Hnil]; subst. inversion Hnil; subst.
  exists (k + 1)%nat. apply (call_stmt_exec _ _ _ _ _ He).
Qed.

(** what the proof needs of the callee: at the store the arguments leave, calling it returns
    nothing / something and changes nothing ([noop_callee] and [identity_callee] of
    Proof/RemovalSoundValue.v without the clause on the returned values). *)
Definition inert_callee_at (p : expr) (es : list expr) (s : store) : Prop :=
  forall k f s0, eval1 d k rho va p s = Ok f s0 ->
    s0 = s /\
    forall k2 args s1, eval_list d k2 rho va es s = Ok args s1 ->
    forall j r s2, call d j f args s1 = Ok r s2 -> s2 = s1.

Lemma inert_callee_returns p es s :
  inert_callee_at p es s -> callee_returns d rho va (fun _ _ => True) p es s.
Proof.
  intros Hc k f s0 Hp. destruct (Hc _ _ _ Hp) as [-> Hi]. split; [reflexivity|].
  intros k2 args s1 Ha j r s2 H. split; [exact I|exact (Hi _ _ _ Ha _ _ _ H)].
Qed.

Lemma callee_returns_inert R p es s : callee_returns d rho va R p es s -> inert_callee_at p es s.
Proof.
  intros Hc k f s0 Hp. destruct (Hc _ _ _ Hp) as [-> Hr]. split; [reflexivity|].
  intros k2 args s1 Ha j r s2 H. exact (proj2 (Hr _ _ _ Ha _ _ _ H)).
Qed.

Theorem removed_call_stmt_sound_at n p es s rho' sg s' :
  inert_callee_at p es s ->
  Forall (kept_or_quiet d rho va) es ->
  Forall (fun e => is_call (inner_expr e) = true) (filter hse es) ->
  exec_stmt d n rho va (SCall (ECall p None (ATuple es))) s = Ok (rho', sg) s' ->
  exists m, forall j, (m <= j)%nat ->
    exec_stmt d j rho va (expressions_as_statement (preserve_args (ATuple es))) s = Ok (rho', sg) s'.
Proof.
  intros Hc Hf Hcalls H. fuel_S n H.
  rewrite exec_stmt_S_call in H.
  apply bind_ok in H as (r & sr & H & Hret). apply ret_ok in Hret as [E ->].
  inversion E; subst rho' sg; clear E.
  apply inert_callee_returns in Hc.
  destruct (removed_call_inv _ _ _ _ _ _ _ _ _ _ Hc H) as (k & args & _ & Ha & _).
  pose proof (evals_in_order_kept _ _ _ _ _ _ Hf (eval_list_evals _ _ _ _ _ _ _ _ Ha)) as Hio.
  cbn [preserve_args]. apply calls_as_statement_sound; assumption.
Qed.

Theorem removed_call_stmt_sound n p es s rho' sg s' :
  noop_callee d rho va p es s \/ identity_callee d rho va p es s ->
  Forall (kept_or_quiet d rho va) es ->
  Forall (fun e => is_call (inner_expr e) = true) (filter hse es) ->
  exec_stmt d n rho va (SCall (ECall p None (ATuple es))) s = Ok (rho', sg) s' ->
  exists m, forall j, (m <= j)%nat ->
    exec_stmt d j rho va (expressions_as_statement (preserve_args (ATuple es))) s = Ok (rho', sg) s'.
Proof.
  intros Hc. apply removed_call_stmt_sound_at.
  destruct Hc as [Hc|Hc]; exact (callee_returns_inert _ _ _ _ Hc).
Qed.

Theorem assert_removal_sound n sc es s rho' sg s' :
  in_scope nm_assert sc = false ->
  noop_callee d rho va (EIdent nm_assert) es s \/ identity_callee d rho va (EIdent nm_assert) es s ->
  Forall (kept_or_quiet d rho va) es ->
  Forall (fun e => is_call (inner_expr e) = true) (filter hse es) ->
  exec_stmt d n rho va (SCall (ECall (EIdent nm_assert) None (ATuple es))) s = Ok (rho', sg) s' ->
  exists m, forall j, (m <= j)%nat ->
    exec_stmt d j rho va
      (rc_stmt assert_matcher true sc (SCall (ECall (EIdent nm_assert) None (ATuple es)))) s
    = Ok (rho', sg) s'.
Proof.
  intros Hsc. rewrite (rc_stmt_matched assert_matcher _ _ _ (assert_matches_assert _ Hsc)).
  apply removed_call_stmt_sound.
Qed.

Theorem profile_removal_sound n sc f es s rho' sg s' :
  in_scope nm_debug sc = false -> f = nm_profilebegin \/ f = nm_profileend ->
  noop_callee d rho va (EField (EIdent nm_debug) f) es s
  \/ identity_callee d rho va (EField (EIdent nm_debug) f) es s ->
  Forall (kept_or_quiet d rho va) es ->
  Forall (fun e => is_call (inner_expr e) = true) (filter hse es) ->
  exec_stmt d n rho va (SCall (ECall (EField (EIdent nm_debug) f) None (ATuple es))) s
  = Ok (rho', sg) s' ->
  exists m, forall j, (m <= j)%nat ->
    exec_stmt d j rho va
      (rc_stmt profile_matcher true sc (SCall (ECall (EField (EIdent nm_debug) f) None (ATuple es)))) s
    = Ok (rho', sg) s'.
Proof.
  intros Hsc Hfn. rewrite (rc_stmt_matched profile_matcher _ _ _ (profile_matches_debug _ _ Hsc Hfn)).
  apply removed_call_stmt_sound.
Qed.

(** one kept argument that is not a call: [local _ = v] *)
Theorem local_underscore_sound k e s vs s1 :
  eval d k rho va e s = Ok vs s1 -> is_call (inner_expr e) = false ->
  exists k' vs',
    eval d k' rho va (inner_expr e) s = Ok vs' s1 /\ first vs' = first vs /\
    forall j, (k' + 2 <= j)%nat ->
      exec_stmt d j rho va (expressions_as_statement [e]) s =
      Ok ((nm_underscore, N.of_nat (List.length (cells s1))) :: rho, SigNone)
         (mkStore (cells s1 ++ [first vs']) (tables s1) (closures s1) (trace s1) (oracle s1) (fresh s1)).
Proof.
  intros H Hnc. destruct (inner_expr_eval_first _ _ _ _ _ H) as (k' & vs' & He & Hv).
  exists k', vs'. split; [exact He|]. split; [exact Hv|].
  intros j L. rewrite (eas_single_noncall _ Hnc). destruct j as [|[|j]]; try lia.
  rewrite exec_stmt_S_local. eapply bind_ok_intro.
  { rewrite eval_list_S_one. eapply eval_up; [exact He|lia]. }
  destruct vs'; reflexivity.
Qed.

Lemma eval_list_det k1 k2 es s a1 s1 a2 s2 :
  eval_list d k1 rho va es s = Ok a1 s1 -> eval_list d k2 rho va es s = Ok a2 s2 -> a1 = a2 /\ s1 = s2.
Proof.
  intros H1 H2.
  pose proof (eval_list_up d _ _ _ _ _ _ _ _ H1 (Nat.le_max_l k1 k2)) as E1.
  pose proof (eval_list_up d _ _ _ _ _ _ _ _ H2 (Nat.le_max_r k1 k2)) as E2.
  rewrite E1 in E2. inversion E2. auto.
Qed.

(** the callee is a local holding a closure; it suffices to run the arguments once, with some
    fuel [k0], find the closure [cl] still at its address afterwards, and know what a call of [cl]
    does *)
Lemma cell_closure_callee R x c a cl es s k0 args0 s0 :
  lookup rho x = Some c -> nth_N (cells s) (N.to_nat c) = Some (VClosure a) ->
  eval_list d k0 rho va es s = Ok args0 s0 -> nth_N (closures s0) (N.to_nat a) = Some cl ->
  (forall s1 j args r s2, nth_N (closures s1) (N.to_nat a) = Some cl ->
                          call d j (VClosure a) args s1 = Ok r s2 -> R args r /\ s2 = s1) ->
  callee_returns d rho va R (EIdent x) es s.
Proof.
  intros Hl Hc H0 Hcl Hcall k f s' Hp.
  apply eval1_reads in Hp as [-> Hr]; [|left; congruence].
  unfold reads in Hr. rewrite Hl, Hc in Hr. inversion Hr; subst f. split; [reflexivity|].
  intros k2 args s1 Ha. destruct (eval_list_det _ _ _ _ _ _ _ _ Ha H0) as [_ ->].
  intros j r s2. exact (Hcall _ _ _ _ _ Hcl).
Qed.

(** a closure without parameters whose body has no statements does what its last statement does *)
Lemma call_closure_last a variadic last cenv s1 j args r s2 :
  nth_N (closures s1) (N.to_nat a)
  = Some (mkClosure (FBody [] variadic None None None 0 (Block [] last)) cenv false) ->
  call d j (VClosure a) args s1 = Ok r s2 ->
  exists j' sg, exec_stmts d (S j') cenv (if variadic then args else []) [] last s1 = Ok sg s2 /\
                r = match sg with SigReturn vs => vs | _ => [] end.
Proof.
  intros Hn H. fuel_S j H. rewrite call_S_closure in H.
  apply bind_ok in H as (c & sc & Hg & Hc).
  unfold get_closure in Hg. rewrite Hn in Hg. inversion Hg; subst c sc; clear Hg.
  unfold call_closure in Hc.
  cbn [effective_params closure_variadic closure_block c_body c_self c_env] in Hc.
  apply bind_ok in Hc as (rho0 & s3 & Hb & Hc). apply ret_ok in Hb as [-> ->].
  apply bind_ok in Hc as (sg & s4 & Hx & Hret).
  fuel_S j Hx. rewrite exec_block_S in Hx.
  fuel_S j Hx.
  assert (Hr : r = match sg with SigReturn vs => vs | _ => [] end /\ s2 = s4)
    by (destruct sg; apply ret_ok in Hret as [-> ->]; auto).
  destruct Hr as [-> ->]. exists j, sg. split; [exact Hx|reflexivity].
Qed.

Lemma call_noop_closure a cenv s1 j args r s2 :
  nth_N (closures s1) (N.to_nat a) = Some (mkClosure noop_body cenv false) ->
  call d j (VClosure a) args s1 = Ok r s2 -> r = [] /\ s2 = s1.
Proof.
  intros Hn H. destruct (call_closure_last _ _ _ _ _ _ _ _ _ Hn H) as (j' & sg & Hx & ->).
  rewrite exec_stmts_S_nil in Hx. apply ret_ok in Hx as [-> ->]. auto.
Qed.

Lemma call_identity_closure a cenv s1 j args r s2 :
  nth_N (closures s1) (N.to_nat a) = Some (mkClosure identity_body cenv false) ->
  call d j (VClosure a) args s1 = Ok r s2 -> r = args /\ s2 = s1.
Proof.
  intros Hn H. destruct (call_closure_last _ _ _ _ _ _ _ _ _ Hn H) as (j' & sg & Hx & ->).
  rewrite exec_stmts_S_nil in Hx. apply bind_ok in Hx as (vs & s3 & Hv & Hret).
  apply ret_ok in Hret as [-> ->].
  fuel_S j' Hv. rewrite eval_list_S_one in Hv.
  fuel_S j' Hv. rewrite eval_S_varargs in Hv.
  apply ret_ok in Hv as [-> ->]. auto.
Qed.

End Stmt.

Definition ext_call_b : expr := ECall (EIdent (of_string "ext_b")) None (ATuple []).
Definition st_us : store :=
  mkStore [VClosure 0; VNum (of_Z 5)] initial_tables [mkClosure noop_body [] false] [] [] 0.
Definition rho_us : env := [(nm_underscore, 1); (of_string "f", 0)].
Definition ret_us : option laststmt := Some (LReturn [EIdent nm_underscore]).
Definition not_ext : expr := EUnary UNot ext_call.

(** the reference: [f(not ext_a())] with [f] a no-op, then [return _], where [_] is a local of
    the program holding 5; the output: [local _ = not ext_a()], then [return _].  Same events,
    the reference leaves the cells alone, and the returned values differ. *)
Theorem local_underscore_shadows_refuted :
  exists dl rho p es last s r1 s1 r2 s2,
    filter hse es = es /\
    exec_stmts dl 20 rho [] [SCall (ECall p None (ATuple es))] last s = Ok r1 s1 /\
    exec_stmts dl 20 rho [] [expressions_as_statement (preserve_args (ATuple es))] last s = Ok r2 s2 /\
    cells s1 = cells s /\ trace s1 = trace s2 /\
    r1 = SigReturn [VNum (of_Z 5)] /\ r2 = SigReturn [VBool true].
Proof.
  exists L51, rho_us, (EIdent (of_string "f")), [not_ext], ret_us, st_us.
  do 4 eexists.
  split; [reflexivity|].
  split; [vm_compute; reflexivity|].
  split; [vm_compute; reflexivity|].
  repeat split; vm_compute; reflexivity.
Qed.

(** the same on a whole chunk through the rule: [local _ = 5; debug.profilebegin(not ext_a());
    return _] returns 5 whatever [debug.profilebegin] does, the output of
    remove_debug_profiling returns [true] *)
Definition prog_us : block :=
  Block [SLocal false [Param nm_underscore None] [ENumber (NDec (to_bits (of_Z 5)) None)];
         SCall (ECall (EField (EIdent nm_debug) nm_profilebegin) None (ATuple [not_ext]))] ret_us.

Theorem local_underscore_shadows_rule_refuted :
  exists b tr1 v1 tr2 v2,
    run_chunk L51 30 [] b = OutOk tr1 [v1] /\
    run_chunk L51 30 [] (rule_remove_debug_profiling true b) = OutOk tr2 [v2] /\
    v1 = RNum (to_bits (of_Z 5)) /\ v2 = RBool true.
Proof.
  exists prog_us. do 4 eexists.
  split; [vm_compute; reflexivity|].
  split; [vm_compute; reflexivity|].
  split; vm_compute; reflexivity.
Qed.

(** the hypotheses of [removed_call_stmt_sound_at] are satisfiable: [f(ext_a(), 1, (ext_b()))]
    with [f] a no-op *)
Definition es3 : list expr := [ext_call; one; EParen ext_call_b].

Example removed_call_stmt_example :
  expressions_as_statement (preserve_args (ATuple es3)) =
    SDo (Block [SCall ext_call; SCall ext_call_b] None) /\
  exists s',
    exec_stmt L51 20 rho_noop [] (SCall (call_f es3)) st_noop = Ok (rho_noop, SigNone) s' /\
    exec_stmt L51 20 rho_noop []
      (rc_stmt profile_matcher true []
         (SCall (ECall (EField (EIdent nm_debug) nm_profilebegin) None (ATuple es3)))) st_noop
      = Ok (rho_noop, SigNone) s' /\
    trace s' = [EvCall (of_string "ext_b") []; EvCall (of_string "ext_a") []].
Proof.
  split; [reflexivity|]. eexists.
  split; [vm_compute; reflexivity|].
  split; [vm_compute; reflexivity|].
  vm_compute; reflexivity.
Qed.

Example removed_call_args_example :
  Forall (kept_or_quiet L51 rho_noop []) es3 /\
  Forall (fun e => is_call (inner_expr e) = true) (filter hse es3).
Proof.
  split.
  - unfold es3. apply Forall_cons; [left; reflexivity|].
    apply Forall_cons; [right; split; [reflexivity|apply simple_quiet_quiet; reflexivity]|].
    apply Forall_cons; [left; reflexivity|apply Forall_nil].
  - apply Forall_forall. apply forallb_forall. vm_compute. reflexivity.
Qed.

(** the callee hypotheses are satisfiable by real closures.  [noop_callee]: [f] bound to
    [function() end] *)
Example noop_callee_example :
  noop_callee L51 rho_noop [] (EIdent (of_string "f")) es3 st_noop.
Proof.
  eapply (cell_closure_callee _ _ _ _ _ _ _ _ _ _ 20);
    [reflexivity|reflexivity|vm_compute; reflexivity|vm_compute; reflexivity|].
  intros s1. apply call_noop_closure.
Qed.

Example removed_call_callee_example :
  inert_callee_at L51 rho_noop [] (EIdent (of_string "f")) es3 st_noop.
Proof. exact (callee_returns_inert _ _ _ _ _ _ _ noop_callee_example). Qed.

(** so the theorem applies to the example *)
Example removed_call_stmt_example_applies n rho' sg s' :
  exec_stmt L51 n rho_noop [] (SCall (call_f es3)) st_noop = Ok (rho', sg) s' ->
  exists m, forall j, (m <= j)%nat ->
    exec_stmt L51 j rho_noop [] (expressions_as_statement (preserve_args (ATuple es3))) st_noop
    = Ok (rho', sg) s'.
Proof.
  apply removed_call_stmt_sound_at;
    [exact removed_call_callee_example|apply removed_call_args_example..].
Qed.

(** [identity_callee]: [f] bound to [function(...) return ... end] *)
Definition st_ident : store := mkStore [VClosure 0] initial_tables [mkClosure identity_body [] false] [] [] 0.

Example identity_callee_example :
  identity_callee L51 rho_noop [] (EIdent (of_string "f")) es3 st_ident.
Proof.
  eapply (cell_closure_callee _ _ _ _ _ _ _ _ _ _ 20);
    [reflexivity|reflexivity|vm_compute; reflexivity|vm_compute; reflexivity|].
  intros s1. apply call_identity_closure.
Qed.
