(** The structural invariant [wf] of the worker tree (node indices, free list,
    external-dependency container, queued removals) and what the tree is after each operation
    of the model: one lemma per operation says that it does not panic, keeps [wf] and which
    items it keeps, restarts, removes or adds.  The semantic invariant built on top is in
    [Proof/WorkerStep.v]. *)
From Coq Require Import Arith PeanoNat Lia.
From DL Require Import Lib.Bytes Model.WorkerFs Model.Worker Proof.WorkerBasics.
Open Scope N_scope.

Lemma item_reset_idem it : item_reset (item_reset it) = item_reset it.
Proof. reflexivity. Qed.

Section Inv.
  Variable inp outp : path.

  Hypothesis io_disjoint1 : starts_with inp outp = false.
  Hypothesis io_disjoint2 : starts_with outp inp = false.

  Notation out_of := (out_of inp outp).
  Notation is_source := (is_source inp).

  (** every path that is ever a user file *)
  Variable E : list path.
  Hypothesis E_nonest : forall a b, In a E -> In b E -> starts_with a b = true -> a = b.

  Lemma source_not_out q : is_source q = true -> starts_with outp q = false.
  Proof.
    unfold Worker.is_source. intros H. apply andb_true_iff in H as [H _].
    destruct (starts_with outp q) eqn:Eo; [|reflexivity].
    destruct (prefixes_comparable _ _ _ H Eo) as [C|C]; congruence.
  Qed.

  Lemma out_of_inj p q : is_source p = true -> is_source q = true -> out_of p = out_of q -> p = q.
  Proof.
    unfold Worker.is_source. intros Hp Hq. apply andb_true_iff in Hp as [Hp _]. apply andb_true_iff in Hq as [Hq _].
    apply rebase_inj; assumption.
  Qed.

  Record wf (t : wtree) : Prop := mkWf {
    wf_nodup : forall i j a b,
        get_slot (slots t) i = Some a -> get_slot (slots t) j = Some b -> i_src a = i_src b -> i = j;
    wf_ext : forall p i, In i (ext_get (ext t) p) ->
                         exists it, get_slot (slots t) i = Some it /\ In p (i_deps it);
    wf_free : forall i, In i (free t) -> get_slot (slots t) i = None /\ (i < List.length (slots t))%nat;
    wf_free_nodup : NoDup (free t);
    wf_item : forall i it, get_slot (slots t) i = Some it ->
                           i_out it = out_of (i_src it) /\ is_source (i_src it) = true /\ In (i_src it) E;
    wf_notstarted : forall i it, get_slot (slots t) i = Some it -> i_st it = NotStarted -> i_deps it = [];
    wf_linked : forall i it dep, get_slot (slots t) i = Some it -> In dep (i_deps it) ->
                                 In i (ext_get (ext t) dep);
    wf_rmf : forall p, In p (rmf t) -> exists q, In q E /\ is_source q = true /\ p = out_of q;
    wf_done_rmf : forall i it, get_slot (slots t) i = Some it -> is_done (i_st it) = true ->
                               ~ In (i_out it) (rmf t)
  }.

  Arguments wf_nodup {t}.
  Arguments wf_ext {t}.
  Arguments wf_free {t}.
  Arguments wf_free_nodup {t}.
  Arguments wf_item {t}.
  Arguments wf_notstarted {t}.
  Arguments wf_linked {t}.
  Arguments wf_rmf {t}.
  Arguments wf_done_rmf {t}.

  Lemma fs_collect_source f q : In q (fs_collect f inp) <-> fs_get f q <> None /\ is_source q = true.
  Proof. rewrite fs_collect_spec. unfold Worker.is_source. rewrite andb_true_iff. tauto. Qed.

  Lemma wf_empty : wf empty_tree.
  Proof.
    assert (Hnone : forall i it, get_slot [] i = Some it -> False) by (intros [|i] it H; discriminate).
    constructor; cbn; intros; try contradiction; try constructor; exfalso; eauto.
  Qed.

  Lemma wf_same_fields t t' :
    slots t' = slots t -> ext t' = ext t -> free t' = free t -> rmf t' = rmf t ->
    wf t -> wf t'.
  Proof.
    intros H1 H2 H3 H4 [W1 W2 W3 W4 W5 W6 W7 W8 W9].
    constructor; rewrite ?H1, ?H2, ?H3, ?H4; assumption.
  Qed.

  Lemma item_out_under t i it : wf t -> get_slot (slots t) i = Some it -> starts_with outp (i_out it) = true.
  Proof. intros W H. destruct (wf_item W _ _ H) as [-> _]. apply rebase_starts. Qed.

  Lemma item_src_not_out t i it : wf t -> get_slot (slots t) i = Some it -> starts_with outp (i_src it) = false.
  Proof. intros W H. apply source_not_out, (wf_item W _ _ H). Qed.

  Lemma item_not_in_place t i it :
    wf t -> get_slot (slots t) i = Some it -> path_eqb (i_src it) (i_out it) = false.
  Proof.
    intros W H. apply path_eqb_neq. intros Heq. pose proof (item_out_under t i it W H) as Ho.
    rewrite <- Heq, (item_src_not_out t i it W H) in Ho. discriminate.
  Qed.

  Lemma ext_occupied t p : wf t -> forall i, In i (ext_get (ext t) p) -> get_slot (slots t) i <> None.
  Proof. intros W i Hi. apply (wf_ext W) in Hi as [it [H _]]. congruence. Qed.

  (** What [restart_work], [remove_node] and [add_node] have in common ([wf_blank]): slot [i]
      becomes [v], which is vacant or a new item, [i] is no longer registered for any path, the
      free list follows the slot and the only output that may be queued is the one of the old
      slot [i]. *)

  Definition new_item (it : item) : Prop :=
    i_st it = NotStarted /\ i_deps it = [] /\
    i_out it = out_of (i_src it) /\ is_source (i_src it) = true /\ In (i_src it) E.

  Lemma wf_blank t t' i v :
    wf t ->
    (forall j, get_slot (slots t') j = if Nat.eqb i j then v else get_slot (slots t) j) ->
    (List.length (slots t) <= List.length (slots t'))%nat ->
    (forall it, v = Some it ->
       new_item it /\ forall j a, get_slot (slots t) j = Some a -> i_src a = i_src it -> j = i) ->
    (forall p j, In j (ext_get (ext t') p) <-> In j (ext_get (ext t) p) /\ j <> i) ->
    NoDup (free t') ->
    (forall j, In j (free t') ->
       In j (free t) /\ j <> i \/ j = i /\ v = None /\ (i < List.length (slots t'))%nat) ->
    (forall p, In p (rmf t') ->
       In p (rmf t) \/ exists it, get_slot (slots t) i = Some it /\ p = i_out it) ->
    wf t'.
  Proof.
    intros W Hget Hlen Hv Hext Hnd Hfree Hrmf.
    assert (Hold : forall j it, get_slot (slots t') j = Some it -> j <> i -> get_slot (slots t) j = Some it).
    { intros j it Hj Hne. rewrite Hget in Hj. destruct (Nat.eqb_spec i j); [congruence|exact Hj]. }
    assert (Hnew : forall it, get_slot (slots t') i = Some it -> v = Some it).
    { intros it Hi. rewrite Hget, Nat.eqb_refl in Hi. exact Hi. }
    constructor.
    - intros a b x y Ha Hb Hs.
      destruct (Nat.eq_dec a i) as [->|Na], (Nat.eq_dec b i) as [->|Nb].
      + reflexivity.
      + apply Hnew, Hv in Ha as [_ Hu]. symmetry. apply (Hu b y); [apply Hold; assumption|congruence].
      + apply Hnew, Hv in Hb as [_ Hu]. apply (Hu a x); [apply Hold; assumption|congruence].
      + apply (wf_nodup W a b x y); [apply Hold; assumption|apply Hold; assumption|exact Hs].
    - intros p j Hj. apply Hext in Hj as [Hj Hne]. destruct (wf_ext W p j Hj) as [it [Hs Hd]].
      exists it. split; [|exact Hd]. rewrite Hget. destruct (Nat.eqb_spec i j); [congruence|exact Hs].
    - intros j Hj. destruct (Hfree j Hj) as [[Hin Hne]|[-> [-> Hlt]]].
      + destruct (wf_free W j Hin) as [H1 H2]. split; [|lia].
        rewrite Hget. destruct (Nat.eqb_spec i j); [congruence|exact H1].
      + split; [rewrite Hget, Nat.eqb_refl; reflexivity|exact Hlt].
    - exact Hnd.
    - intros j it Hj. destruct (Nat.eq_dec j i) as [->|Hne].
      + apply Hnew, Hv in Hj as [[_ [_ F]] _]. exact F.
      + apply (wf_item W j it). apply Hold; assumption.
    - intros j it Hj Hst. destruct (Nat.eq_dec j i) as [->|Hne].
      + apply Hnew, Hv in Hj as [[_ [F _]] _]. exact F.
      + apply (wf_notstarted W j it); [apply Hold; assumption|exact Hst].
    - intros j it dep Hj Hd. destruct (Nat.eq_dec j i) as [->|Hne].
      + apply Hnew, Hv in Hj as [[_ [F _]] _]. rewrite F in Hd. contradiction.
      + apply Hext. split; [|exact Hne]. apply (wf_linked W j it dep); [apply Hold; assumption|exact Hd].
    - intros p Hp. destruct (Hrmf p Hp) as [H|[it [Hi ->]]]; [apply (wf_rmf W); exact H|].
      destruct (wf_item W i it Hi) as [Ho [Hs HE]]. exists (i_src it). auto.
    - intros j it Hj Hdone Hin. destruct (Nat.eq_dec j i) as [->|Hne].
      + apply Hnew, Hv in Hj as [[F _] _]. rewrite F in Hdone. discriminate.
      + apply Hold in Hj; [|exact Hne]. destruct (Hrmf _ Hin) as [H|[x [Hi Heq]]].
        * exact (wf_done_rmf W j it Hj Hdone H).
        * (* two items with the same output have the same source *)
          destruct (wf_item W j it Hj) as [Ho [Hs _]], (wf_item W i x Hi) as [Ho' [Hs' _]].
          rewrite Ho, Ho' in Heq. apply out_of_inj in Heq; [|assumption|assumption].
          apply Hne. apply (wf_nodup W j i it x); assumption.
  Qed.

  Lemma restart_work_ok t i it :
    wf t -> get_slot (slots t) i = Some it ->
    exists t', restart_work t i = Ok t' /\ wf t' /\ rmf t' = rmf t /\ last_hash t' = last_hash t /\
               forall j, get_slot (slots t') j =
                         if Nat.eqb i j then Some (item_reset it) else get_slot (slots t) j.
  Proof.
    intros W Hi. unfold restart_work. rewrite Hi. eexists. split; [reflexivity|].
    assert (Hget : forall j, get_slot (set_slot (slots t) i (Some (item_reset it))) j =
                             if Nat.eqb i j then Some (item_reset it) else get_slot (slots t) j)
      by (intros j; eapply get_set_slot, get_slot_some_lt, Hi).
    split; [|repeat split; exact Hget].
    apply (wf_blank t _ i (Some (item_reset it)) W); cbn [slots ext free rmf set_ext set_slots].
    - exact Hget.
    - rewrite set_slot_length. apply le_n.
    - intros ? [= <-]. destruct (wf_item W i it Hi) as [Ho [Hs HE]].
      split; [repeat split; assumption|]. intros j a Hj Hsrc. apply (wf_nodup W j i a it); assumption.
    - (* the paths [i] was registered for are the dependencies of [it] *)
      intros p j. rewrite ext_get_unlink_all. split; intros [Hj Hn]; (split; [exact Hj|]).
      + intros ->. apply Hn. split; [|reflexivity].
        destruct (wf_ext W p i Hj) as [x [Hx Hd]]. rewrite Hi in Hx. injection Hx as <-. exact Hd.
      + intros [_ ->]. congruence.
    - apply (wf_free_nodup W).
    - intros j Hj. left. split; [exact Hj|]. intros ->. destruct (wf_free W i Hj). congruence.
    - intros p Hp. left. exact Hp.
  Qed.

  Lemma restart_work_as_all t i : restart_work t i = restart_all t [i].
  Proof. cbn [restart_all]. destruct (restart_work t i); reflexivity. Qed.

  Definition reset_if (b : bool) (it : item) : item := if b then item_reset it else it.

  Lemma reset_if_src b it : i_src (reset_if b it) = i_src it.
  Proof. destruct b; reflexivity. Qed.
  Lemma reset_if_out b it : i_out (reset_if b it) = i_out it.
  Proof. destruct b; reflexivity. Qed.
  Lemma reset_if_done b it : is_done (i_st (reset_if b it)) = true -> b = false /\ is_done (i_st it) = true.
  Proof. destruct b; cbn; [discriminate|auto]. Qed.
  Lemma reset_if_deps b it x : In x (i_deps (reset_if b it)) -> b = false.
  Proof. destruct b; [intros []|reflexivity]. Qed.
  Lemma reset_if_twice b b' it : reset_if b' (reset_if b it) = reset_if (b || b') it.
  Proof. destruct b, b'; reflexivity. Qed.

  Lemma restart_all_ok t idxs :
    wf t -> (forall i, In i idxs -> get_slot (slots t) i <> None) ->
    exists t', restart_all t idxs = Ok t' /\ wf t' /\ rmf t' = rmf t /\ last_hash t' = last_hash t /\
               forall j, get_slot (slots t') j =
                         option_map (reset_if (mem_nat j idxs)) (get_slot (slots t) j).
  Proof.
    revert t; induction idxs as [|i idxs IH]; intros t W Hocc; cbn [restart_all].
    - exists t. split; [reflexivity|]. split; [exact W|]. repeat split.
      intros j. destruct (get_slot (slots t) j); reflexivity.
    - destruct (get_slot (slots t) i) as [it|] eqn:Hi; [|exfalso; apply (Hocc i); [left; reflexivity|exact Hi]].
      destruct (restart_work_ok t i it W Hi) as [t1 [R1 [W1 [Hr [Hh Hg]]]]]. rewrite R1.
      destruct (IH t1 W1) as [t2 [R2 [W2 [Hr2 [Hh2 Hg2]]]]].
      { intros j Hj. rewrite Hg. destruct (Nat.eqb i j); [discriminate|]. apply Hocc. right. exact Hj. }
      exists t2. split; [exact R2|]. split; [exact W2|]. repeat split; try congruence.
      intros j. rewrite Hg2, Hg. unfold mem_nat. cbn [existsb]. rewrite (Nat.eqb_sym j i).
      destruct (Nat.eqb_spec i j) as [<-|_]; [|reflexivity].
      rewrite Hi. cbn [option_map orb]. destruct (existsb (Nat.eqb i) idxs); reflexivity.
  Qed.

  Definition restarted (t t' : wtree) : Prop :=
    forall j, exists b, get_slot (slots t') j = option_map (reset_if b) (get_slot (slots t) j).

  Lemma restarted_back t t' j it' :
    restarted t t' -> get_slot (slots t') j = Some it' ->
    exists b it, get_slot (slots t) j = Some it /\ it' = reset_if b it.
  Proof.
    intros R Hj. destruct (R j) as [b Hb]. rewrite Hb in Hj.
    destruct (get_slot (slots t) j) as [it|]; [|discriminate]. injection Hj as <-. eauto.
  Qed.

  Lemma restarted_fwd t t' j it :
    restarted t t' -> get_slot (slots t) j = Some it ->
    exists b, get_slot (slots t') j = Some (reset_if b it).
  Proof. intros R Hj. destruct (R j) as [b Hb]. rewrite Hj in Hb. eauto. Qed.

  Lemma restarted_one t t' i it :
    get_slot (slots t) i = Some it ->
    (forall j, get_slot (slots t') j = if Nat.eqb i j then Some (item_reset it) else get_slot (slots t) j) ->
    restarted t t'.
  Proof.
    intros Hi Hg j. exists (Nat.eqb i j). rewrite Hg. destruct (Nat.eqb_spec i j) as [<-|_].
    - rewrite Hi. reflexivity.
    - destruct (get_slot (slots t) j); reflexivity.
  Qed.

  Lemma update_ext_ok t p :
    wf t ->
    exists t', update_external_dependencies t p = Ok t' /\ wf t' /\
               rmf t' = rmf t /\ last_hash t' = last_hash t /\ restarted t t' /\
               forall j it, get_slot (slots t') j = Some it -> ~ In p (i_deps it).
  Proof.
    intros W. destruct (restart_all_ok t (ext_get (ext t) p) W (ext_occupied t p W))
      as [t' [R [W' [Hr [Hh Hg]]]]].
    exists t'. split; [exact R|]. split; [exact W'|]. repeat split; try assumption; [intros j; eauto|].
    intros j it' Hj Hin. rewrite Hg in Hj.
    destruct (get_slot (slots t) j) as [it|] eqn:Hs; [|discriminate]. injection Hj as <-.
    pose proof (reset_if_deps _ _ _ Hin) as Hb. rewrite Hb in Hin.
    apply (wf_linked W j it p Hs), mem_nat_In in Hin. congruence.
  Qed.

  Lemma source_changed_ok t p :
    wf t ->
    exists t', source_changed t p = Ok t' /\ wf t' /\
               rmf t' = rmf t /\ last_hash t' = last_hash t /\ restarted t t' /\
               (forall j it, get_slot (slots t') j = Some it -> i_src it = p -> i_st it = NotStarted) /\
               (forall j it, get_slot (slots t') j = Some it -> ~ In p (i_deps it)).
  Proof.
    intros W.
    set (idxs := match node_of t p with Some i => [i] | None => nodes_under (slots t) p 0 end).
    assert (Hocc : forall i, In i idxs -> get_slot (slots t) i <> None).
    { intros i Hi. unfold idxs in Hi. destruct (node_of t p) as [k|] eqn:En.
      - destruct Hi as [<-|[]]. apply node_of_some in En as [it [H _]]. congruence.
      - apply nodes_under_in in Hi as [it [H _]]. congruence. }
    destruct (restart_all_ok t idxs W Hocc) as [t1 [R1 [W1 [Hr1 [Hh1 Hg1]]]]].
    destruct (update_ext_ok t1 p W1) as [t2 [R2 [W2 [Hr2 [Hh2 [Hg2 Hdep]]]]]].
    exists t2. split.
    { unfold source_changed. destruct (node_of t p); [rewrite restart_work_as_all|];
        unfold idxs in R1; rewrite R1; exact R2. }
    split; [exact W2|]. repeat split; try congruence; [| |exact Hdep].
    - intros j. destruct (Hg2 j) as [b Hb]. exists (mem_nat j idxs || b). rewrite Hb, Hg1.
      destruct (get_slot (slots t) j); cbn [option_map]; [rewrite reset_if_twice|]; reflexivity.
    - (* the item of [p] was restarted in the first round *)
      intros j it2 Hj Hsrc. destruct (restarted_back _ _ _ _ Hg2 Hj) as [b [it1 [Hj1 ->]]].
      rewrite Hg1 in Hj1. destruct (get_slot (slots t) j) as [it|] eqn:Hs; [|discriminate].
      injection Hj1 as <-. rewrite !reset_if_src in Hsrc.
      assert (Hin : mem_nat j idxs = true).
      { apply mem_nat_In. unfold idxs. destruct (node_of t p) as [k|] eqn:En.
        - apply node_of_some in En as [itk [Hk Hsk]]. left. apply (wf_nodup W k j itk it); congruence.
        - exfalso. eapply node_of_none; eassumption. }
      rewrite Hin. destruct b; reflexivity.
  Qed.

  Lemma remove_node_ok t i it :
    wf t -> get_slot (slots t) i = Some it -> i_deps it = [] ->
    let t' := queue_removal (remove_node t i) it in
    wf t' /\ rmf t' = (rmf t ++ [i_out it])%list /\ last_hash t' = last_hash t /\
    forall j, get_slot (slots t') j = if Nat.eqb i j then None else get_slot (slots t) j.
  Proof.
    intros W Hi Hd. pose proof (get_slot_some_lt _ _ _ Hi) as Hlt.
    unfold queue_removal, remove_node. rewrite Hi, (item_not_in_place t i it W Hi). cbn zeta.
    assert (Hget : forall j, get_slot (set_slot (slots t) i None) j =
                             if Nat.eqb i j then None else get_slot (slots t) j)
      by (intros j; apply get_set_slot; exact Hlt).
    split; [|repeat split; exact Hget].
    apply (wf_blank t _ i None W); cbn [slots ext free rmf set_slots set_free set_rmf].
    - exact Hget.
    - rewrite set_slot_length. apply le_n.
    - discriminate.
    - intros p j. split; [|tauto]. intros Hj. split; [exact Hj|]. intros ->.
      destruct (wf_ext W p i Hj) as [x [Hx Hdx]]. rewrite Hi in Hx. injection Hx as <-.
      rewrite Hd in Hdx. exact Hdx.
    - constructor; [|apply (wf_free_nodup W)]. intros Hin. destruct (wf_free W i Hin). congruence.
    - intros j [<-|Hj].
      + right. rewrite set_slot_length. auto.
      + left. split; [exact Hj|]. intros ->. destruct (wf_free W i Hj). congruence.
    - intros p Hp. apply in_app_or in Hp as [Hp|[<-|[]]]; [left; exact Hp|right; eauto].
  Qed.

  Lemma remove_nodes_ok idxs : forall t,
    wf t ->
    (forall i it, In i idxs -> get_slot (slots t) i = Some it -> i_deps it = []) ->
    let t' := remove_nodes t idxs in
    wf t' /\ last_hash t' = last_hash t /\
    (forall j, get_slot (slots t') j = if mem_nat j idxs then None else get_slot (slots t) j) /\
    incl (rmf t) (rmf t') /\
    (forall i it, In i idxs -> get_slot (slots t) i = Some it -> In (i_out it) (rmf t')).
  Proof.
    induction idxs as [|i idxs IH]; intros t W Hd; cbn [remove_nodes].
    - cbn. split; [exact W|]. repeat split; [apply incl_refl|intros i it []].
    - assert (Hmem : forall j, mem_nat j (i :: idxs) = Nat.eqb i j || mem_nat j idxs)
        by (intros j; unfold mem_nat; cbn [existsb]; rewrite (Nat.eqb_sym j i); reflexivity).
      destruct (get_slot (slots t) i) as [it|] eqn:Hi.
      + destruct (remove_node_ok t i it W Hi) as [W1 [Hr1 [Hh1 Hg1]]].
        { eapply Hd; [left; reflexivity|exact Hi]. }
        set (t1 := queue_removal (remove_node t i) it) in *.
        destruct (IH t1 W1) as [W2 [Hh2 [Hg2 [Hr2 Ho2]]]].
        { intros j itj Hj Hs. rewrite Hg1 in Hs. destruct (Nat.eqb i j); [discriminate|].
          eapply Hd; [right; exact Hj|exact Hs]. }
        assert (Hi_out : In (i_out it) (rmf (remove_nodes t1 idxs))).
        { apply Hr2. rewrite Hr1. apply in_or_app. right. left. reflexivity. }
        cbn zeta in *. split; [exact W2|]. repeat split; [congruence| | |].
        * intros j. rewrite Hg2, Hg1, Hmem. destruct (Nat.eqb i j), (mem_nat j idxs); reflexivity.
        * intros q Hq. apply Hr2. rewrite Hr1. apply in_or_app. left. exact Hq.
        * intros j itj Hj Hs. destruct (Nat.eqb_spec i j) as [<-|Hne]; [congruence|].
          destruct Hj as [Hj|Hj]; [contradiction|]. apply (Ho2 j itj Hj).
          rewrite Hg1. destruct (Nat.eqb_spec i j); [contradiction|exact Hs].
      + destruct (IH t W) as [W2 [Hh2 [Hg2 [Hr2 Ho2]]]].
        { intros j itj Hj Hs. eapply Hd; [right; exact Hj|exact Hs]. }
        cbn zeta in *. split; [exact W2|]. repeat split; try assumption.
        * intros j. rewrite Hg2, Hmem. destruct (Nat.eqb_spec i j) as [<-|_]; [|reflexivity].
          rewrite Hi. destruct (mem_nat i idxs); reflexivity.
        * intros j itj [<-|Hj] Hs; [congruence|eauto].
  Qed.

  Lemma remove_file_branch t i it :
    wf t -> get_slot (slots t) i = Some it ->
    exists t3,
      match restart_work (queue_removal t it) i with
      | Ok t' => Ok (remove_node t' i)
      | Panic => Panic
      end = Ok t3 /\
      wf t3 /\ rmf t3 = (rmf t ++ [i_out it])%list /\ last_hash t3 = last_hash t /\
      forall j, get_slot (slots t3) j = if Nat.eqb i j then None else get_slot (slots t) j.
  Proof.
    intros W Hi. pose proof (get_slot_some_lt _ _ _ Hi) as Hlt.
    pose proof (item_not_in_place t i it W Hi) as Hneq.
    destruct (restart_work_ok t i it W Hi) as [ta [Ra [Wa [Hra [Hha Hga]]]]].
    assert (Hia : get_slot (slots ta) i = Some (item_reset it)) by (rewrite Hga, Nat.eqb_refl; reflexivity).
    destruct (remove_node_ok ta i (item_reset it) Wa Hia eq_refl) as [Wb [Hrb [Hhb Hgb]]].
    exists (queue_removal (remove_node ta i) (item_reset it)). split.
    - (* queueing the output commutes with the restart *)
      unfold restart_work in Ra. rewrite Hi in Ra. injection Ra as <-.
      unfold queue_removal at 1. rewrite Hneq. unfold restart_work. cbn [slots set_rmf]. rewrite Hi.
      unfold remove_node. cbn [slots set_slots set_ext set_rmf].
      rewrite get_set_slot, Nat.eqb_refl by exact Hlt.
      unfold queue_removal. cbn [i_src i_out item_reset]. rewrite Hneq.
      reflexivity.
    - split; [exact Wb|]. split; [rewrite Hrb, Hra; reflexivity|]. split; [congruence|].
      intros j. rewrite Hgb, Hga. destruct (Nat.eqb i j); reflexivity.
  Qed.

  Definition removed_under (p : path) (t tn : wtree) : Prop :=
    wf tn /\ last_hash tn = last_hash t /\ incl (rmf t) (rmf tn) /\
    (forall j it, get_slot (slots tn) j = Some it ->
                  get_slot (slots t) j = Some it /\ starts_with p (i_src it) = false) /\
    (forall j it, get_slot (slots t) j = Some it ->
                  if starts_with p (i_src it) then In (i_out it) (rmf tn)
                  else get_slot (slots tn) j = Some it).

  (** the hypothesis about the directory arm is what [dir_event_ok] demands of a [RemoveSrc]
      event (K-dir (b) in [Model/Worker.v]) *)
  Lemma remove_source_ok t p :
    wf t ->
    (node_of t p = None -> forall j it, get_slot (slots t) j = Some it ->
                                        starts_with p (i_src it) = true -> i_deps it = []) ->
    exists tn, remove_source t p = update_external_dependencies tn p /\ removed_under p t tn.
  Proof.
    intros W Hdir. unfold remove_source. destruct (node_of t p) as [i|] eqn:En.
    - (* the path is a work item; sources are not nested, so nothing else is below it *)
      destruct (node_of_some _ _ _ En) as [it [Hi Hsrc]]. rewrite Hi.
      destruct (remove_file_branch t i it W Hi) as [t3 [-> [W3 [Hr3 [Hh3 Hg3]]]]].
      assert (Hunder : forall j a, get_slot (slots t) j = Some a -> starts_with p (i_src a) = true -> i = j).
      { intros j a Hj Hsw. destruct (wf_item W _ _ Hi) as [_ [_ HE1]], (wf_item W _ _ Hj) as [_ [_ HE2]].
        rewrite Hsrc in HE1. apply (wf_nodup W i j it a Hi Hj). rewrite Hsrc. apply E_nonest; assumption. }
      exists t3. split; [reflexivity|].
      split; [exact W3|]. split; [exact Hh3|]. split; [rewrite Hr3; apply incl_appl, incl_refl|]. split.
      + intros j a Hj. rewrite Hg3 in Hj. destruct (Nat.eqb_spec i j) as [->|Hne]; [discriminate|].
        split; [exact Hj|]. destruct (starts_with p (i_src a)) eqn:Hsw; [|reflexivity].
        destruct (Hne (Hunder j a Hj Hsw)).
      + intros j a Hj. destruct (starts_with p (i_src a)) eqn:Hsw.
        * rewrite <- (Hunder j a Hj Hsw), Hi in Hj. injection Hj as <-.
          rewrite Hr3. apply in_or_app. right. left. reflexivity.
        * rewrite Hg3. destruct (Nat.eqb_spec i j) as [<-|_]; [|exact Hj].
          rewrite Hi in Hj. injection Hj as <-. rewrite Hsrc, starts_with_refl in Hsw. discriminate.
    - set (idxs := nodes_under (slots t) p 0).
      destruct (remove_nodes_ok idxs t W) as [Wn [Hhn [Hgn [Hrn Hon]]]].
      { intros j it Hj Hs. apply nodes_under_in in Hj as [it' [Hs' Hsw]]. rewrite Hs in Hs'.
        injection Hs' as <-. eapply Hdir; eauto. }
      exists (remove_nodes t idxs). split; [reflexivity|].
      split; [exact Wn|]. split; [exact Hhn|]. split; [exact Hrn|]. split.
      + intros j a Hj. rewrite Hgn in Hj. destruct (mem_nat j idxs) eqn:Hm; [discriminate|].
        split; [exact Hj|]. destruct (starts_with p (i_src a)) eqn:Hsw; [|reflexivity].
        assert (Hin : In j idxs) by (apply nodes_under_in; eauto). apply mem_nat_In in Hin. congruence.
      + intros j a Hj. destruct (starts_with p (i_src a)) eqn:Hsw.
        * apply (Hon j a); [apply nodes_under_in; eauto|exact Hj].
        * rewrite Hgn. destruct (mem_nat j idxs) eqn:Hm; [|exact Hj].
          apply mem_nat_In, nodes_under_in in Hm as [a' [Hj' Hsw']]. congruence.
  Qed.

  Lemma add_node_spec t it :
    wf t ->
    exists k, get_slot (slots t) k = None /\
      (forall j, get_slot (slots (add_node t it)) j =
                 if Nat.eqb k j then Some it else get_slot (slots t) j) /\
      (List.length (slots t) <= List.length (slots (add_node t it)))%nat /\
      NoDup (free (add_node t it)) /\
      (forall j, In j (free (add_node t it)) -> In j (free t) /\ j <> k).
  Proof.
    intros W. unfold add_node. destruct (free t) as [|k fr] eqn:Hfree.
    - exists (List.length (slots t)). cbn [slots free set_slots]. rewrite Hfree.
      split; [apply get_slot_beyond, le_n|]. split; [apply get_slot_app|].
      split; [rewrite app_length; lia|]. split; [constructor|intros j []].
    - destruct (wf_free W k) as [Hk Hlt]; [rewrite Hfree; left; reflexivity|].
      pose proof (wf_free_nodup W) as Hnd. rewrite Hfree in Hnd. inversion Hnd as [|? ? Hnotin Hnd']; subst.
      exists k. cbn [slots free set_slots set_free].
      split; [exact Hk|]. split; [intros j; apply get_set_slot; exact Hlt|].
      split; [rewrite set_slot_length; apply le_n|]. split; [exact Hnd'|].
      intros j Hj. split; [right; exact Hj|]. intros ->. contradiction.
  Qed.

  Lemma insert_source_ok t p :
    wf t -> node_of t p = None -> is_source p = true -> In p E ->
    let it := mkItem p (out_of p) NotStarted [] in
    let t' := insert_source t p (out_of p) in
    wf t' /\ rmf t' = rmf t /\ last_hash t' = last_hash t /\
    exists k, get_slot (slots t) k = None /\
              forall j, get_slot (slots t') j = if Nat.eqb k j then Some it else get_slot (slots t) j.
  Proof.
    intros W Hn Hs HE it t'. subst t'. unfold insert_source. fold it.
    destruct (add_node_spec t it W) as [k [Hk [Hget [Hlen [Hnd Hfree]]]]].
    assert (Hsame : rmf (add_node t it) = rmf t /\ last_hash (add_node t it) = last_hash t /\
                    ext (add_node t it) = ext t) by (unfold add_node; destruct (free t); auto).
    destruct Hsame as [Hr [Hh He]].
    split; [|split; [exact Hr|split; [exact Hh|exists k; auto]]].
    apply (wf_blank t _ k (Some it) W); try assumption.
    - intros ? [= <-]. split; [repeat split; assumption|].
      intros j a Hj Hsrc. exfalso. eapply node_of_none; eassumption.
    - intros q j. rewrite He. split; [|tauto]. intros Hj. split; [exact Hj|]. intros ->.
      destruct (wf_ext W q k Hj) as [x [Hx _]]. congruence.
    - intros j Hj. left. auto.
    - intros q Hq. left. rewrite <- Hr. exact Hq.
  Qed.

  Lemma wf_reset t : wf t -> wf (reset t).
  Proof.
    intros W. unfold reset.
    assert (Hback : forall i it, get_slot (map (option_map item_reset) (slots t)) i = Some it ->
                                 exists x, get_slot (slots t) i = Some x /\ it = item_reset x)
      by (intros i it; apply (reset_slot t i it)).
    constructor; cbn [slots ext free rmf set_ext set_slots].
    - intros i j a b Ha Hb Hs. apply Hback in Ha as [x [Hx ->]]. apply Hback in Hb as [y [Hy ->]].
      apply (wf_nodup W i j x y); assumption.
    - intros p i [].
    - intros i Hi. apply (wf_free W) in Hi as [H1 H2]. rewrite get_slot_map_reset, H1, map_length. auto.
    - apply (wf_free_nodup W).
    - intros i it Hi. apply Hback in Hi as [x [Hx ->]]. apply (wf_item W i x Hx).
    - intros i it Hi _. apply Hback in Hi as [x [Hx ->]]. reflexivity.
    - intros i it dep Hi Hd. apply Hback in Hi as [x [Hx ->]]. contradiction.
    - apply (wf_rmf W).
    - intros i it Hi Hd. apply Hback in Hi as [x [Hx ->]]. discriminate.
  Qed.

  Lemma restarted_reset t : restarted t (reset t).
  Proof. intros j. exists true. apply get_slot_map_reset. Qed.
End Inv.

Arguments wf_nodup {inp outp E t}.
Arguments wf_ext {inp outp E t}.
Arguments wf_free {inp outp E t}.
Arguments wf_free_nodup {inp outp E t}.
Arguments wf_item {inp outp E t}.
Arguments wf_notstarted {inp outp E t}.
Arguments wf_linked {inp outp E t}.
Arguments wf_rmf {inp outp E t}.
Arguments wf_done_rmf {inp outp E t}.
