(** Stage 3: the "(" of a call is glued to the callee; the rule that decides the ";" between
    statements looks at the tree, not at the text. *)
From DL Require Import Lib.Bytes Model.Lexer Model.DenseGen Model.Precedence Model.C02Spec
  Proof.DenseGenFacts Proof.PrecedenceFacts Proof.C02FrozenTables.
Open Scope N_scope.

(** [merge_char]: at every column span the "(" directly follows the text of the previous push
    (the callee's last token): no space and no new line can land between them *)
Theorem merge_char_glues : forall span g,
  exists pre, out (merge_char span g [40]) = pre ++ last_push g ++ [40].
Proof.
  intros span g. unfold merge_char. destruct (fits span g 1).
  - exists (before_last_push g). cbn [raw_push out]. rewrite app_assoc, before_last_app. reflexivity.
  - exists (strip_trailing_spaces (before_last_push g) ++ [10]). cbn [out].
    rewrite <- !app_assoc. reflexivity.
Qed.

(** where the generator adds no parentheses along the right spine, the tree-based rule and
    the text agree *)
Theorem semicolon_rule_partial : forall isp P e,
  right_spine_plain P e = true ->
  ends_prefix isp e = closes_prefix isp (tokens_of_expr P e).
Proof.
  intros isp P e. unfold tokens_of_expr, closes_prefix. rewrite last_print.
  induction e as [a|o l IHl r IHr|u x IHx|x IHx|x IHx k]; intros H;
    cbn [right_spine_plain parenthesize last_tok ends_prefix] in *; try reflexivity.
  - apply andb_true_iff in H as [H1 H2]. apply Bool.negb_true_iff in H1. rewrite H1. exact (IHr H2).
  - apply andb_true_iff in H as [H1 H2]. apply Bool.negb_true_iff in H1. rewrite H1. exact (IHx H2).
Qed.

(** ... and where it does, they do not: [a * (c + 1)] written from the tree
    Binary( *, a, Binary(+, c, 1)) ends with ")" but the rule answers "does not end with a
    prefix expression", so no ";" is written before a following "(" (recorded finding) *)
Theorem semicolon_rule_refuted :
  exists e, ends_prefix (fun a => a <? 50) e = false
            /\ closes_prefix (fun a => a <? 50) (tokens_of_expr ptbl e) = true.
Proof.
  exists (EBin Asterisk (EAtom 0) (EBin Plus (EAtom 1) (EAtom 99))). vm_compute. split; reflexivity.
Qed.
