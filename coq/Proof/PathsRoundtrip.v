(** [write_require_path] followed by [Path::new(..).components()] is the identity on
    relative paths made of an optional leading ".", ".." and well-formed names: the
    argument written by convert_require is read back as the generated path. *)
From DL Require Import Lib.Bytes Model.Paths Model.Require Proof.PathsBasics Proof.PathsFacts.
Require Import Lia PeanoNat.
Open Scope N_scope.

Definition wf_comp (c : comp) : bool :=
  match c with Par => true | Norm n => wf_name n | _ => false end.

Definition wf_rel (p : path) : bool :=
  match p with Cur :: r => forallb wf_comp r | _ => forallb wf_comp p end.

Lemma wf_comp_text c :
  wf_comp c = true ->
  comp_bytes c <> [] /\ existsb (N.eqb slash) (comp_bytes c) = false /\
  is_dot (comp_bytes c) = false /\ seg_comps [comp_bytes c] = [c].
Proof.
  destruct c; try discriminate; cbn [wf_comp comp_bytes].
  - intros _. repeat split; try reflexivity. discriminate.
  - unfold wf_name. intros H.
    apply andb_true_iff in H as [H Hdd]. apply andb_true_iff in H as [H Hd]. apply andb_true_iff in H as [Hne Hs].
    apply negb_true_iff in Hdd, Hd, Hne, Hs. repeat split; try assumption.
    + intros ->. discriminate.
    + cbn [seg_comps]. rewrite Hne, Hd, Hdd. reflexivity.
Qed.

Lemma ends_with_b_app_no a b c :
  b <> [] -> existsb (N.eqb c) b = false -> ends_with_b (a ++ b) c = false.
Proof.
  intros Hb Hc. induction a as [|x a IH].
  - clear Hb. induction b as [|y b IH]; [reflexivity|]. cbn [existsb] in Hc.
    apply orb_false_iff in Hc as [Hy Hc]. cbn [app ends_with_b]. destruct b.
    + rewrite N.eqb_sym. exact Hy.
    + apply IH. exact Hc.
  - cbn [app ends_with_b]. destruct (a ++ b) eqn:E; [|exact IH].
    apply app_eq_nil in E as [_ E]. congruence.
Qed.

Definition tail_text (l : list comp) : bytes := List.concat (map (fun c => slash :: comp_bytes c) l).

Lemma write_fold_tail l acc :
  forallb wf_comp l = true -> acc <> [] -> ends_with_slash acc = false ->
  fold_left write_step l acc = acc ++ tail_text l.
Proof.
  revert acc. induction l as [|c l IH]; intros acc Hl Hacc Hend; cbn [fold_left].
  - symmetry. apply app_nil_r.
  - cbn [forallb] in Hl. apply andb_true_iff in Hl as [Hc Hl].
    destruct (wf_comp_text c Hc) as (Hne & Hns & _ & _).
    assert (E : write_step acc c = (acc ++ [slash]) ++ comp_bytes c).
    { unfold write_step. rewrite Hend. destruct acc as [|a0 acc0]; [congruence|]. cbn [orb].
      destruct c; try discriminate; reflexivity. }
    rewrite E, IH.
    + change (tail_text (c :: l)) with ((slash :: comp_bytes c) ++ tail_text l).
      rewrite <- !app_assoc. reflexivity.
    + exact Hl.
    + apply app_nonempty_r. exact Hne.
    + apply ends_with_b_app_no; assumption.
Qed.

Lemma write_text c l :
  comp_bytes c <> [] -> existsb (N.eqb slash) (comp_bytes c) = false -> forallb wf_comp l = true ->
  write_require_path (c :: l) = comp_bytes c ++ tail_text l.
Proof.
  intros Hne Hns Hl. unfold write_require_path. cbn [fold_left].
  assert (E : write_step [] c = comp_bytes c) by (destruct c; reflexivity).
  rewrite E. apply write_fold_tail; [exact Hl|exact Hne|].
  apply (ends_with_b_app_no [] _ _ Hne Hns).
Qed.

Lemma split_slash_acc_app s rest cur :
  existsb (N.eqb slash) s = false -> split_slash_acc (s ++ rest) cur = split_slash_acc rest (rev s ++ cur).
Proof.
  revert cur. induction s as [|c s IH]; intros cur H; [reflexivity|]. cbn [app split_slash_acc].
  cbn [existsb] in H. apply orb_false_iff in H as [Hc Hs].
  rewrite N.eqb_sym in Hc. rewrite Hc, IH by exact Hs. cbn [rev]. rewrite <- app_assoc. reflexivity.
Qed.

Lemma split_tail_text l t :
  forallb wf_comp l = true -> existsb (N.eqb slash) t = false ->
  split_slash (t ++ tail_text l) = t :: map comp_bytes l.
Proof.
  unfold split_slash. revert t. induction l as [|c l IH]; intros t Hl Ht; rewrite split_slash_acc_app by exact Ht.
  - cbn [tail_text map List.concat split_slash_acc]. rewrite app_nil_r, rev_involutive. reflexivity.
  - cbn [forallb] in Hl. apply andb_true_iff in Hl as [Hc Hl].
    destruct (wf_comp_text c Hc) as (_ & Hns & _ & _).
    change (tail_text (c :: l)) with (slash :: comp_bytes c ++ tail_text l).
    cbn [split_slash_acc]. rewrite N.eqb_refl, app_nil_r, rev_involutive, (IH _ Hl Hns). reflexivity.
Qed.

Lemma seg_comps_cons n r : seg_comps (n :: r) = seg_comps [n] ++ seg_comps r.
Proof.
  cbn [seg_comps]. destruct (bytes_eqb n [] || is_dot n); [reflexivity|]. destruct (is_dotdot n); reflexivity.
Qed.

Lemma seg_comps_map l : forallb wf_comp l = true -> seg_comps (map comp_bytes l) = l.
Proof.
  induction l as [|c l IH]; [reflexivity|]. cbn [forallb map]. intros H.
  apply andb_true_iff in H as [Hc Hl].
  destruct (wf_comp_text c Hc) as (_ & _ & _ & E). rewrite seg_comps_cons, E, IH by exact Hl. reflexivity.
Qed.

Lemma parse_text (b : bytes) l :
  b <> [] -> existsb (N.eqb slash) b = false -> forallb wf_comp l = true ->
  parse_path (b ++ tail_text l) = if is_dot b then Cur :: l else seg_comps [b] ++ l.
Proof.
  intros Hne Hns Hl. unfold parse_path. rewrite (split_tail_text l b Hl Hns).
  destruct b as [|b0 t0]; [congruence|]. cbn [app].
  cbn [existsb] in Hns. apply orb_false_iff in Hns as [Hb0 _]. rewrite N.eqb_sym in Hb0. rewrite Hb0.
  rewrite seg_comps_cons, seg_comps_map by exact Hl. reflexivity.
Qed.

Theorem parse_write_roundtrip p : wf_rel p = true -> parse_path (write_require_path p) = p.
Proof.
  destruct p as [|c l]; [reflexivity|]. intros H.
  destruct c; cbn [wf_rel forallb wf_comp andb] in H; try discriminate.
  - rewrite write_text, parse_text by (try exact H; try reflexivity; discriminate). reflexivity.
  - rewrite write_text, parse_text by (try exact H; try reflexivity; discriminate). reflexivity.
  - apply andb_true_iff in H as [Hc Hl].
    destruct (wf_comp_text (Norm n) Hc) as (Hne & Hns & Hd & E).
    rewrite write_text, parse_text by assumption. rewrite Hd, E. reflexivity.
Qed.

Lemma parse_path_wf_name n : wf_name n = true -> parse_path n = [Norm n].
Proof.
  intros H. apply (parse_write_roundtrip [Norm n]). cbn [wf_rel forallb wf_comp]. rewrite H. reflexivity.
Qed.
