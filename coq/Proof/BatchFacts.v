(** C11: what a batch run writes (one output per successful item, at its output path, from
    the original inputs, and nothing else), independence from the processing order, isolation
    of a faulty file, fail-fast; that hidden state cannot matter when the transformation is a
    function of the file and the file system; instances that meet the hypotheses, and the
    refutations that show each hypothesis is needed. *)
From Coq Require Import Arith PeanoNat Lia Permutation.
From DL Require Import Lib.Bytes Model.WorkerFs Model.Batch Proof.WorkerBasics.
Open Scope N_scope.

Lemma has_src_spec s l : has_src s l = true <-> exists it, In it l /\ fst it = s.
Proof.
  induction l as [|it l IH]; cbn [has_src In].
  - split; [discriminate|intros [it [[] _]]].
  - rewrite orb_true_iff, IH, path_eqb_eq. split.
    + intros [H|[x [H1 H2]]]; [exists it; auto|exists x; auto].
    + intros [x [[->|H1] H2]]; [left; exact H2|right; exists x; auto].
Qed.

Lemma add_missing_in l : forall acc it, In it (add_missing acc l) -> In it acc \/ In it l.
Proof.
  induction l as [|x l IH]; intros acc it H; cbn [add_missing] in H; [left; exact H|].
  apply IH in H as [H|H]; [|right; right; exact H].
  destruct (has_src (fst x) acc); [left; exact H|].
  apply in_app_or in H as [H|[<-|[]]]; [left; exact H|right; left; reflexivity].
Qed.

Lemma add_missing_keeps l : forall acc it, In it acc -> In it (add_missing acc l).
Proof.
  induction l as [|x l IH]; intros acc it H; cbn [add_missing]; [exact H|].
  apply IH. destruct (has_src (fst x) acc); [exact H|apply in_or_app; left; exact H].
Qed.

Lemma add_missing_covers l : forall acc it, In it l -> exists y, In y (add_missing acc l) /\ fst y = fst it.
Proof.
  induction l as [|x l IH]; intros acc it H; [destruct H|]. cbn [add_missing].
  destruct H as [->|H]; [|apply IH; exact H].
  destruct (has_src (fst it) acc) eqn:Eh.
  - apply has_src_spec in Eh as [y [H1 H2]]. exists y. split; [apply add_missing_keeps; exact H1|exact H2].
  - exists it. split; [apply add_missing_keeps; apply in_or_app; right; left; reflexivity|reflexivity].
Qed.

Lemma add_missing_nodup l : forall acc,
  NoDup (map fst acc) -> NoDup (map fst (add_missing acc l)).
Proof.
  induction l as [|x l IH]; intros acc H; cbn [add_missing]; [exact H|].
  apply IH. destruct (has_src (fst x) acc) eqn:Eh; [exact H|].
  rewrite map_app. cbn [map]. eapply Permutation_NoDup; [apply Permutation_cons_append|]. constructor; [|exact H].
  intros Hin. apply in_map_iff in Hin as [y [H1 H2]].
  assert (has_src (fst x) acc = true) by (apply has_src_spec; eauto). congruence.
Qed.

(** when the output is a function of the source, [add_missing] only removes repetitions: one item per source *)
Lemma add_missing_sources (out : path -> path) (l : list path) :
  let items := add_missing [] (map (fun s => (s, out s)) l) in
  (forall s o, In (s, o) items <-> In s l /\ o = out s) /\ NoDup (map fst items).
Proof.
  set (l' := map (fun s => (s, out s)) l). cbn zeta. split; [|apply add_missing_nodup; constructor].
  assert (Hl' : forall s o, In (s, o) l' <-> In s l /\ o = out s).
  { intros s o. unfold l'. rewrite in_map_iff. split.
    - intros [s' [Heq Hs']]. inversion Heq; subst. auto.
    - intros [Hs ->]. eauto. }
  intros s o. rewrite <- Hl'. split.
  - intros Hin. apply add_missing_in in Hin as [[]|Hin]. exact Hin.
  - intros Hl. destruct (add_missing_covers l' [] _ Hl) as [[s' o'] [H1 H2]]. cbn [fst] in H2. subst s'.
    pose proof H1 as H1'. apply add_missing_in in H1' as [[]|H1'].
    apply Hl' in H1' as [_ ->]. apply Hl' in Hl as [_ ->]. exact H1.
Qed.

Theorem collect_dir_mirror f input out items :
  fs_is_file f input = false ->
  collect f input (Some out) = Some items ->
  (forall s o, In (s, o) items <->
               (fs_get f s <> None /\ starts_with input s = true /\ is_lua_path s = true) /\
               o = rebase input out s) /\
  NoDup (map fst items).
Proof.
  intros Hf H. unfold collect in H. rewrite Hf in H. inversion H as [Hi]. clear H.
  destruct (add_missing_sources (rebase input out) (fs_collect f input)) as [Hspec Hnd].
  split; [|exact Hnd]. intros s o. rewrite <- fs_collect_spec. apply Hspec.
Qed.

Theorem collect_in_place f input items :
  collect f input None = Some items ->
  (forall s o, In (s, o) items <->
               (fs_get f s <> None /\ starts_with input s = true /\ is_lua_path s = true) /\ o = s) /\
  NoDup (map fst items).
Proof.
  intros H. unfold collect in H. inversion H as [Hi]. clear H.
  destruct (add_missing_sources (fun s => s) (fs_collect f input)) as [Hspec Hnd].
  split; [|exact Hnd]. intros s o. rewrite <- fs_collect_spec. apply Hspec.
Qed.

(** a single file given as input, with an output: exactly one item, whatever the extension
    of the input, at the path the decision gives *)
Theorem collect_single_file f input out items :
  fs_is_file f input = true ->
  collect f input (Some out) = Some items ->
  exists o, items = [(input, o)] /\
            match output_decision (fs_is_dir f out) (fs_is_file f out) (is_some (path_extension out)) with
            | AsFile => o = out
            | InsideDirectory => exists n, file_name input = Some n /\ o = (out ++ [n])%list
            end.
Proof.
  intros Hf H. unfold collect in H. rewrite Hf in H.
  destruct (output_decision (fs_is_dir f out) (fs_is_file f out) (is_some (path_extension out))).
  - inversion H. eauto.
  - destruct (file_name input) as [n|]; [|discriminate]. cbn in H. inversion H. eauto.
Qed.

(** a single file given as input without output: processed in place if and only if its
    extension is lua/luau *)
Theorem collect_single_in_place f input items :
  fs_is_file f input = true -> fs_is_dir f input = false ->
  collect f input None = Some items ->
  forall s o, In (s, o) items <-> (s = input /\ o = input /\ is_lua_path input = true).
Proof.
  intros Hf Hd Hc s o. destruct (collect_in_place f input items Hc) as [Hspec _]. rewrite Hspec.
  assert (Hex : fs_get f input <> None).
  { unfold fs_is_file in Hf. destruct (fs_get f input); discriminate. }
  split.
  - intros [[H1 [H2 H3]] ->].
    assert (s = input).
    { destruct (path_eq_dec s input) as [E|E]; [exact E|]. exfalso.
      assert (fs_is_dir f input = true) by (apply fs_is_dir_spec; exists s; auto). congruence. }
    subst s. auto.
  - intros [-> [-> H]]. split; [|reflexivity]. split; [exact Hex|]. split; [apply starts_with_refl|exact H].
Qed.

Lemma fs_get_write_other g q o p : p <> q -> fs_get (fs_write g q o) p = fs_get g p.
Proof.
  intros Hp. rewrite fs_get_write. destruct (path_eqb q p) eqn:E; [|reflexivity].
  apply path_eqb_eq in E. congruence.
Qed.

Lemma fs_get_del_other g q p : p <> q -> fs_get (fs_del g q) p = fs_get g p.
Proof.
  intros Hp. rewrite fs_get_del. destruct (path_eqb q p) eqn:E; [|reflexivity].
  apply path_eqb_eq in E. congruence.
Qed.

Section Facts.
  Variable cfg : Type.
  Variable xform : cfg -> path -> content -> fs -> option content * list path.

  Notation outcome := (outcome cfg xform).
  Notation run_batch := (run_batch cfg xform).
  Notation spec_get := (spec_get cfg xform).
  Notation until_failure := (until_failure cfg xform).

  (** outputs are distinct, and no item's source is another item's output *)
  Definition wf_items (items : list bitem) : Prop :=
    NoDup (map snd items) /\ forall a b, In a items -> In b items -> snd b = fst a -> a = b.

  (** the transformation of any file does not read an output path of the batch *)
  Definition reads_no_output (c : cfg) (items : list bitem) : Prop :=
    forall s txt g g', (forall p, ~ In p (map snd items) -> fs_get g p = fs_get g' p) ->
                       xform c s txt g = xform c s txt g'.

  Lemma spec_get_ext c f items g g' p :
    fs_get g p = fs_get g' p -> spec_get c f items g p = spec_get c f items g' p.
  Proof.
    intros H. induction items as [|it items IH]; cbn [Batch.spec_get]; [exact H|].
    destruct (path_eqb (snd it) p); [|exact IH]. destruct (outcome c f it); [reflexivity|exact IH].
  Qed.

  Lemma spec_get_notin c f items g p :
    (forall it, In it items -> snd it <> p) -> spec_get c f items g p = fs_get g p.
  Proof.
    induction items as [|it items IH]; intros H; cbn [Batch.spec_get]; [reflexivity|].
    destruct (path_eqb (snd it) p) eqn:E.
    - apply path_eqb_eq in E. exfalso. apply (H it); [left; reflexivity|exact E].
    - apply IH. intros x Hx. apply H. right. exact Hx.
  Qed.

  Lemma spec_get_in c f items g p it :
    NoDup (map snd items) -> In it items -> snd it = p ->
    spec_get c f items g p = match outcome c f it with Some o => Some o | None => fs_get g p end.
  Proof.
    induction items as [|x items IH]; intros Hnd Hin Hp; [destruct Hin|].
    cbn [Batch.spec_get]. cbn [map] in Hnd. inversion Hnd as [|? ? Hnot Hnd']; subst.
    destruct Hin as [->|Hin].
    - rewrite path_eqb_refl. destruct (outcome c f it); [reflexivity|].
      apply spec_get_notin. intros y Hy Heq. apply Hnot. rewrite <- Heq. apply in_map. exact Hy.
    - assert (Hne : path_eqb (snd x) (snd it) = false).
      { apply path_eqb_neq. intros Heq. apply Hnot. rewrite Heq. apply in_map. exact Hin. }
      rewrite Hne. apply IH; auto.
  Qed.

  Lemma run_batch_shape ff c items g :
    run_batch ff c items g = (fst (run_batch ff c items g), snd (run_batch ff c items g)).
  Proof. destruct (run_batch ff c items g); reflexivity. Qed.

  (** the specification of [it :: items] is that of [items] on the state the item leaves behind *)
  Lemma spec_get_cons c f it items g p : ~ In (snd it) (map snd items) ->
    spec_get c f (it :: items) g p =
    spec_get c f items (match outcome c f it with Some o => fs_write g (snd it) o | None => g end) p.
  Proof.
    intros Hnot. cbn [Batch.spec_get].
    destruct (outcome c f it) as [o|]; [|destruct (path_eqb (snd it) p); reflexivity].
    destruct (path_eqb (snd it) p) eqn:E.
    - apply path_eqb_eq in E. subst p. rewrite spec_get_notin, fs_get_write, path_eqb_refl; [reflexivity|].
      intros y Hy Heq. apply Hnot. rewrite <- Heq. apply in_map. exact Hy.
    - apply spec_get_ext. symmetry. apply fs_get_write_other. apply path_eqb_neq in E. congruence.
  Qed.

  (** a run of [all] started on [f] has reached [g] with [items] still to do: [g] differs from [f] at output
      paths only, and the sources of [items] are as they were *)
  Definition pending (all : list bitem) (f : fs) (items : list bitem) (g : fs) : Prop :=
    incl items all /\ NoDup (map snd items) /\
    (forall p, ~ In p (map snd all) -> fs_get g p = fs_get f p) /\
    (forall it, In it items -> fs_get g (fst it) = fs_get f (fst it)).

  Lemma pending_outcome c all f it items g :
    reads_no_output c all -> pending all f (it :: items) g -> outcome c g it = outcome c f it.
  Proof.
    intros Hind [_ [_ [Hout Hsrc]]]. unfold Batch.outcome. rewrite (Hsrc it (or_introl eq_refl)).
    destruct (fs_get f (fst it)) as [txt|]; [|reflexivity]. f_equal. apply Hind. exact Hout.
  Qed.

  (** writing the output of the first item leaves the others pending: its output is an output of the batch,
      and the source of no other item *)
  Lemma pending_step all f it items g g' :
    wf_items all -> pending all f (it :: items) g ->
    (forall p, p <> snd it -> fs_get g' p = fs_get g p) -> pending all f items g'.
  Proof.
    intros [_ Hwf] [Hincl [Hnd [Hout Hsrc]]] Hg'. inversion Hnd as [|? ? Hnot Hnd']; subst.
    assert (Hit : In it all) by (apply Hincl; left; reflexivity).
    split; [intros x Hx; apply Hincl; right; exact Hx|]. split; [exact Hnd'|]. split.
    - intros p Hp. rewrite Hg'; [apply Hout; exact Hp|]. intros ->. apply Hp. apply in_map. exact Hit.
    - intros x Hx. rewrite Hg'; [apply Hsrc; right; exact Hx|].
      intros Heq. assert (x = it) by (apply Hwf; [apply Hincl; right; exact Hx|exact Hit|auto]).
      subst x. apply Hnot. apply in_map. exact Hx.
  Qed.

  (** the central fact: processing the pending items gives, point-wise, the specification computed from
      the original files *)
  Lemma run_spec c all f : wf_items all -> reads_no_output c all ->
    forall items g, pending all f items g ->
      (forall p, fs_get (fst (run_batch false c items g)) p = spec_get c f items g p) /\
      snd (run_batch false c items g) = map (fun it => (fst it, is_some (outcome c f it))) items.
  Proof.
    intros W Hind. induction items as [|it items IH]; intros g K; [cbn; auto|].
    set (g' := match outcome c f it with Some o => fs_write g (snd it) o | None => g end).
    destruct (IH g') as [Hr1 Hr2].
    { apply (pending_step all f it items g g' W K). intros p Hp. unfold g'.
      destruct (outcome c f it); [apply fs_get_write_other; exact Hp|reflexivity]. }
    assert (Hrun : run_batch false c (it :: items) g =
                   (fst (run_batch false c items g'),
                    (fst it, is_some (outcome c f it)) :: snd (run_batch false c items g'))).
    { cbn [Batch.run_batch]. unfold process_item. rewrite (pending_outcome c all f it items g Hind K). unfold g'.
      destruct (outcome c f it); cbn [andb]; rewrite run_batch_shape; reflexivity. }
    rewrite Hrun. cbn [fst snd map]. rewrite Hr2. split; [|reflexivity].
    intros p. rewrite Hr1. symmetry. apply spec_get_cons. destruct K as [_ [Hnd _]]. inversion Hnd; assumption.
  Qed.

  Theorem batch_one_to_one c items f :
    wf_items items -> reads_no_output c items ->
    (forall p, fs_get (fst (run_batch false c items f)) p = spec_get c f items f p) /\
    snd (run_batch false c items f) = map (fun it => (fst it, is_some (outcome c f it))) items.
  Proof.
    intros W I. apply (run_spec c items f W I). split; [apply incl_refl|]. split; [apply W|]. split; reflexivity.
  Qed.

  (** every path that is not the output of an item keeps its content: input files are never
      modified when the outputs lie elsewhere *)
  Theorem batch_untouched c items f p :
    wf_items items -> reads_no_output c items ->
    (forall it, In it items -> snd it <> p) ->
    fs_get (fst (run_batch false c items f)) p = fs_get f p.
  Proof.
    intros W I H. rewrite (proj1 (batch_one_to_one c items f W I)). apply spec_get_notin. exact H.
  Qed.

  (** nothing is written for an item that fails, and a successful item's output is the
      transformation of the ORIGINAL source *)
  Theorem batch_item_result c items f it :
    wf_items items -> reads_no_output c items -> In it items ->
    fs_get (fst (run_batch false c items f)) (snd it) =
    match outcome c f it with Some o => Some o | None => fs_get f (snd it) end.
  Proof.
    intros W I Hin. rewrite (proj1 (batch_one_to_one c items f W I)).
    apply spec_get_in; [apply W|exact Hin|reflexivity].
  Qed.

  Lemma wf_items_perm items items' : Permutation items items' -> wf_items items -> wf_items items'.
  Proof.
    intros P [H1 H2]. split.
    - eapply Permutation_NoDup; [apply Permutation_map; exact P|exact H1].
    - intros a b Ha Hb. apply H2; eapply Permutation_in; try eassumption; apply Permutation_sym; exact P.
  Qed.

  Lemma reads_no_output_incl c items items' :
    incl (map snd items') (map snd items) -> reads_no_output c items -> reads_no_output c items'.
  Proof.
    intros Hi H s txt g g' Hg. apply H. intros p Hp. apply Hg. intros Hin. apply Hp. apply Hi. exact Hin.
  Qed.

  Lemma spec_get_perm c f items items' g p :
    NoDup (map snd items) -> Permutation items items' ->
    spec_get c f items g p = spec_get c f items' g p.
  Proof.
    intros Hnd P.
    assert (Hnd' : NoDup (map snd items')) by (eapply Permutation_NoDup; [apply Permutation_map; exact P|exact Hnd]).
    destruct (in_dec path_eq_dec p (map snd items)) as [Hin|Hno].
    - apply in_map_iff in Hin as [it [Heq Hin]].
      rewrite (spec_get_in c f items g p it Hnd Hin Heq).
      rewrite (spec_get_in c f items' g p it Hnd' (Permutation_in _ P Hin) Heq). reflexivity.
    - rewrite !spec_get_notin; [reflexivity| |]; intros it Hin <-; apply Hno, in_map; [|exact Hin].
      apply (Permutation_in _ (Permutation_sym P)). exact Hin.
  Qed.

  Theorem order_irrelevant c items items' f :
    Permutation items items' -> wf_items items -> reads_no_output c items ->
    (forall p, fs_get (fst (run_batch false c items f)) p = fs_get (fst (run_batch false c items' f)) p) /\
    Permutation (snd (run_batch false c items f)) (snd (run_batch false c items' f)).
  Proof.
    intros P W I.
    pose proof (wf_items_perm _ _ P W) as W'. assert (I' : reads_no_output c items').
    { eapply reads_no_output_incl; [|exact I]. intros p. apply Permutation_in. apply Permutation_map, Permutation_sym, P. }
    destruct (batch_one_to_one c items f W I) as [H1 H2].
    destruct (batch_one_to_one c items' f W' I') as [H1' H2']. split.
    - intros p. rewrite H1, H1'. apply spec_get_perm; [apply W|exact P].
    - rewrite H2, H2'. apply Permutation_map. exact P.
  Qed.

  (** isolation: the other files are processed as if the faulty one were absent *)
  Definition without (j : bitem) (items : list bitem) : list bitem :=
    filter (fun it => negb (path_eqb (fst it) (fst j))) items.

  (** no other file's transformation looks at the file [q] *)
  Definition ignores (c : cfg) (q : path) : Prop :=
    forall s txt g g', s <> q -> (forall p, p <> q -> fs_get g p = fs_get g' p) ->
                       xform c s txt g = xform c s txt g'.

  Lemma wf_items_filter keep items : wf_items items -> wf_items (filter keep items).
  Proof.
    intros [W1 W2]. split.
    - clear W2. induction items as [|x l IH]; cbn [filter]; [constructor|].
      cbn [map] in W1. inversion W1 as [|? ? Hn Hnd]; subst.
      destruct (keep x); [|apply IH; exact Hnd]. cbn [map]. constructor; [|apply IH; exact Hnd].
      intros Hin. apply Hn. revert Hin. apply incl_map. apply incl_filter.
    - intros a b Ha Hb. apply filter_In in Ha as [Ha _]. apply filter_In in Hb as [Hb _]. apply W2; assumption.
  Qed.

  Theorem isolation c items f j it :
    wf_items items -> reads_no_output c items -> ignores c (fst j) ->
    In j items -> In it items -> fst it <> fst j ->
    fs_get (fst (run_batch false c items f)) (snd it) =
    fs_get (fst (run_batch false c (without j items) (fs_del f (fst j)))) (snd it)
    /\ outcome c f it = outcome c (fs_del f (fst j)) it.
  Proof.
    intros W I Hig Hj Hit Hne.
    assert (W' : wf_items (without j items)) by (apply wf_items_filter; exact W).
    assert (I' : reads_no_output c (without j items)).
    { eapply reads_no_output_incl; [|exact I]. apply incl_map. apply incl_filter. }
    assert (Hit' : In it (without j items)).
    { apply filter_In. split; [exact Hit|]. apply negb_true_iff, path_eqb_neq. exact Hne. }
    assert (Hout : outcome c f it = outcome c (fs_del f (fst j)) it).
    { unfold Batch.outcome. rewrite (fs_get_del_other f _ _ Hne).
      destruct (fs_get f (fst it)) as [txt|]; [|reflexivity]. f_equal.
      apply Hig; [exact Hne|]. intros p Hp. symmetry. apply fs_get_del_other. exact Hp. }
    split; [|exact Hout].
    rewrite (batch_item_result c items f it W I Hit).
    rewrite (batch_item_result c (without j items) (fs_del f (fst j)) it W' I' Hit').
    rewrite <- Hout. destruct (outcome c f it); [reflexivity|].
    symmetry. apply fs_get_del_other. intros E. apply Hne.
    destruct W as [_ W2]. rewrite (W2 j it Hj Hit E). reflexivity.
  Qed.

  Theorem fail_fast_prefix c all f : wf_items all -> reads_no_output c all ->
    forall items g,
      incl items all -> NoDup (map snd items) ->
      (forall p, ~ In p (map snd all) -> fs_get g p = fs_get f p) ->
      (forall it, In it items -> fs_get g (fst it) = fs_get f (fst it)) ->
      run_batch true c items g = run_batch false c (until_failure c f items) g.
  Proof.
    intros W Hind items g Hincl Hnd Hout Hsrc.
    pose proof (conj Hincl (conj Hnd (conj Hout Hsrc)) : pending all f items g) as K.
    clear Hincl Hnd Hout Hsrc. revert g K. induction items as [|it items IH]; intros g K; [reflexivity|].
    pose proof (pending_outcome c all f it items g Hind K) as Ho.
    cbn [Batch.run_batch Batch.until_failure]. unfold process_item. rewrite Ho.
    destruct (outcome c f it) as [o|] eqn:Eo; cbn [andb negb Batch.run_batch]; unfold process_item; rewrite Ho;
      [|reflexivity].
    cbn [andb negb]. rewrite IH; [reflexivity|].
    apply (pending_step all f it items g _ W K). intros p Hp. apply fs_get_write_other. exact Hp.
  Qed.
End Facts.

Lemma nodup_map_inj {A B} (g : A -> B) (l : list A) :
  (forall x y, In x l -> In y l -> g x = g y -> x = y) -> NoDup l -> NoDup (map g l).
Proof.
  induction l as [|x l IH]; intros Hinj Hn; cbn; [constructor|].
  inversion Hn as [|? ? Hx Hn']; subst. constructor.
  - intros Hin. apply in_map_iff in Hin as [y [H1 H2]].
    assert (y = x) by (apply Hinj; [right; exact H2|left; reflexivity|exact H1]). subst. contradiction.
  - apply IH; [|exact Hn']. intros a b Ha Hb. apply Hinj; right; assumption.
Qed.

Lemma nodup_fst_items (items : list bitem) a b :
  NoDup (map fst items) -> In a items -> In b items -> fst a = fst b -> a = b \/ snd a <> snd b \/ True.
Proof. auto. Qed.

(** items made from a list of sources by an output function are well formed when the function is
    injective on the sources and gives no source the path of another *)
Lemma add_missing_wf (out : path -> path) (l : list path) :
  (forall s s', In s l -> In s' l -> out s = out s' -> s = s') ->
  (forall s s', In s l -> In s' l -> out s' = s -> s = s') ->
  wf_items (add_missing [] (map (fun s => (s, out s)) l)).
Proof.
  intros Hinj Hsrc. destruct (add_missing_sources out l) as [Hspec Hnd].
  set (items := add_missing [] (map (fun s => (s, out s)) l)) in *. split.
  - replace (map snd items) with (map (fun it => out (fst it)) items)
      by (apply map_ext_in; intros [s o] Hin; symmetry; apply Hspec; exact Hin).
    apply nodup_map_inj; [|exact (NoDup_map_inv _ _ Hnd)].
    intros [s o] [s' o'] Ha Hb Heq. apply Hspec in Ha as [Hs ->]. apply Hspec in Hb as [Hs' ->].
    rewrite (Hinj s s' Hs Hs' Heq). reflexivity.
  - intros [s o] [s' o'] Ha Hb Heq. apply Hspec in Ha as [Hs ->]. apply Hspec in Hb as [Hs' ->].
    rewrite (Hsrc s s' Hs Hs' Heq). reflexivity.
Qed.

(** directory to a separate output location (the output is not a prefix of a source) *)
Theorem collect_dir_wf f input out items :
  fs_is_file f input = false ->
  collect f input (Some out) = Some items ->
  (forall s, In s (fs_collect f input) -> starts_with out s = false) ->
  wf_items items.
Proof.
  intros Hf Hc Hsep. unfold collect in Hc. rewrite Hf in Hc. injection Hc as <-. apply add_missing_wf.
  - intros s s' Hs Hs'. apply fs_collect_spec in Hs as [_ [Hs _]]. apply fs_collect_spec in Hs' as [_ [Hs' _]].
    apply rebase_inj; assumption.
  - intros s s' Hs _ Heq. pose proof (Hsep s Hs) as Hno. rewrite <- Heq, rebase_starts in Hno. discriminate.
Qed.

Theorem collect_in_place_wf f input items :
  collect f input None = Some items -> wf_items items.
Proof. intros Hc. injection Hc as <-. apply add_missing_wf; auto. Qed.

(** processing a directory into a separate location never modifies a file outside it *)
Theorem inputs_untouched cfg xform (c : cfg) f input out items p :
  fs_is_file f input = false ->
  collect f input (Some out) = Some items ->
  (forall s, In s (fs_collect f input) -> starts_with out s = false) ->
  reads_no_output cfg xform c items ->
  starts_with out p = false ->
  fs_get (fst (run_batch cfg xform false c items f)) p = fs_get f p.
Proof.
  intros Hf Hc Hsep Hr Hp. apply batch_untouched; [eapply collect_dir_wf; eassumption|exact Hr|].
  intros [s o] Hin Heq. cbn in Heq. subst o.
  destruct (collect_dir_mirror f input out items Hf Hc) as [Hspec _].
  apply Hspec in Hin as [_ ->]. rewrite rebase_starts in Hp. discriminate.
Qed.

Section StatefulFacts.
  Variable cfg : Type.
  Variable st : Type.
  Variable xform : cfg -> path -> content -> fs -> option content * list path.
  Variable sxform : st -> cfg -> path -> content -> fs -> (option content * list path) * st.

  (** the hidden state (caches, earlier items, earlier runs) never changes a result *)
  Definition stateless : Prop :=
    forall s c q txt f, fst (sxform s c q txt f) = xform c q txt f.

  Lemma stateless_item c f s it : stateless -> fst (process_item_st cfg st sxform c f s it) = process_item cfg xform c f it.
  Proof.
    intros H. unfold process_item_st, process_item, outcome.
    destruct (fs_get f (fst it)) as [txt|]; [|reflexivity].
    rewrite <- (H s c (fst it) txt f). destruct (sxform s c (fst it) txt f) as [r s']. cbn [fst].
    destruct (fst r); reflexivity.
  Qed.

  (** then the stateful run, from ANY initial state, is the pure run: the theorems about
      [run_batch] (one-to-one, isolation, order irrelevance) apply, and what was processed before
      on the same thread - in this run or in an earlier one - cannot matter *)
  Theorem stateless_run ff c : stateless -> forall items f s,
    fst (run_batch_st cfg st sxform ff c items f s) = run_batch cfg xform ff c items f.
  Proof.
    intros H. induction items as [|it items IH]; intros f s; [reflexivity|].
    cbn [run_batch_st Batch.run_batch]. rewrite <- (stateless_item c f s it H).
    destruct (process_item_st cfg st sxform c f s it) as [[f1 ok] s1]. cbn [fst].
    destruct (ff && negb ok); [reflexivity|].
    rewrite <- (IH f1 s1). destruct (run_batch_st cfg st sxform ff c items f1 s1) as [[f2 sts] s2]. reflexivity.
  Qed.

  Corollary earlier_state_irrelevant ff c items f s s' :
    stateless ->
    fst (run_batch_st cfg st sxform ff c items f s) = fst (run_batch_st cfg st sxform ff c items f s').
  Proof. intros H. rewrite !(stateless_run ff c H). reflexivity. Qed.
End StatefulFacts.

(** a cache that is keyed too coarsely makes the result depend on the order: the first
    [.luaurc] resolved is reused for every later file *)
Definition rc_root : path := ["src"; ".luaurc"]%string.
Definition rc_nested : path := ["src"; "nested"; ".luaurc"]%string.
Definition rc_top : path := ["src"; "top.lua"]%string.
Definition rc_low : path := ["src"; "nested"; "low.lua"]%string.

Definition closest_rc (q : path) (f : fs) : option content :=
  if starts_with ["src"; "nested"]%string q then
    match fs_get f rc_nested with Some r => Some r | None => fs_get f rc_root end
  else fs_get f rc_root.

(** pure: every file uses its closest [.luaurc] *)
Definition rc_xform (c : N) (q : path) (txt : content) (f : fs) : option content * list path :=
  (option_map (fun r => r ++ txt) (closest_rc q f), []).

(** with a cache shared by all directories *)
Definition rc_sxform (s : option content) (c : N) (q : path) (txt : content) (f : fs)
  : (option content * list path) * option content :=
  match s with
  | Some r => ((Some (r ++ txt), []), s)
  | None => ((option_map (fun r => r ++ txt) (closest_rc q f), []), closest_rc q f)
  end.

Definition rc_fs : fs := [(rc_root, [1]); (rc_nested, [2]); (rc_top, [10]); (rc_low, [20])].
Definition rc_items : list bitem :=
  [(rc_top, ["out"; "top.lua"]%string); (rc_low, ["out"; "nested"; "low.lua"]%string)].

Theorem shared_cache_order_refuted :
  Permutation rc_items (rev rc_items) /\
  fs_get (fst (fst (run_batch_st N (option content) rc_sxform false 0 rc_items rc_fs None)))
         ["out"; "nested"; "low.lua"]%string <>
  fs_get (fst (fst (run_batch_st N (option content) rc_sxform false 0 (rev rc_items) rc_fs None)))
         ["out"; "nested"; "low.lua"]%string /\
  (* and a state left by an earlier run changes the result of this one *)
  fs_get (fst (fst (run_batch_st N (option content) rc_sxform false 0 rc_items rc_fs (Some [9]))))
         ["out"; "top.lua"]%string <>
  fs_get (fst (run_batch N rc_xform false 0 rc_items rc_fs)) ["out"; "top.lua"]%string.
Proof. split; [apply Permutation_rev|]. split; vm_compute; discriminate. Qed.

Definition b_a : path := ["src"; "a.lua"]%string.
Definition b_b : path := ["src"; "b.lua"]%string.
Definition b_main : path := ["src"; "main.lua"]%string.

(** [main.lua] inlines [a.lua]; a text starting with byte 0 does not parse; rules add 100 *)
Definition b_xform (c : N) (q : path) (txt : content) (f : fs) : option content * list path :=
  match txt with
  | 0 :: _ => (None, [])
  | _ =>
    if path_eqb q b_main then
      match fs_get f b_a with
      | Some at_ => (Some (100 :: txt ++ at_), [b_a])
      | None => (None, [])
      end
    else (Some (100 :: txt), [])
  end.

Definition b_fs : fs := [(b_a, [1]); (b_b, [2]); (b_main, [3])].
Definition b_out (s : path) : path := rebase ["src"%string] ["out"%string] s.
Definition b_items_dir : list bitem := [(b_a, b_out b_a); (b_b, b_out b_b); (b_main, b_out b_main)].
Definition b_items_in_place : list bitem := [(b_a, b_a); (b_b, b_b); (b_main, b_main)].

Example batch_dir_collect :
  collect b_fs ["src"%string] (Some ["out"%string]) = Some b_items_dir.
Proof. vm_compute. reflexivity. Qed.

(** in place, a bundle entry sees its module either before or after that module was
    rewritten: the result depends on the enumeration order *)
Theorem in_place_order_refuted :
  Permutation b_items_in_place (rev b_items_in_place) /\
  fs_get (fst (run_batch N b_xform false 0 b_items_in_place b_fs)) b_main <>
  fs_get (fst (run_batch N b_xform false 0 (rev b_items_in_place) b_fs)) b_main.
Proof. split; [apply Permutation_rev|]. vm_compute. discriminate. Qed.

(** fail-fast: which good files get written depends on where the faulty one is enumerated *)
Definition b_fs_bad : fs := [(b_a, [1]); (b_b, [0]); (b_main, [3])].

Theorem fail_fast_order_refuted :
  Permutation b_items_dir (rev b_items_dir) /\
  fs_get (fst (run_batch N b_xform true 0 b_items_dir b_fs_bad)) (b_out b_a) <>
  fs_get (fst (run_batch N b_xform true 0 (rev b_items_dir) b_fs_bad)) (b_out b_a).
Proof. split; [apply Permutation_rev|]. vm_compute. discriminate. Qed.

(** the hypotheses of the order / isolation theorems hold for the instance when the output is a
    separate directory: [main.lua] reads [src/a.lua], which no item writes *)
Lemma b_dir_wf : wf_items b_items_dir.
Proof.
  apply (collect_dir_wf b_fs ["src"%string] ["out"%string]); [reflexivity|exact batch_dir_collect|].
  intros s Hs. vm_compute in Hs. destruct Hs as [<-|[<-|[<-|[]]]]; reflexivity.
Qed.

Lemma b_dir_reads_no_output c : reads_no_output N b_xform c b_items_dir.
Proof.
  intros s txt g g' H. unfold b_xform.
  assert (Ha : fs_get g b_a = fs_get g' b_a).
  { apply H. vm_compute. intros [E|[E|[E|[]]]]; discriminate. }
  rewrite Ha. reflexivity.
Qed.

Theorem b_dir_order_irrelevant items' f :
  Permutation b_items_dir items' ->
  forall p, fs_get (fst (run_batch N b_xform false 0 b_items_dir f)) p =
            fs_get (fst (run_batch N b_xform false 0 items' f)) p.
Proof.
  intros P. apply (order_irrelevant N b_xform 0 b_items_dir items' f P b_dir_wf (b_dir_reads_no_output 0)).
Qed.

Example batch_dir_orders_agree :
  forall p, In p (map snd b_items_dir ++ map fst b_items_dir) ->
    fs_get (fst (run_batch N b_xform false 0 b_items_dir b_fs)) p =
    fs_get (fst (run_batch N b_xform false 0 (rev b_items_dir) b_fs)) p.
Proof. intros p _. apply b_dir_order_irrelevant. apply Permutation_rev. Qed.

(** work items are told apart by their exact path: names that differ only by case are two
    sources, each with its own output *)
Example collect_is_case_sensitive :
  collect [(["src"; "Config.lua"]%string, [1]); (["src"; "config.lua"]%string, [2])]
          ["src"%string] (Some ["out"%string])
  = Some [(["src"; "Config.lua"]%string, ["out"; "Config.lua"]%string);
          (["src"; "config.lua"]%string, ["out"; "config.lua"]%string)].
Proof. vm_compute. reflexivity. Qed.
