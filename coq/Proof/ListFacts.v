(** Facts about lists that the standard library lacks and more than one file needs. *)
From Coq Require Import List Bool.
Import ListNotations.

Lemma Forall2_len {A B} (R : A -> B -> Prop) l1 l2 : Forall2 R l1 l2 -> length l1 = length l2.
Proof. induction 1; cbn; auto. Qed.

Lemma Forall2_in_l {A B} (R : A -> B -> Prop) l1 l2 a :
  Forall2 R l1 l2 -> In a l1 -> exists b, In b l2 /\ R a b.
Proof.
  induction 1 as [|x y l1 l2 H F IH]; intros I; [destruct I|].
  destruct I as [<-|I]; [exists y; split; [now left|exact H]|].
  destruct (IH I) as [b [Ib Rb]]. exists b. split; [now right|exact Rb].
Qed.

Lemma Forall2_map_r {A B} (f : A -> B) (R : A -> B -> Prop) l : (forall a, R a (f a)) -> Forall2 R l (map f l).
Proof. intros H. induction l; cbn [map]; constructor; auto. Qed.

Lemma NoDup_snoc {A} (l : list A) x : ~ In x l -> NoDup l -> NoDup (l ++ [x]).
Proof. intros NI ND. apply (NoDup_Add (Add_app x l [])). now rewrite app_nil_r. Qed.

Lemma forallb_rev {A} (f : A -> bool) l : forallb f (rev l) = forallb f l.
Proof.
  induction l as [|x l IH]; cbn [rev forallb]; [reflexivity|].
  rewrite forallb_app, IH. cbn [forallb]. rewrite andb_true_r. apply andb_comm.
Qed.
