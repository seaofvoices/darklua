(** C06/C07, remove_continue: semantic lemma for the simplest shape, against the reference
    interpreter Lua/Sem.v.

    Input   [while c do SS continue end]      (the [continue] is the body's last statement)
    Output  [while c do
               local F = false
               repeat SS F = true break until true
               if not F then break end
             end]                               (Model/RemoveContinue.v, [body_out])
    Reference for the comparison ([body_ref]):
            [while c do local F = false SS F = true continue end]
    i.e. the input with the flag declared and set but the CONTROL FLOW of the input.  The
    theorem: for every condition, environment, store, varargs and dialect, the output loop
    computes exactly what the reference loop computes (same result or error, same store, same
    events), with 10 more units of fuel - for every statement list [SS] that (run under the
    flag binding) never signals [continue], keeps the flag visible when it ends normally, and
    leaves the flag [false] when it signals [break].  [SS] may [break] and [return].

    PARTIAL: what is missing to relate the output to the INPUT is that declaring and setting
    a local that [SS] does not mention does not change behaviour (the flag allocates one
    cell per iteration, so all later cell addresses shift: an equivalence up to renaming of
    addresses, not an equality of stores). *)
From Coq Require Import ZArith NArith List Bool String Lia.
From DL Require Import Lib.Bytes Lib.F64 Lua.Syntax Lua.Sem Proof.SemFacts Proof.LoweringFuel
  Model.RemoveContinue.
Import ListNotations.
Open Scope N_scope.

Section Sound.
Variable d : dialect.
Variable id : N.

Definition F : name := continue_name id.
Definition flag_decl : stmt := SLocal false [Param F None] [EFalse].
Definition flag_test : stmt := SIf [SBranch (EUnary UNot (EIdent F)) (Block [] (Some LBreak))] None.

Definition body_ref (ss : list stmt) : block := Block (flag_decl :: ss ++ [set_flag id]) (Some LContinue).
Definition body_out (ss : list stmt) : block := wrap_loop_block id (Block (ss ++ [set_flag id]) (Some LBreak)).

Lemma body_out_eq ss :
  body_out ss = Block [flag_decl; SRepeat (Block (ss ++ [set_flag id]) (Some LBreak)) ETrue; flag_test] None.
Proof. reflexivity. Qed.

(** running a statement list with fuel [n] for each statement, as [exec_repeat] does *)
Definition run (n : nat) (va : list value) (last : option laststmt) (ss : list stmt) (rho : env) : M (env * signal) :=
  repeat_loop (fun r es => eval_list d n r va es) (fun r st => exec_stmt d n r va st) last ss rho.

Definition cell_is (s : store) (a : N) (v : value) : Prop := nth_N (cells s) (N.to_nat a) = Some v.

Definition flag_discipline (ss : list stmt) : Prop :=
  forall n va rho s rho1 sg s1 a,
    lookup rho F = Some a -> cell_is s a (VBool false) ->
    run n va None ss rho s = Ok (rho1, sg) s1 ->
    sg <> SigContinue /\
    (sg = SigNone -> lookup rho1 F = Some a /\ exists v, cell_is s1 a v) /\
    (sg = SigBreak -> cell_is s1 a (VBool false)).

Lemma run_app n va last ss tl rho s :
  run n va last (ss ++ tl) rho s =
  bind (run n va None ss rho)
       (fun p => match snd p with SigNone => run n va last tl (fst p) | _ => ret p end) s.
Proof.
  revert rho s. induction ss as [|st ss IH]; intros rho s.
  - reflexivity.
  - cbn [app]. unfold run in *. cbn [repeat_loop]. unfold bind in *.
    destruct (exec_stmt d n rho va st s) as [[rho' sg] s1|e s1| |w]; try reflexivity.
    destruct sg; try reflexivity. apply IH.
Qed.

Lemma run_mono n n' va last ss rho : (n <= n')%nat -> refines (run n va last ss rho) (run n' va last ss rho).
Proof.
  intros L. unfold run. apply repeat_loop_mono.
  - intros r es. apply eval_list_refines_le, L.
  - intros r st. apply exec_stmt_refines_le, L.
Qed.

Definition sig_of (m : M (env * signal)) : M signal := bind m (fun p => ret (snd p)).

Lemma stmts_run n va last ss : forall m rho s, (m <= S n)%nat ->
  exec_stmts d m rho va ss last s <> Fuel ->
  sig_of (run n va last ss rho) s = exec_stmts d m rho va ss last s.
Proof.
  induction ss as [|st ss IH]; intros [|m] rho s Hm Hne; try (exfalso; apply Hne; reflexivity).
  - rewrite exec_stmts_unf in *. unfold sig_of, run. cbn [repeat_loop].
    destruct last as [[| |es]|]; try reflexivity.
    assert (E : eval_list d n rho va es s = eval_list d m rho va es s).
    { apply eval_list_refines_le; [lia|]. intros C. apply Hne. unfold bind. rewrite C. reflexivity. }
    unfold bind. rewrite E. destruct (eval_list d m rho va es s); reflexivity.
  - rewrite exec_stmts_unf in *. unfold sig_of, run in *. cbn [repeat_loop].
    assert (E : exec_stmt d n rho va st s = exec_stmt d m rho va st s).
    { apply exec_stmt_refines_le; [lia|]. intros C. apply Hne. unfold bind. rewrite C. reflexivity. }
    unfold bind in *. rewrite E.
    destruct (exec_stmt d m rho va st s) as [[rho' sg] s1|e s1| |w]; try reflexivity.
    destruct sg; try reflexivity.
    exact (IH m rho' s1 ltac:(lia) Hne).
Qed.

Definition with_cells (s : store) (c : list value) : store :=
  mkStore c (tables s) (closures s) (trace s) (oracle s) (fresh s).

Lemma decl_step k rho va s :
  exec_stmt d (S (S (S k))) rho va flag_decl s =
  Ok ((F, N.of_nat (List.length (cells s))) :: rho, SigNone) (with_cells s (cells s ++ [VBool false])).
Proof.
  unfold flag_decl. rewrite exec_stmt_unf. cbv beta iota. rewrite eval_list_unf. cbv beta iota.
  rewrite eval_S_false. reflexivity.
Qed.

Lemma set_flag_step k rho va s a : lookup rho F = Some a ->
  exec_stmt d (S (S (S k))) rho va (set_flag id) s =
  Ok (rho, SigNone) (with_cells s (set_nth (cells s) (N.to_nat a) (VBool true))).
Proof.
  intros L. unfold set_flag. fold F. rewrite exec_stmt_unf. cbv beta iota.
  cbn [targets_loop]. rewrite eval_target_unf. cbv beta iota. rewrite L.
  rewrite eval_list_unf. cbv beta iota. rewrite eval_S_true.
  cbv [bind ret]. cbn [assign_loop]. cbv [bind ret]. rewrite assign_target_unf. reflexivity.
Qed.

Lemma not_flag_step k rho va s a v : lookup rho F = Some a -> cell_is s a v ->
  eval1 d (S (S (S (S k)))) rho va (EUnary UNot (EIdent F)) s = Ok (VBool (negb (truthy v))) s.
Proof.
  intros L C. rewrite eval1_S, eval_S_unary, eval1_S, eval_S_ident, L.
  unfold bind, get_cell. unfold cell_is in C. rewrite C. reflexivity.
Qed.

(** a [continue] that ends an iteration and a body that ends normally are the same to a loop *)
Definition norm (sg : signal) : signal := match sg with SigContinue => SigNone | _ => sg end.
Definition norm_res (r : res signal) : res signal :=
  match r with Ok sg s => Ok (norm sg) s | _ => r end.

Lemma norm_res_ok sg s : norm_res (Ok sg s) = Ok (norm sg) s. Proof. reflexivity. Qed.

(** the hypothesis is satisfiable: statement-wise discipline, and two kinds of statements
    that have it (a local declared from a literal; a [break] under a literal condition) *)
Definition stmt_discipline (st : stmt) : Prop :=
  forall n va rho s rho1 sg s1 a,
    lookup rho F = Some a -> cell_is s a (VBool false) ->
    exec_stmt d n rho va st s = Ok (rho1, sg) s1 ->
    sg <> SigContinue /\
    (sg = SigNone -> lookup rho1 F = Some a /\ cell_is s1 a (VBool false)) /\
    (sg = SigBreak -> cell_is s1 a (VBool false)).

Lemma discipline_of_stmts ss : Forall stmt_discipline ss -> flag_discipline ss.
Proof.
  intros HF n va. induction ss as [|st ss IH]; intros rho s rho1 sg s1 a L C R.
  - unfold run in R. cbn [repeat_loop] in R. injection R as <- <- <-.
    split; [discriminate|]. split; [intros _; split; [exact L|exists (VBool false); exact C]|intros E; discriminate E].
  - inversion HF as [|? ? Hst Hrest]; subst. unfold run in R. cbn [repeat_loop] in R. unfold bind in R.
    destruct (exec_stmt d n rho va st s) as [[rho2 sg2] s2|e s2| |w] eqn:E; try discriminate R.
    destruct (Hst _ _ _ _ _ _ _ _ L C E) as (NC & HN & HB).
    destruct sg2.
    + destruct (HN eq_refl) as (L2 & C2). exact (IH Hrest _ _ _ _ _ _ L2 C2 R).
    + injection R as <- <- <-. split; [discriminate|]. split; [intros E'; discriminate E'|intros _; apply HB; reflexivity].
    + exfalso. apply NC. reflexivity.
    + injection R as <- <- <-. split; [discriminate|]. split; intros E'; discriminate E'.
Qed.

Definition lit_value (e : expr) : option value :=
  match e with ETrue => Some (VBool true) | EFalse => Some (VBool false) | ENil => Some VNil | _ => None end.

Lemma eval_lit k rho va e v : lit_value e = Some v -> eval d (S k) rho va e = ret [v].
Proof.
  destruct e; intros E; try discriminate E; injection E as <-;
    [apply eval_S_nil|apply eval_S_true|apply eval_S_false].
Qed.

Lemma local_lit_discipline y e v : y <> F -> lit_value e = Some v ->
  stmt_discipline (SLocal false [Param y None] [e]).
Proof.
  intros Ny Hv n va rho s rho1 sg s1 a L C E.
  apply (exec_stmt_mono d n (S (S (S n)))) in E; [|lia].
  rewrite exec_stmt_unf in E. cbv beta iota in E. rewrite eval_list_unf in E. cbv beta iota in E.
  rewrite (eval_lit _ _ _ _ _ Hv) in E. cbv [bind ret new_cell] in E. cbn [arg nth tl param_name] in E.
  injection E as <- <- <-.
  split; [discriminate|]. split; [|intros E'; discriminate E'].
  intros _. split.
  - cbn [lookup]. destruct (bytes_eqb F y) eqn:B; [apply bytes_eqb_eq in B; congruence|exact L].
  - apply nth_N_app_l, C.
Qed.

Lemma break_block_step n rho va : exec_block d (S (S (S n))) rho va (Block [] (Some LBreak)) = ret SigBreak.
Proof. rewrite exec_block_unf. rewrite exec_stmts_unf. reflexivity. Qed.

Lemma break_if_step n rho va e s :
  exec_stmt d (S (S (S (S n)))) rho va (SIf [SBranch e (Block [] (Some LBreak))] None) s =
  (cv <- eval1 d (S (S (S n))) rho va e;; ret (rho, if truthy cv then SigBreak else SigNone)) s.
Proof.
  rewrite exec_stmt_unf. cbv beta iota. cbn [sif_loop]. rewrite break_block_step. unfold bind.
  destruct (eval1 d (S (S (S n))) rho va e s) as [cv s1|e1 s1| |w]; try reflexivity.
  destruct (truthy cv); reflexivity.
Qed.

Lemma eval1_lit n rho va e v s : lit_value e = Some v -> eval1 d (S (S n)) rho va e s = Ok v s.
Proof. intros Hv. rewrite eval1_S, (eval_lit _ _ _ _ _ Hv). reflexivity. Qed.

Lemma break_if_lit_step n rho va e v s : lit_value e = Some v ->
  exec_stmt d (S (S (S (S n)))) rho va (SIf [SBranch e (Block [] (Some LBreak))] None) s =
  Ok (rho, if truthy v then SigBreak else SigNone) s.
Proof. intros Hv. rewrite break_if_step. unfold bind. rewrite (eval1_lit _ _ _ _ _ _ Hv). reflexivity. Qed.

Lemma flag_test_step k rho va s a v : lookup rho F = Some a -> cell_is s a v ->
  exec_stmts d (S (S (S (S (S (S (S k))))))) rho va [flag_test] None s =
  Ok (if truthy v then SigNone else SigBreak) s.
Proof.
  intros L C. rewrite exec_stmts_unf. cbv beta iota. unfold flag_test, bind. rewrite break_if_step. unfold bind.
  rewrite (not_flag_step (S k) rho va s a v L C).
  destruct (truthy v); cbn [negb truthy]; cbv [ret]; [rewrite exec_stmts_unf|]; reflexivity.
Qed.

Lemma break_if_lit_discipline e v : lit_value e = Some v ->
  stmt_discipline (SIf [SBranch e (Block [] (Some LBreak))] None).
Proof.
  intros Hv n va rho s rho1 sg s1 a L C E.
  apply (exec_stmt_mono d n (S (S (S (S n))))) in E; [|lia].
  rewrite (break_if_lit_step _ _ _ _ _ _ Hv) in E.
  destruct (truthy v); injection E as <- <- <-.
  - split; [discriminate|]. split; [intros E'; discriminate E'|intros _; exact C].
  - split; [discriminate|]. split; [intros _; split; assumption|intros E'; discriminate E'].
Qed.

Section Body.
Variable ss : list stmt.
Hypothesis Hss : flag_discipline ss.

Lemma rest_sound n va rho' s1 a :
  lookup rho' F = Some a -> cell_is s1 a (VBool false) ->
  exec_stmts d (S (S (S n))) rho' va (ss ++ [set_flag id]) (Some LContinue) s1 <> Fuel ->
  exec_stmts d (S (S (S (S (S (S (S (S n)))))))) rho' va
    [SRepeat (Block (ss ++ [set_flag id]) (Some LBreak)) ETrue; flag_test] None s1 =
  norm_res (exec_stmts d (S (S (S n))) rho' va (ss ++ [set_flag id]) (Some LContinue) s1).
Proof.
  intros L C Hne.
  pose proof (stmts_run (S (S (S (S (S n))))) va (Some LContinue) (ss ++ [set_flag id]) (S (S (S n))) rho' s1 ltac:(lia) Hne) as EQ.
  rewrite <- EQ in Hne |- *. clear EQ.
  unfold sig_of in *. unfold bind in Hne |- *. rewrite run_app in Hne |- *.
  rewrite exec_stmts_unf. cbv beta iota. rewrite exec_stmt_unf. cbv beta iota. rewrite exec_repeat_unf. cbv beta iota.
  change (repeat_loop (fun r => eval_list d (S (S (S (S (S n))))) r va) (fun r => exec_stmt d (S (S (S (S (S n))))) r va))
    with (run (S (S (S (S (S n))))) va).
  unfold bind in Hne |- *. rewrite run_app. unfold bind.
  destruct (run (S (S (S (S (S n))))) va None ss rho' s1) as [[rho1 sg] s2|e s2| |w] eqn:ER; cbn [fst snd] in *.
  - destruct (Hss _ _ _ _ _ _ _ _ L C ER) as (NC & HN & HB). destruct sg.
    + destruct (HN eq_refl) as (L1 & v & C1).
      unfold run at 1 2. cbn [repeat_loop]. unfold bind.
      rewrite (set_flag_step (S (S n)) rho1 va s2 a L1). cbv [ret]. cbv beta iota.
      assert (C2 : cell_is (with_cells s2 (set_nth (cells s2) (N.to_nat a) (VBool true))) a (VBool true)).
      { unfold cell_is, with_cells. cbn [cells]. apply nth_N_set_same. exact (nth_N_lt _ _ _ C1). }
      rewrite (flag_test_step n rho' va _ a _ L C2). reflexivity.
    + specialize (HB eq_refl). cbv [ret]. cbv beta iota.
      rewrite (flag_test_step n rho' va _ a _ L HB). reflexivity.
    + exfalso. apply NC. reflexivity.
    + reflexivity.
  - reflexivity.
  - exfalso. apply Hne. reflexivity.
  - reflexivity.
Qed.

Definition after_decl (rho : env) (s : store) : env * store :=
  ((F, N.of_nat (List.length (cells s))) :: rho, with_cells s (cells s ++ [VBool false])).

Lemma ref_body_step n rho va s :
  exec_block d (S (S (S (S (S n))))) rho va (body_ref ss) s =
  exec_stmts d (S (S (S n))) (fst (after_decl rho s)) va (ss ++ [set_flag id]) (Some LContinue) (snd (after_decl rho s)).
Proof.
  unfold body_ref. rewrite exec_block_unf, exec_stmts_unf. unfold bind. rewrite decl_step. reflexivity.
Qed.

Lemma out_body_step n rho va s :
  exec_block d (S (S (S (S (S (S (S (S (S (S n)))))))))) rho va (body_out ss) s =
  exec_stmts d (S (S (S (S (S (S (S (S n)))))))) (fst (after_decl rho s)) va
    [SRepeat (Block (ss ++ [set_flag id]) (Some LBreak)) ETrue; flag_test] None (snd (after_decl rho s)).
Proof.
  rewrite body_out_eq. rewrite exec_block_unf, exec_stmts_unf. unfold bind. rewrite decl_step. reflexivity.
Qed.

Lemma body_sound_S n rho va s :
  exec_block d (S (S (S (S (S n))))) rho va (body_ref ss) s <> Fuel ->
  exec_block d (S (S (S (S (S (S (S (S (S (S n)))))))))) rho va (body_out ss) s =
  norm_res (exec_block d (S (S (S (S (S n))))) rho va (body_ref ss) s).
Proof.
  rewrite out_body_step, ref_body_step. intros Hne.
  apply (rest_sound n va _ _ (N.of_nat (List.length (cells s)))).
  - apply lookup_head.
  - unfold cell_is, after_decl, with_cells. cbn [snd cells]. apply nth_N_last.
  - exact Hne.
Qed.

Lemma body_sound n rho va s :
  exec_block d n rho va (body_ref ss) s <> Fuel ->
  exec_block d (10 + n) rho va (body_out ss) s = norm_res (exec_block d n rho va (body_ref ss) s).
Proof.
  intros Hne.
  assert (E : exec_block d (S (S (S (S (S n))))) rho va (body_ref ss) s = exec_block d n rho va (body_ref ss) s).
  { apply exec_block_refines_le; [lia|exact Hne]. }
  rewrite <- E. apply body_sound_S. rewrite E. exact Hne.
Qed.
End Body.

Theorem continue_while_sound_partial : forall ss, flag_discipline ss ->
  forall n rho va c s,
    exec_while d n rho va c (body_ref ss) s <> Fuel ->
    exec_while d (10 + n) rho va c (body_out ss) s = exec_while d n rho va c (body_ref ss) s.
Proof.
  intros ss Hss. induction n as [|n IH]; intros rho va c s Hne; [exfalso; apply Hne; reflexivity|].
  change (10 + S n)%nat with (S (10 + n)).
  rewrite (exec_while_S d (10 + n)). rewrite (exec_while_S d n) in Hne |- *. unfold bind in Hne |- *.
  assert (Ec : eval1 d (10 + n) rho va c s = eval1 d n rho va c s).
  { apply eval1_refines_le; [lia|]. intros C. apply Hne. rewrite C. reflexivity. }
  rewrite Ec. destruct (eval1 d n rho va c s) as [cv s1|e s1| |w]; try reflexivity.
  destruct (truthy cv); [|reflexivity].
  assert (Hb : exec_block d n rho va (body_ref ss) s1 <> Fuel).
  { intros C. apply Hne. rewrite C. reflexivity. }
  rewrite (body_sound ss Hss n rho va s1 Hb).
  destruct (exec_block d n rho va (body_ref ss) s1) as [sg s2|e s2| |w]; try reflexivity.
  cbn [norm_res]. destruct sg; cbn [norm]; try reflexivity; apply IH; exact Hne.
Qed.

End Sound.

(** the rule's output on the input shape is [body_out] (the loop gets id 1) *)
Example body_out_is_rule_output :
  let c := EIdent [99] in
  let ss := [SCall (ECall (EIdent [102]) None (ATuple []));
             SIf [SBranch (EIdent [97]) (Block [] (Some LBreak))] None] in
  remove_continue_block (Block [SWhile c (Block ss (Some LContinue))] None) = Block [SWhile c (body_out 1 ss)] None.
Proof. vm_compute. reflexivity. Qed.

(** the hypotheses of [continue_while_sound_partial] hold for a body that declares locals and
    leaves the loop with [break] (both the normal and the [break] path are exercised) *)
Example flag_discipline_example d :
  flag_discipline d 1 [SLocal false [Param [121] None] [ETrue];
                       SIf [SBranch EFalse (Block [] (Some LBreak))] None;
                       SIf [SBranch ETrue (Block [] (Some LBreak))] None].
Proof.
  apply discipline_of_stmts. apply Forall_cons; [|apply Forall_cons; [|apply Forall_cons; [|apply Forall_nil]]].
  - eapply local_lit_discipline; [|reflexivity]. vm_compute. discriminate.
  - eapply break_if_lit_discipline. reflexivity.
  - eapply break_if_lit_discipline. reflexivity.
Qed.
