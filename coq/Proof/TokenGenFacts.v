(** Facts about [Model/TokenGen.v]: the generator's line bookkeeping is sound, tokens are
    never written before their recorded line and exactly on it when there is room (C04);
    a lossless token sequence is written back as the source unless two glued pieces trip
    the space check (C03); after a line comment the generator itself writes the line break
    before the next token or symbol, but not before a raw push (C18). *)
From DL Require Import Lib.Bytes Model.CommentText Model.TokenGen Proof.CommentTextFacts.
Require Import Lia PeanoNat.
Open Scope N_scope.
Local Notation length := List.length.
Arguments N.eqb : simpl never.
Arguments N.leb : simpl never.
Arguments N.ltb : simpl never.

Lemma count_lf_repeat n : count_lf (repeat 10 n) = n.
Proof.
  unfold count_lf, count_b. induction n as [|n IH]; [reflexivity|].
  cbn [repeat filter]. rewrite N.eqb_refl. cbn [length]. rewrite IH. reflexivity.
Qed.

Lemma count_lf_nil : count_lf [] = 0%nat.
Proof. reflexivity. Qed.

Lemma firstn_slice : forall a b (s : bytes), (a <= b)%nat -> (b <= length s)%nat ->
  firstn a s ++ slice s a b = firstn b s.
Proof.
  unfold slice. induction a as [|a IH]; intros b s Hab Hb.
  - cbn [firstn skipn app]. rewrite Nat.sub_0_r. reflexivity.
  - destruct s as [|x s]; [cbn [length] in Hb; lia|].
    destruct b as [|b]; [lia|]. cbn [firstn skipn app length] in *.
    replace (S b - S a)%nat with (b - a)%nat by lia. f_equal. apply IH; lia.
Qed.

Lemma firstn_all_eq (s : bytes) : firstn (length s) s = s.
Proof. apply firstn_all. Qed.

Lemma firstn_S_nth : forall k (s : bytes) x, nth_error s k = Some x ->
  firstn (S k) s = firstn k s ++ [x].
Proof.
  induction k as [|k IH]; intros [|y s] x H; cbn [nth_error] in H; try discriminate.
  - injection H as ->. reflexivity.
  - cbn [firstn app]. f_equal. apply (IH s x H).
Qed.

Lemma last_byte_snoc (l : bytes) x : last_byte (l ++ [x]) = Some x.
Proof.
  induction l as [|c l IH]; [reflexivity|]. cbn [app last_byte].
  destruct (l ++ [x]) eqn:E; [destruct l; discriminate|]. exact IH.
Qed.

Lemma last_byte_firstn : forall a (s : bytes), (0 < a)%nat -> (a <= length s)%nat ->
  last_byte (firstn a s) = nth_error s (a - 1).
Proof.
  intros a s Ha Hl. destruct a as [|k]; [lia|]. replace (S k - 1)%nat with k by lia.
  destruct (nth_error s k) as [x|] eqn:E.
  - rewrite (firstn_S_nth k s x E). apply last_byte_snoc.
  - apply nth_error_None in E. lia.
Qed.

Lemma slice_head : forall a b (s : bytes) x t, slice s a b = x :: t ->
  (a < b)%nat /\ nth_error s a = Some x.
Proof.
  unfold slice. induction a as [|a IH]; intros b s x t H.
  - rewrite Nat.sub_0_r in H. destruct b; [discriminate H|]. destruct s; [discriminate H|].
    injection H as -> _. split; [lia|reflexivity].
  - destruct b as [|b]; [discriminate H|]. destruct s as [|y s]; [destruct (S b - S a)%nat; discriminate H|].
    cbn [skipn nth_error Nat.sub] in *. destruct (IH b s x t H) as [Hab Hx]. split; [lia|exact Hx].
Qed.

Definition line_inv (st : gstate) : Prop := g_line st = out_line st.

Lemma line_inv_init : line_inv g_init.
Proof. reflexivity. Qed.

Lemma line_inv_push_str st s : line_inv st -> line_inv (push_str st s).
Proof. unfold line_inv, out_line, push_str. cbn [g_line g_out]. rewrite count_lf_app. lia. Qed.

Lemma line_inv_push_space st : line_inv st -> line_inv (push_space st).
Proof.
  unfold line_inv, out_line, push_space. cbn [g_line g_out]. rewrite count_lf_app.
  change (count_lf [32]) with 0%nat. lia.
Qed.

Lemma line_inv_uncomment st : line_inv st -> line_inv (uncomment st).
Proof.
  unfold line_inv, out_line, uncomment. cbn [g_line g_out]. rewrite count_lf_app.
  change (count_lf [10]) with 1%nat. lia.
Qed.

Lemma line_inv_pad st l : line_inv st -> line_inv (pad_to st l).
Proof.
  unfold line_inv, out_line, pad_to. cbn [g_line g_out]. rewrite count_lf_app, count_lf_repeat. lia.
Qed.

Lemma line_inv_set st b : line_inv st -> line_inv (set_commenting st b).
Proof. unfold line_inv, out_line, set_commenting. cbn [g_line g_out]. tauto. Qed.

Lemma line_inv_bump st : line_inv st -> line_inv (if g_commenting st then uncomment st else st).
Proof. intros H. destruct (g_commenting st); [apply line_inv_uncomment|]; exact H. Qed.

(** every branch of [step] is a composition of these primitives *)
Local Hint Resolve line_inv_push_str line_inv_push_space line_inv_uncomment line_inv_pad line_inv_set : linv.

Lemma line_inv_step st p : line_inv st -> line_inv (step st p).
Proof.
  intros H. destruct p as [[] c|[|x t] l sc|s sc|s]; cbn [step]; auto with linv.
  - unfold write_trivia. destruct (is_single_line_comment c); [|destruct (g_commenting st)]; auto with linv.
  - unfold write_trivia. match goal with |- context [if ?b then _ else _] => destruct b end; auto with linv.
  - unfold write_token. destruct (g_commenting st); destruct l;
      match goal with |- context [if ?b then _ else _] => destruct b end; auto 6 with linv.
  - unfold write_symbol. destruct (g_commenting st); [auto with linv|].
    destruct sc; [destruct s as [|x t]; [|destruct (needs_space st x)]|]; auto with linv.
Qed.

(** The static conditions [lines_fit] and [cm_ok] follow two components of the state only.
    [closes_comment p]: a pending line comment is closed (one line break) before [p] is written;
    [next_flag] and [next_line]: the flag and the counter after [p]. *)
Definition closes_comment (p : rpiece) : bool :=
  match p with
  | RTrivia KComment c => negb (is_single_line_comment c)
  | RToken (_ :: _) _ _ | RSymbol _ _ => true
  | _ => false
  end.

Definition next_flag (cm : bool) (p : rpiece) : bool :=
  match p with
  | RTrivia KComment c => is_single_line_comment c
  | RTrivia KWhitespace w => cm && negb (has_lf w)
  | RToken [] _ _ | RRaw _ => cm
  | RToken _ _ _ | RSymbol _ _ => false
  end.

Definition next_line (cur : nat) (cm : bool) (p : rpiece) : nat :=
  let cur' := if closes_comment p then bump cm cur else cur in
  match p with
  | RToken [] _ _ => cur
  | RToken c (Some l) _ => Nat.max cur' l + count_lf c
  | RTrivia _ c | RToken c None _ | RSymbol c _ | RRaw c => cur' + count_lf c
  end.

Lemma step_state st p :
  g_line (step st p) = next_line (g_line st) (g_commenting st) p /\
  g_commenting (step st p) = next_flag (g_commenting st) p.
Proof.
  destruct p as [[] c|[|x t] l sc|s sc|s]; cbn [step next_line next_flag closes_comment];
    try (split; reflexivity).
  - unfold write_trivia. destruct (is_single_line_comment c); [split; reflexivity|].
    destruct (g_commenting st) eqn:E; split; cbn; rewrite ?E; reflexivity.
  - unfold write_trivia. cbn [push_str g_commenting].
    destruct (g_commenting st) eqn:E; [destruct (has_lf c)|]; split; cbn; rewrite ?E; reflexivity.
  - unfold write_token. destruct (g_commenting st) eqn:E; destruct l;
      match goal with |- context [if ?b then _ else _] => destruct b end; split; cbn; rewrite ?E; reflexivity.
  - unfold write_symbol. destruct (g_commenting st) eqn:E; [split; reflexivity|].
    destruct sc; [destruct s as [|x t]; [|destruct (needs_space st x)]|]; split; cbn; rewrite ?E; reflexivity.
Qed.

Definition has_room (cur : nat) (cm : bool) (p : rpiece) : bool :=
  match p with RToken (_ :: _) (Some l) _ => Nat.leb (bump cm cur) l | _ => true end.

Lemma lines_fit_cons cur cm p r :
  lines_fit cur cm (p :: r) = has_room cur cm p && lines_fit (next_line cur cm p) (next_flag cm p) r.
Proof.
  destruct p as [[] c|[|x t] [l|] sc|s sc|s]; cbn [lines_fit has_room next_line next_flag closes_comment andb];
    try reflexivity.
  - destruct (is_single_line_comment c); reflexivity.
  - destruct (Nat.leb (bump cm cur) l) eqn:E; [|reflexivity].
    apply Nat.leb_le in E. rewrite Nat.max_r by exact E. reflexivity.
Qed.

Lemma cm_ok_cons cm p r :
  cm_ok cm (p :: r) = negb (cm && closes_comment p) && cm_ok (next_flag cm p) r.
Proof.
  destruct p as [[] c|[|x t] l sc|s sc|s]; cbn [cm_ok closes_comment next_flag];
    rewrite ?andb_true_r, ?andb_false_r; try reflexivity.
  destruct (is_single_line_comment c); cbn [negb]; rewrite ?andb_true_r, ?andb_false_r; reflexivity.
Qed.

Lemma bump_line st : g_line (if g_commenting st then uncomment st else st) = bump (g_commenting st) (g_line st).
Proof. destruct (g_commenting st); reflexivity. Qed.

Lemma placement_line st x t l sc : line_inv st ->
  placement st (RToken (x :: t) (Some l) sc) = [(l, Nat.max (bump (g_commenting st) (g_line st)) l)].
Proof.
  intros H. cbn [placement]. rewrite <- (line_inv_pad _ l (line_inv_bump st H)).
  cbn [pad_to g_line]. rewrite bump_line. reflexivity.
Qed.

Theorem lines_never_early : forall ps st, line_inv st ->
  Forall (fun lw => (fst lw <= snd lw)%nat) (placements st ps).
Proof.
  induction ps as [|p r IH]; intros st H; cbn [placements]; [constructor|].
  apply Forall_app. split; [|apply IH, line_inv_step, H].
  destruct p as [k c|[|x t] [l|] sc|s sc|s]; try apply Forall_nil.
  rewrite (placement_line st x t l sc H). constructor; [|constructor]. cbn [fst snd]. lia.
Qed.

Theorem lines_kept_from : forall ps st, line_inv st ->
  lines_fit (g_line st) (g_commenting st) ps = true ->
  Forall (fun lw => snd lw = fst lw) (placements st ps).
Proof.
  induction ps as [|p r IH]; intros st H Hfit; cbn [placements]; [constructor|].
  rewrite lines_fit_cons in Hfit. apply andb_true_iff in Hfit as [Hroom Hfit].
  apply Forall_app. split; [|apply IH; [apply line_inv_step, H|destruct (step_state st p) as [-> ->]; exact Hfit]].
  destruct p as [k c|[|x t] [l|] sc|s sc|s]; try apply Forall_nil.
  rewrite (placement_line st x t l sc H). constructor; [|constructor].
  cbn [has_room] in Hroom. apply Nat.leb_le in Hroom. cbn [fst snd]. lia.
Qed.

Theorem lines_kept : forall ps, lines_fit 1 false ps = true ->
  Forall (fun lw => snd lw = fst lw) (placements g_init ps).
Proof. intros ps H. apply lines_kept_from; [apply line_inv_init|exact H]. Qed.

Lemma bump_add cm cur k : bump cm (cur + k) = (bump cm cur + k)%nat.
Proof. destruct cm; reflexivity. Qed.

Theorem lines_fit_shift : forall k ps cur cm, lines_fit cur cm ps = true ->
  lines_fit (cur + k) cm (map (shift_piece k) ps) = true.
Proof.
  intros k. induction ps as [|p r IH]; intros cur cm H; [reflexivity|].
  destruct p as [[] c|[|x t] [l|] sc|s sc|s]; cbn [map shift_piece lines_fit] in *;
    rewrite ?bump_add, ?(Nat.add_shuffle0 _ k); try (apply IH, H).
  - destruct (is_single_line_comment c); apply IH, H.
  - apply andb_true_iff in H as [Hle H]. apply Nat.leb_le in Hle. apply andb_true_iff. split.
    + apply Nat.leb_le. lia.
    + apply IH, H.
Qed.

(** append_text_comment at the start: the comment, a line break, every token shifted by the
    number of lines inserted: everything still fits *)
Theorem shift_uniform : forall c ps, lines_fit 1 false ps = true ->
  lines_fit 1 false (RTrivia KComment c :: RTrivia KWhitespace [10]
                     :: map (shift_piece (S (count_lf c))) ps) = true.
Proof.
  intros c ps H. cbn [lines_fit].
  change (has_lf [10]) with true. change (count_lf [10]) with 1%nat.
  destruct (is_single_line_comment c); cbn [bump andb negb];
    rewrite <- Nat.add_assoc, Nat.add_1_r; apply lines_fit_shift, H.
Qed.

(** [Token::shift_token_line] on a token shifts exactly the resolved token piece *)
Lemma read_shift src k p : read src (shift_position k p) = read src p.
Proof. destruct p; reflexivity. Qed.

Lemma line_of_shift k p : line_of (shift_position k p) = option_map (fun l => (l + k)%nat) (line_of p).
Proof. destruct p; reflexivity. Qed.

Lemma resolve_trivias_kind src : forall tl out, resolve_trivias src tl = Some out ->
  Forall (fun p => match p with RTrivia _ _ => True | _ => False end) out.
Proof.
  induction tl as [|x tl IH]; intros out E; cbn [resolve_trivias] in E.
  - injection E as <-. constructor.
  - unfold resolve_trivia in E. destruct (read src (tr_pos x)); cbn [option_map] in E; [|discriminate].
    destruct (resolve_trivias src tl); [|discriminate]. injection E as <-.
    constructor; [exact I|apply IH; reflexivity].
Qed.

Theorem resolve_shift : forall src k t sc ps,
  resolve_event src (EToken t sc) = Some ps ->
  exists l c r, ps = l ++ RToken c (line_of (tk_pos t)) sc :: r /\
    Forall (fun p => match p with RTrivia _ _ => True | _ => False end) (l ++ r) /\
    resolve_event src (EToken (shift_token k t) sc) =
      Some (l ++ RToken c (option_map (fun n => (n + k)%nat) (line_of (tk_pos t))) sc :: r).
Proof.
  intros src k t sc ps H. cbn [resolve_event] in *.
  destruct (resolve_trivias src (tk_leading t)) as [l|] eqn:El; [|discriminate].
  destruct (read src (tk_pos t)) as [c|] eqn:Ec; [|discriminate].
  destruct (resolve_trivias src (tk_trailing t)) as [r|] eqn:Er; [|discriminate].
  injection H as <-. exists l, c, r. split; [reflexivity|]. split.
  - apply Forall_app. split; eapply resolve_trivias_kind; eassumption.
  - cbn [shift_token tk_leading tk_pos tk_trailing]. rewrite El, Er, read_shift, Ec, line_of_shift. reflexivity.
Qed.

Lemma pad_to_noop st l : (l <= g_line st)%nat -> pad_to st l = st.
Proof.
  intros H. unfold pad_to. replace (l - g_line st)%nat with 0%nat by lia.
  cbn [repeat]. rewrite app_nil_r. rewrite Nat.max_l by lia. destruct st; reflexivity.
Qed.

(** when nothing has to be put in front of it, a piece adds exactly its own bytes *)
Lemma write_trivia_out st k c : g_commenting st && closes_comment (RTrivia k c) = false ->
  g_out (write_trivia st k c) = g_out st ++ c.
Proof.
  unfold write_trivia. destruct k; cbn [closes_comment].
  - destruct (is_single_line_comment c); [reflexivity|].
    rewrite andb_true_r. intros ->. reflexivity.
  - intros _. match goal with |- context [if ?b then _ else _] => destruct b end; reflexivity.
Qed.

Lemma write_token_out st c l sc : g_commenting st && closes_comment (RToken c (Some l) sc) = false ->
  (l <= g_line st)%nat -> (forall x t, c = x :: t -> sc && needs_space st x = false) ->
  g_out (write_token st c (Some l) sc) = g_out st ++ c.
Proof.
  destruct c as [|x t]; [intros; symmetry; apply app_nil_r|]. cbn [closes_comment].
  rewrite andb_true_r. intros Hc Hl Hs. unfold write_token.
  rewrite Hc, (pad_to_noop st l Hl), (Hs x t eq_refl). reflexivity.
Qed.

Definition in_range (len : nat) (p : lpiece) : Prop := (lp_start p <= lp_stop p)%nat /\ (lp_stop p <= len)%nat.

Lemma tiles_cons len from p ps : tiles len from (p :: ps) = true ->
  lp_start p = from /\ in_range len p /\ tiles len (lp_stop p) ps = true.
Proof. cbn [tiles]. rewrite !andb_true_iff, Nat.eqb_eq, !Nat.leb_le. unfold in_range. tauto. Qed.

(** one laid-out piece: if the output so far is the source up to where the piece starts, then
    after it the output is the source up to where it stops *)
Lemma tile_step src p r st :
  in_range (length src) p ->
  g_out st = firstn (lp_start p) src -> line_inv st ->
  lines_true src [p] = true -> adjacent_break src p = false ->
  cm_ok (g_commenting st) (lp_resolve src p :: r) = true ->
  g_out (step st (lp_resolve src p)) = firstn (lp_stop p) src /\
  cm_ok (g_commenting (step st (lp_resolve src p))) r = true.
Proof.
  intros [Hab Hb] Ho Hl Hlt Hnb Hcm.
  rewrite cm_ok_cons in Hcm. apply andb_true_iff in Hcm as [Hq Hcm]. apply negb_true_iff in Hq.
  rewrite (proj2 (step_state _ _)). split; [|exact Hcm].
  rewrite <- (firstn_slice _ _ src Hab Hb), <- Ho.
  unfold lp_resolve, lines_true, adjacent_break in *. cbn [forallb] in Hlt.
  destruct (lp_kind p) as [k|sc]; cbn [step].
  - apply write_trivia_out, Hq.
  - apply write_token_out; [exact Hq| |].
    + (* the recorded line is the line of the output: nothing to pad *)
      rewrite andb_true_r in Hlt. apply Nat.eqb_eq in Hlt.
      unfold line_inv, out_line in Hl. rewrite Hl, Ho, Hlt. apply le_n.
    + (* the last byte written and [x] are neighbours in the source *)
      intros x t Es. destruct sc; [|reflexivity].
      apply slice_head in Es as [Hlt' Hx]. apply Nat.ltb_lt in Hlt'. rewrite Hlt', Hx in Hnb.
      unfold needs_space. rewrite Ho. destruct (lp_start p) as [|a]; [reflexivity|].
      rewrite last_byte_firstn by lia. exact Hnb.
Qed.

Lemma run_tiles : forall src lps st from,
  tiles (length src) from lps = true ->
  g_out st = firstn from src -> line_inv st ->
  lines_true src lps = true -> no_adjacent_break src lps = true ->
  cm_ok (g_commenting st) (map (lp_resolve src) lps) = true ->
  g_out (run st (map (lp_resolve src) lps)) = src.
Proof.
  intros src. induction lps as [|p r IH]; intros st from Ht Ho Hl Hlt Hnb Hcm.
  - apply Nat.eqb_eq in Ht. subst from. cbn [map run fold_left]. rewrite Ho. apply firstn_all.
  - apply tiles_cons in Ht as [<- [Hp Hr]].
    cbn [lines_true forallb] in Hlt. apply andb_true_iff in Hlt as [Hlt1 Hlt].
    cbn [no_adjacent_break forallb] in Hnb. apply andb_true_iff in Hnb as [Hnb1 Hnb].
    apply negb_true_iff in Hnb1.
    destruct (tile_step src p (map (lp_resolve src) r) st Hp Ho Hl) as [Ho' Hcm'];
      [cbn [lines_true forallb]; rewrite Hlt1; reflexivity|exact Hnb1|exact Hcm|].
    exact (IH _ _ Hr Ho' (line_inv_step _ _ Hl) Hlt Hnb Hcm').
Qed.

Lemma tiles_in_range : forall len lps from, tiles len from lps = true -> Forall (in_range len) lps.
Proof.
  intros len. induction lps as [|p r IH]; intros from H; [constructor|].
  apply tiles_cons in H as [_ [Hp Hr]]. constructor; [exact Hp|exact (IH _ Hr)].
Qed.

Lemma read_in_range src a b l : (a <= b)%nat -> (b <= length src)%nat -> read src (Ref a b l) = Some (slice src a b).
Proof.
  intros H1 H2. cbn [read]. apply Nat.leb_le in H1. apply Nat.leb_le in H2. rewrite H1, H2. reflexivity.
Qed.

Lemma resolve_layout_trivias src : forall l lps, layout_trivias l = Some lps ->
  Forall (in_range (length src)) lps -> resolve_trivias src l = Some (map (lp_resolve src) lps).
Proof.
  induction l as [|t l IH]; intros lps H Hr; cbn [layout_trivias] in H.
  - injection H as <-. reflexivity.
  - unfold layout_trivia in H. destruct (tr_pos t) as [a b ln| |] eqn:Ep; try discriminate.
    destruct (layout_trivias l) as [ps|] eqn:El; [|discriminate]. injection H as <-.
    inversion Hr as [|? ? [H1 H2] Hr']; subst. cbn [lp_start lp_stop] in *.
    cbn [resolve_trivias]. unfold resolve_trivia. rewrite Ep, (read_in_range _ _ _ _ H1 H2).
    cbn [option_map]. rewrite (IH ps eq_refl Hr'). reflexivity.
Qed.

Lemma resolve_layout_event src e pe : layout_event e = Some pe ->
  Forall (in_range (length src)) pe -> resolve_event src e = Some (map (lp_resolve src) pe).
Proof.
  intros Ee Hr. destruct e as [t sc| |]; cbn [layout_event] in Ee; try discriminate.
  destruct (layout_trivias (tk_leading t)) as [l|] eqn:E1; [|discriminate].
  destruct (tk_pos t) as [a b ln| |] eqn:Ep; try discriminate.
  destruct (layout_trivias (tk_trailing t)) as [r|] eqn:E2; [|discriminate].
  injection Ee as <-. apply Forall_app in Hr as [Hl Hr]. inversion Hr as [|? ? [H1 H2] Hr']; subst.
  cbn [lp_start lp_stop] in *.
  cbn [resolve_event]. rewrite (resolve_layout_trivias src _ _ E1 Hl), (resolve_layout_trivias src _ _ E2 Hr').
  rewrite Ep, (read_in_range _ _ _ _ H1 H2). cbn [line_of]. rewrite map_app. reflexivity.
Qed.

Lemma resolve_layout src : forall evs lps, layout evs = Some lps ->
  Forall (in_range (length src)) lps -> resolve_all src evs = Some (map (lp_resolve src) lps).
Proof.
  induction evs as [|e evs IH]; intros lps H Hr; cbn [layout] in H.
  - injection H as <-. reflexivity.
  - destruct (layout_event e) as [pe|] eqn:Ee; [|discriminate].
    destruct (layout evs) as [ps|] eqn:El; [|discriminate]. injection H as <-.
    apply Forall_app in Hr as [Hr1 Hr2]. cbn [resolve_all].
    rewrite (resolve_layout_event src e pe Ee Hr1), (IH ps eq_refl Hr2), map_app. reflexivity.
Qed.

Theorem identity : forall src evs lps,
  layout evs = Some lps ->
  tiles (length src) 0 lps = true ->
  lines_true src lps = true ->
  cm_ok false (map (lp_resolve src) lps) = true ->
  no_adjacent_break src lps = true ->
  generate src evs = Some src.
Proof.
  intros src evs lps Hlay Ht Hl Hcm Hnb. unfold generate.
  rewrite (resolve_layout src evs lps Hlay (tiles_in_range _ _ _ Ht)). cbn [option_map]. f_equal.
  apply (run_tiles src lps g_init 0); try assumption; reflexivity.
Qed.

(** the adjacent-break hypothesis is necessary: "return a[b[c]]" as recorded from darklua *)
Definition witness_src : bytes := of_string "return a[b[c]]".
Definition witness_evs : list event :=
  [EToken (mk_token (Ref 0 6 1) [] [mk_trivia KWhitespace (Ref 6 7 1)]) true;
   EToken (mk_token (Ref 7 8 1) [] []) true;
   EToken (mk_token (Ref 8 9 1) [] []) true;
   EToken (mk_token (Ref 9 10 1) [] []) true;
   EToken (mk_token (Ref 10 11 1) [] []) true;
   EToken (mk_token (Ref 11 12 1) [] []) true;
   EToken (mk_token (Ref 12 13 1) [] []) true;
   EToken (mk_token (Ref 13 14 1) [] []) true]%nat.

Theorem identity_refuted : exists src evs lps,
  layout evs = Some lps /\
  tiles (length src) 0 lps = true /\
  lines_true src lps = true /\
  cm_ok false (map (lp_resolve src) lps) = true /\
  no_adjacent_break src lps = false /\
  generate src evs <> Some src.
Proof.
  exists witness_src, witness_evs. eexists. split; [vm_compute; reflexivity|].
  repeat split; try (vm_compute; reflexivity). vm_compute. discriminate.
Qed.

Example identity_refuted_output :
  generate witness_src witness_evs = Some (of_string "return a[b[c] ]").
Proof. vm_compute. reflexivity. Qed.

Theorem lines_kept_needs_room : exists ps, lines_fit 1 false ps = false /\
  placements g_init ps = [(1, 2)]%nat.
Proof.
  exists [RTrivia KComment (of_string "--c"); RToken (of_string "x") (Some 1%nat) true].
  vm_compute. split; reflexivity.
Qed.

(** after a comment that the generator classifies as a line comment, the next non-empty token
    starts on a new line, whatever its recorded line and spacing flag *)
Theorem line_comment_then_token : forall st c x t l sc, is_single_line_comment c = true ->
  exists rest, g_out (write_token (write_trivia st KComment c) (x :: t) l sc) = g_out st ++ c ++ 10 :: rest.
Proof.
  intros st c x t l sc H. unfold write_trivia. rewrite H. unfold write_token.
  cbn [set_commenting push_str g_commenting].
  destruct l as [l|]; match goal with |- context [if ?b then _ else _] => destruct b end;
    cbn [push_str push_space pad_to uncomment set_commenting g_out g_line];
    eexists; rewrite <- !app_assoc; cbn [app]; reflexivity.
Qed.

Theorem line_comment_then_symbol : forall st c x t sc, is_single_line_comment c = true ->
  exists rest, g_out (write_symbol (write_trivia st KComment c) (x :: t) sc) = g_out st ++ c ++ 10 :: rest.
Proof.
  intros st c x t sc H. unfold write_trivia. rewrite H. unfold write_symbol.
  cbn [set_commenting push_str g_commenting uncomment g_out g_line].
  eexists. rewrite <- !app_assoc. cbn [app]. reflexivity.
Qed.

(** the same for every comment that the REFERENCE lexer reads as a short comment: the generator's
    classification agrees with it (since /repo commit fc507f0; before, "--[a[" glued the next token) *)
Theorem reference_line_comment_then_token : forall st t x r l sc, long_open t = None ->
  exists rest, g_out (write_token (write_trivia st KComment (45 :: 45 :: t)) (x :: r) l sc)
               = g_out st ++ (45 :: 45 :: t) ++ 10 :: rest.
Proof.
  intros st t x r l sc H. apply line_comment_then_token.
  unfold is_single_line_comment. rewrite CommentTextFacts.classifier_agrees, H. reflexivity.
Qed.

Example formerly_misclassified_comment :
  let c := of_string "--[a[" in
  g_out (run g_init [RToken [49] (Some 1%nat) true; RTrivia KComment c; RToken [59] (Some 1%nat) true])
    = [49] ++ c ++ [10; 59].
Proof. vm_compute. reflexivity. Qed.

(** a raw push ([push_str("...")], the variadic type pack) is not preceded by the break either *)
Theorem raw_push_swallowed :
  let c := of_string "--c" in
  is_single_line_comment c = true /\
  g_out (run g_init [RToken [40] (Some 1%nat) true; RTrivia KComment c; RRaw [46; 46; 46]])
    = [40] ++ c ++ [46; 46; 46].
Proof. vm_compute. split; reflexivity. Qed.

(** and trivia is written without any spacing check: a "-" token followed by a comment *)
Theorem minus_glued_to_comment :
  let c := of_string "-- c" in
  g_out (run g_init [RToken [97] (Some 1%nat) true; RToken [45] (Some 1%nat) true; RTrivia KComment c])
    = of_string "a--- c" /\
  lex_comment (of_string "--- c") = Some 5%nat.
Proof. vm_compute. split; reflexivity. Qed.
