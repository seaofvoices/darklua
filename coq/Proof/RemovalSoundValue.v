(** C17, value position: what [RemoveFunctionCallProcessor::process_expression] leaves in place
    of a removed call.

    - [expressions_as_expression]: [(e1 or true) and ((e2 or true) and nil)] evaluates every kept
      argument once, in order, each truncated to one value, and yields [nil];
    - remove_debug_profiling: the call of a no-op function in single-value position vs that
      expression ([profile_value_removal_sound]); in MULTI-value position (last argument, last
      returned expression, last table item) the no-op returns no value where the replacement
      returns one [nil] ([profile_value_tail_refuted]);
    - remove_assertions with [assert] bound to [function(...) return ... end]:
      [assert()] -> [nil], [assert(e)] -> [e] (all values), [assert(e1, e2, ...)] ->
      [select(1, e1, e2, ...)]. *)
From Coq Require Import ZArith NArith List Bool String Lia.
From DL Require Import Lib.Bytes Lib.F64 Lua.Syntax Lua.Sem Lua.EvalSpec.
From DL Require Import Model.Evaluator Model.Removal.
From DL Require Import Proof.SemFacts Proof.EvaluatorStore Proof.DefaultRulesSem Proof.RefactorSem.
Import ListNotations.
Open Scope N_scope.

Section Value.
Variable d : dialect.
Variable rho : env.
Variable va : list value.

Inductive evals_in_order : list expr -> store -> store -> Prop :=
| eio_nil s : evals_in_order [] s s
| eio_cons e es s k vs s1 s' :
    eval d k rho va e s = Ok vs s1 -> evals_in_order es s1 s' -> evals_in_order (e :: es) s s'.

Lemma eval1_of_eval_up k e s vs s1 m :
  eval d k rho va e s = Ok vs s1 -> (k + 1 <= m)%nat -> eval1 d m rho va e s = Ok (first vs) s1.
Proof.
  intros H L. destruct m as [|m]; [lia|]. rewrite eval1_S.
  eapply bind_ok_intro; [eapply eval_up; [exact H|lia]|reflexivity].
Qed.

(** parentheses, type casts and [not] all have the shape [v <- eval1 e ;; ret (g v)] *)
Lemma eval1_ret_inv n e (g : value -> list value) s r s' :
  (v <- eval1 d n rho va e ;; ret (g v)) s = Ok r s' ->
  exists k vs, eval d k rho va e s = Ok vs s' /\ r = g (first vs).
Proof.
  intros H. apply bind_ok in H as (v & s1 & H & Hret). apply ret_ok in Hret as [-> ->].
  apply eval1_inv in H as (k & vs & _ & H & ->). eauto.
Qed.

(** [e or true] evaluates [e], truncates it to one value and is truthy *)
Lemma or_true_intro k e s vs s1 j :
  eval d k rho va e s = Ok vs s1 -> (k + 4 <= j)%nat ->
  exists a, truthy a = true /\ eval1 d j rho va (EBinary BOr e ETrue) s = Ok a s1.
Proof.
  intros He L. destruct j as [|[|[|[|j]]]]; try lia.
  set (a := if truthy (first vs) then first vs else VBool true).
  assert (Hor : eval d (S (S (S j))) rho va (EBinary BOr e ETrue) s = Ok [a] s1).
  { rewrite eval_S_or. eapply bind_ok_intro; [eapply eval1_of_eval_up; [exact He|lia]|].
    unfold a. destruct (truthy (first vs)); [reflexivity|]. rewrite eval1_S, eval_S_true. reflexivity. }
  exists a. split.
  - unfold a. destruct (truthy (first vs)) eqn:Et; [exact Et|reflexivity].
  - rewrite eval1_S. eapply bind_ok_intro; [exact Hor|reflexivity].
Qed.

Lemma or_true_inv j e s a s1 :
  eval1 d j rho va (EBinary BOr e ETrue) s = Ok a s1 ->
  truthy a = true /\ exists k vs, eval d k rho va e s = Ok vs s1.
Proof.
  intros H. apply eval1_inv in H as (j1 & vor & _ & H & ->).
  fuel_S j1 H. rewrite eval_S_or in H.
  apply bind_ok in H as (ae & se & He & Hk).
  apply eval1_inv in He as (k & vs & _ & He & ->).
  destruct (truthy (first vs)) eqn:Et.
  - apply ret_ok in Hk as [-> ->]. eauto.
  - apply bind_ok in Hk as (b & sb & Hb & Hret). apply ret_ok in Hret as [-> ->].
    apply eval1_inv in Hb as (j3 & vt & _ & Hb & ->).
    fuel_S j3 Hb. rewrite eval_S_true in Hb.
    apply ret_ok in Hb as [-> ->]. eauto.
Qed.

Lemma keep_step k e s vs s1 m rest r s' j :
  eval d k rho va e s = Ok vs s1 -> eval d m rho va rest s1 = Ok [r] s' -> (k + m + 5 <= j)%nat ->
  eval d j rho va (EBinary BAnd (EBinary BOr e ETrue) rest) s = Ok [r] s'.
Proof.
  intros He Hrest L. destruct j as [|j]; [lia|]. rewrite eval_S_and.
  destruct (or_true_intro _ _ _ _ _ j He) as (a & Ha & Hor); [lia|].
  eapply bind_ok_intro; [exact Hor|]. rewrite Ha.
  eapply bind_ok_intro; [eapply eval1_of_eval_up; [exact Hrest|lia]|reflexivity].
Qed.

Theorem expressions_as_expression_sound es s s' :
  evals_in_order es s s' ->
  exists m, forall j, (m <= j)%nat -> eval d j rho va (expressions_as_expression es) s = Ok [VNil] s'.
Proof.
  induction 1 as [s|e es s k vs s1 s' He Hes (m & IH)].
  - exists 1%nat. intros j L. destruct j; [lia|]. rewrite eval_S_nil. reflexivity.
  - exists (k + m + 5)%nat. intros j L. cbn [expressions_as_expression fold_right].
    eapply keep_step; [exact He|exact (IH m (le_n m))|exact L].
Qed.

(** conversely, the expression can do nothing else *)
Theorem expressions_as_expression_inv es : forall j s r s',
  eval d j rho va (expressions_as_expression es) s = Ok r s' -> r = [VNil] /\ evals_in_order es s s'.
Proof.
  induction es as [|e es IH]; intros j s r s' H; cbn [expressions_as_expression fold_right] in H;
    fuel_S j H.
  - rewrite eval_S_nil in H. apply ret_ok in H as [-> ->]. split; [reflexivity|constructor].
  - rewrite eval_S_and in H. apply bind_ok in H as (a & s1 & Hor & Hk).
    apply or_true_inv in Hor as (Ha & k & vs & He). rewrite Ha in Hk.
    apply (eval1_ret_inv _ _ (fun b => [b])) in Hk as (k2 & vr & Hr & ->).
    fold (expressions_as_expression es) in Hr.
    destruct (IH _ _ _ _ Hr) as [-> Hes]. split; [reflexivity|].
    econstructor; [exact He|exact Hes].
Qed.

(** a dropped argument: its evaluation changes no store *)
Definition quiet (e : expr) : Prop :=
  forall k s vs s', eval d k rho va e s = Ok vs s' -> s' = s.

Fixpoint simple_quiet (e : expr) : bool :=
  match e with
  | ENil | ETrue | EFalse | ENumber _ | EString _ | EVarArgs => true
  | EIdent x => match lookup rho x with Some _ => true | None => false end
  | EParen e' => simple_quiet e'
  | ETypeCast e' _ => simple_quiet e'
  | EUnary UNot e' => simple_quiet e'
  | _ => false
  end.

#[local] Hint Rewrite eval_S_nil eval_S_true eval_S_false eval_S_number eval_S_string eval_S_varargs
  : eval_literal.

Lemma simple_quiet_quiet e : simple_quiet e = true -> quiet e.
Proof.
  unfold quiet.
  induction e; intros Hq k st vs st' H; try discriminate Hq; fuel_S k H.
  1-6: autorewrite with eval_literal in H; exact (proj2 (ret_ok _ _ _ _ H)).
  - rewrite eval_S_ident in H. cbn [simple_quiet] in Hq. destruct (lookup rho x); [|discriminate Hq].
    apply bind_ok in H as (v & s1 & Hc & Hret). apply ret_ok in Hret as [_ ->].
    exact (get_cell_ok _ _ _ _ Hc).
  - rewrite eval_S_paren in H. apply eval1_ret_inv in H as (j & vs1 & H & _). eauto.
  - destruct op; try discriminate Hq. rewrite eval_S_unary in H.
    apply eval1_ret_inv in H as (j & vs1 & H & _). eauto.
  - rewrite eval_S_typecast in H. apply eval1_ret_inv in H as (j & vs1 & H & _). eauto.
Qed.

Definition kept_or_quiet (e : expr) : Prop := hse e = true \/ (hse e = false /\ quiet e).

Lemma eval_list_evals es : forall k s vs s',
  eval_list d k rho va es s = Ok vs s' -> evals_in_order es s s'.
Proof.
  induction es as [|e es IH]; intros k s vs s' H; fuel_S k H.
  - rewrite eval_list_S_nil in H. apply ret_ok in H as [_ ->]. constructor.
  - destruct es as [|e2 rest].
    + rewrite eval_list_S_one in H. econstructor; [exact H|constructor].
    + rewrite eval_list_S_cons in H. apply bind_ok in H as (v & s1 & H1 & H).
      apply eval1_inv in H1 as (j & vs1 & _ & H1 & _).
      apply bind_ok in H as (vs2 & s2 & H2 & Hret). apply ret_ok in Hret as [_ ->].
      econstructor; [exact H1|exact (IH _ _ _ _ H2)].
Qed.

Lemma evals_in_order_kept es s s' :
  Forall kept_or_quiet es -> evals_in_order es s s' -> evals_in_order (filter hse es) s s'.
Proof.
  intros Hf Hio. induction Hio as [s|e es s k vs s1 s' He Hes IH]; [constructor|].
  inversion Hf as [|? ? Hk Hrest]; subst. cbn [filter].
  destruct Hk as [Hk|[Hk Hq]]; rewrite Hk.
  - econstructor; [exact He|exact (IH Hrest)].
  - rewrite <- (Hq _ _ _ _ He). exact (IH Hrest).
Qed.

(** the callee evaluates without effect to a function that, called on the evaluated arguments in
    the store they leave, returns values related to them by [R] and leaves the store alone.
    (The call is only constrained in that store: a closure is an address, which means nothing in
    an unrelated store.) *)
Definition callee_returns (R : list value -> list value -> Prop) (p : expr) (es : list expr) (s : store)
  : Prop :=
  forall k f s0, eval1 d k rho va p s = Ok f s0 ->
    s0 = s /\ forall k2 args s1, eval_list d k2 rho va es s = Ok args s1 ->
              forall j r s2, call d j f args s1 = Ok r s2 -> R args r /\ s2 = s1.

Lemma removed_call_inv R n p es s r s' :
  callee_returns R p es s -> eval d n rho va (ECall p None (ATuple es)) s = Ok r s' ->
  exists k args, n = S (S k) /\ eval_list d k rho va es s = Ok args s' /\ R args r.
Proof.
  intros Hc H. fuel_S n H. rewrite eval_S_call in H.
  apply bind_ok in H as (f & s0 & Hp & H). apply bind_ok in H as (args & s1 & Ha & Hcall).
  destruct (Hc _ _ _ Hp) as [-> Hf].
  fuel_S n Ha. rewrite eval_args_S_tuple in Ha.
  destruct (Hf _ _ _ Ha _ _ _ Hcall) as [HR ->]. eauto.
Qed.

(** [debug.profilebegin] / [debug.profileend] replaced by no-ops: [callee_returns] at
    [fun _ r => r = []], written out *)
Definition noop_callee (p : expr) (es : list expr) (s : store) : Prop :=
  forall k f s0, eval1 d k rho va p s = Ok f s0 ->
    s0 = s /\ forall k2 args s1, eval_list d k2 rho va es s = Ok args s1 ->
              forall j r s2, call d j f args s1 = Ok r s2 -> r = [] /\ s2 = s1.

Theorem profile_value_removal_sound n p es s v s' :
  noop_callee p es s -> Forall kept_or_quiet es ->
  eval1 d n rho va (ECall p None (ATuple es)) s = Ok v s' ->
  v = VNil /\
  exists m, forall j, (m <= j)%nat ->
    eval1 d j rho va (expressions_as_expression (preserve_args (ATuple es))) s = Ok VNil s'.
Proof.
  intros Hn Hf H. apply eval1_inv in H as (n1 & r & _ & H & ->).
  apply (removed_call_inv (fun _ r => r = [])) in H as (k & args & _ & Ha & ->); [|exact Hn].
  split; [reflexivity|].
  pose proof (evals_in_order_kept _ _ _ Hf (eval_list_evals _ _ _ _ _ Ha)) as Hio.
  destruct (expressions_as_expression_sound _ _ _ Hio) as (m & Hm).
  exists (S m). intros j L. cbn [preserve_args].
  change VNil with (first [VNil]). eapply eval1_of_eval_up; [apply (Hm m); lia|lia].
Qed.

(** [assert] replaced by [function(...) return ... end]: [callee_returns] at [fun args r => r = args] *)
Definition identity_callee (p : expr) (es : list expr) (s : store) : Prop :=
  forall k f s0, eval1 d k rho va p s = Ok f s0 ->
    s0 = s /\ forall k2 args s1, eval_list d k2 rho va es s = Ok args s1 ->
              forall j r s2, call d j f args s1 = Ok r s2 -> r = args /\ s2 = s1.

(** the call yields exactly what its argument list yields in multi-value position; the three
    shapes of [assert_result] below are the three ways of writing that list as one expression *)
Lemma assert_call_is_args n p es s r s' :
  identity_callee p es s -> eval d n rho va (ECall p None (ATuple es)) s = Ok r s' ->
  exists k, n = S (S k) /\ eval_list d k rho va es s = Ok r s'.
Proof.
  intros Hn H. apply (removed_call_inv (fun args r => r = args)) in H as (k & args & -> & Ha & ->); eauto.
Qed.

Theorem assert_value_removal_sound_0 n p s r s' :
  identity_callee p [] s ->
  eval d n rho va (ECall p None (ATuple [])) s = Ok r s' ->
  r = [] /\ s' = s /\ assert_result false [] = ENil.
Proof.
  intros Hn H. destruct (assert_call_is_args _ _ _ _ _ _ Hn H) as (k & _ & Ha).
  fuel_S k Ha. rewrite eval_list_S_nil in Ha.
  apply ret_ok in Ha as [-> ->]. auto.
Qed.

Theorem assert_value_removal_sound_1 n p e s r s' :
  identity_callee p [e] s ->
  eval d n rho va (ECall p None (ATuple [e])) s = Ok r s' ->
  assert_result false [e] = e /\ forall j, (n <= j)%nat -> eval d j rho va e s = Ok r s'.
Proof.
  intros Hn H. split; [reflexivity|].
  destruct (assert_call_is_args _ _ _ _ _ _ Hn H) as (k & -> & Ha).
  fuel_S k Ha. rewrite eval_list_S_one in Ha.
  intros j L. eapply eval_up; [exact Ha|lia].
Qed.

(** two or more arguments: [select(1, e1, e2, ...)], [sel] being the name [select] or the alias
    the rule declared for it; it must denote the builtin *)
Theorem assert_value_removal_sound_many n p sel es s r s' :
  identity_callee p es s -> (2 <= List.length es)%nat ->
  reads rho sel s (VBuiltin B_select) ->
  eval d n rho va (ECall p None (ATuple es)) s = Ok r s' ->
  forall j, (n + 4 <= j)%nat ->
  eval d j rho va (ECall (EIdent sel) None (ATuple (one :: es))) s = Ok r s'.
Proof.
  intros Hn Hlen Hsel H j L.
  destruct (assert_call_is_args _ _ _ _ _ _ Hn H) as (k & -> & Ha).
  destruct es as [|e1 [|e2 rest]]; cbn [List.length] in Hlen; try lia.
  destruct j as [|[|[|[|[|j]]]]]; try lia.
  rewrite eval_S_call. eapply bind_ok_intro; [apply (reads_eval1 d _ _ _ _ _ _ Hsel); lia|].
  eapply bind_ok_intro.
  { rewrite eval_args_S_tuple, eval_list_S_cons. eapply bind_ok_intro.
    { unfold one. rewrite eval1_S, eval_S_number. reflexivity. }
    eapply bind_ok_intro; [eapply eval_list_up; [exact Ha|lia]|reflexivity]. }
  cbn [first]. rewrite call_S_builtin.
  replace (number_value (NDec (to_bits fone) None)) with fone by (vm_compute; reflexivity).
  rewrite call_builtin_S_select_one. reflexivity.
Qed.

End Value.

Definition noop_body : fbody := FBody [] false None None None 0 (Block [] None).
Definition st_noop : store := mkStore [VClosure 0] initial_tables [mkClosure noop_body [] false] [] [] 0.
Definition rho_noop : env := [(of_string "f", 0)].
Definition call_f (es : list expr) : expr := ECall (EIdent (of_string "f")) None (ATuple es).
Definition ext_call : expr := ECall (EIdent (of_string "ext_a")) None (ATuple []).

(** [f(ext_a(), 1)] with [f] a no-op: the external call is made once, the value is [nil] *)
Example profile_value_example :
  exists s', eval1 L51 12 rho_noop [] (call_f [ext_call; one]) st_noop = Ok VNil s' /\
             eval1 L51 12 rho_noop [] (expressions_as_expression (preserve_args (ATuple [ext_call; one]))) st_noop = Ok VNil s'.
Proof. eexists. split; vm_compute; reflexivity. Qed.

(** in multi-value position the original yields NO value, the replacement ONE *)
Theorem profile_value_tail_refuted :
  exists dl rho va p s r1 r2 s1 s2,
    eval dl 12 rho va (ECall p None (ATuple [])) s = Ok r1 s1 /\
    eval dl 12 rho va (expressions_as_expression (preserve_args (ATuple []))) s = Ok r2 s2 /\
    r1 = [] /\ r2 = [VNil].
Proof.
  exists L51, rho_noop, [], (EIdent (of_string "f")), st_noop, [], [VNil], st_noop, st_noop.
  repeat split; vm_compute; reflexivity.
Qed.
