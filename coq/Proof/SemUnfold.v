(** One-step unfolding of the reference interpreter ([Lua/Sem.v]): for each function [F] of
    its mutual fixpoint the equation [F d (S n) args = body n], the body being the text of
    [Sem.v] with the local loops named ([if_go], [fill_go], [targets_loop], ...: the first part
    of the file).  An equation called [F_unf] has a [match] on an argument on its right, which
    [Proof/SemFacts.v] specialises to the constructors ([F_S_c]); one called [F_S] is used as
    it stands; [eval] has one equation [eval_S_c] per constructor.  (The equation of
    [exec_repeat] is in [Proof/LoweringFuel.v], beside the loop [repeat_loop] it is stated
    with.)

    The equations hold by conversion: the proof term is [eq_refl] and the kernel checks it at
    [Qed] ([exact_no_check] only skips the same check by the tactic unifier).  That check is
    slow, because the kernel compares the whole mutual block once per recursive call in the
    compiled body; so the block is unfolded by these equations only, and every other proof
    rewrites with them. *)
From Coq Require Import ZArith NArith List Bool String Lia.
From Coq Require Import Floats.SpecFloat.
From DL Require Import Lib.Bytes Lib.F64 Lua.Syntax Lua.Sem.
Import ListNotations.
Open Scope N_scope.

Definition pcall_wrap (m : M (list value)) : M (list value) :=
  fun s =>
    match m s with
    | Ok vs s' => Ok (VBool true :: vs) s'
    | Err (EUser v) s' => Ok [VBool false; v] s'
    | Err (ERun _) s' => Ok [VBool false; vstr "<error>"] s'
    | Fuel => Fuel
    | Unsup w => Unsup w
    end.

Definition raise {A} (v : value) : M A := fun s => Err (EUser v) s.

Definition next_skip (a1 : value) :=
  fix skip (es : list (value * value)) : option (list (value * value)) :=
    match es with
    | [] => None
    | (k, _) :: rest => if raw_equal k a1 then Some rest else skip rest
    end.

Definition minmax_go (b : N) :=
  fix go (vs : list value) (acc : option f64) : M (list value) :=
    match vs with
    | [] => match acc with Some x => num_result x | None => fail 46 end
    | v :: rest =>
      match tonum v with
      | None => fail 46
      | Some x =>
        if is_nan x then unsup 46
        else go rest (match acc with
                      | None => Some x
                      | Some y => if b =? B_max then (if fltb y x then Some x else Some y)
                                  else (if fltb x y then Some x else Some y)
                      end)
      end
    end.

Definition char_go :=
  fix go (vs : list value) (acc : bytes) : M (list value) :=
    match vs with
    | [] => ret [VStr (rev acc)]
    | v :: rest =>
      match tonum v with
      | Some x => if is_integer x && (0 <=? to_Z x)%Z && (to_Z x <? 256)%Z
                  then go rest (Z.to_N (to_Z x) :: acc) else fail 51
      | None => fail 51
      end
    end.

Definition put (a : N) (k v : value) : M unit :=
  t <- get_table a ;;
  match norm_key k with
  | None => fail 12
  | Some k' => set_table a (mkTable (raw_set (t_entries t) k' v) (t_meta t))
  end.

Definition put_pos (a : N) (pos : Z) (v : value) : M unit :=
  match v with VNil => ret tt | _ => put a (VNum (of_Z pos)) v end.

Definition fill_go (a : N) :=
  fix go (vs : list value) (pos : Z) : M unit :=
    match vs with
    | [] => ret tt
    | v :: vs' => _ <- put_pos a pos v ;; go vs' (pos + 1)%Z
    end.

Definition local_go :=
  fix go (ps : list param) (vs : list value) (acc : env) : M env :=
    match ps with
    | [] => ret acc
    | p :: rest => a <- new_cell (arg vs 0) ;; go rest (tl vs) ((param_name p, a) :: acc)
    end.

Definition targets_loop (ET : expr -> M (option N * value * value)) : list expr -> M (list (option N * value * value)) :=
  fix go (vs : list expr) : M (list (option N * value * value)) :=
    match vs with
    | [] => ret []
    | v :: rest => t <- ET v ;; ts <- go rest ;; ret (t :: ts)
    end.

Definition assign_loop (AT : (option N * value * value) -> value -> M unit) : list (option N * value * value) -> list value -> M unit :=
  fix go (ts : list (option N * value * value)) (vs : list value) : M unit :=
    match ts with
    | [] => ret tt
    | t :: rest => _ <- AT t (arg vs 0) ;; go rest (tl vs)
    end.

Definition path_loop (I : value -> value -> M value) : value -> list name -> M value :=
  fix go (o : value) (ks : list name) : M value :=
    match ks with
    | [] | [_] => ret o
    | k :: rest => o' <- I o (VStr k) ;; go o' rest
    end.

Definition sif_loop (E : expr -> M value) (X : block -> M signal) (els : option block) : list sbranch -> M signal :=
  fix go (bs : list sbranch) : M signal :=
    match bs with
    | [] => match els with
    | Some b => X b
    | None => ret SigNone
    end
    | SBranch c b :: rest =>
    cv <- E c ;;
    if truthy cv then X b else go rest
    end.

Section Loops.
Variable d : dialect.

Definition cstr (v : value) : option bytes :=
  match v with
  | VStr s => Some s
  | VNum x => Some (tostring_num d x)
  | _ => None
  end.

Definition tconcat_go (t : table) (sep : bytes) :=
  fix go (is : list nat) (acc : bytes) (first_item : bool) : M (list value) :=
    match is with
    | [] => ret [VStr acc]
    | i :: rest =>
      match raw_get (t_entries t) (VNum (of_Z (Z.of_nat i))) with
      | VStr s => go rest (acc ++ (if first_item then [] else sep) ++ s) false
      | VNum x => go rest (acc ++ (if first_item then [] else sep) ++ tostring_num d x) false
      | _ => fail 53
      end
    end.

Definition format_go (n : nat) :=
  fix go (fuel : nat) (f : bytes) (vs : list value) (acc : bytes) : M (list value) :=
    match fuel with
    | O => fun _ => Fuel
    | S fuel =>
      match f with
      | [] => ret [VStr acc]
      | 37 :: 37 :: f' => go fuel f' vs (acc ++ [37])
      | 37 :: c :: f' =>
        match vs with
        | [] => fail 54
        | v :: vs' =>
          if (c =? 115) || (c =? 42) then     (* %s, and Luau's %* *)
            if (c =? 42) && negb (is_luau d) then fail 54
            else
            sv <- tostr d n v ;;
            match sv with
            | VStr s => go fuel f' vs' (acc ++ s)
            | _ => fail 54
            end
          else if (c =? 100) then             (* %d *)
            match tonum v with
            | Some x => if is_integer x then
                          let z := to_Z x in
                          go fuel f' vs' (acc ++ (if (z <? 0)%Z then [45] else []) ++ dec_digits (Z.to_N (Z.abs z)))
                        else unsup 54
            | None => fail 54
            end
          else unsup 54
        end
      | [37] => fail 54
      | c :: f' => go fuel f' vs (acc ++ [c])
      end
    end.

Definition if_go (n : nat) (rho : env) (va : list value) (els : expr) :=
  fix go (bs : list ebranch) : M (list value) :=
    match bs with
    | [] => v <- eval1 d n rho va els ;; ret [v]
    | EBranch c r :: rest =>
      cv <- eval1 d n rho va c ;;
      if truthy cv then v <- eval1 d n rho va r ;; ret [v] else go rest
    end.

Definition interp_go (n : nat) (rho : env) (va : list value) :=
  fix go (ss : list iseg) (acc : bytes) : M (list value) :=
    match ss with
    | [] => ret [VStr acc]
    | ISStr s :: rest => go rest (acc ++ s)
    | ISExpr e' :: rest =>
      v <- eval1 d n rho va e' ;;
      sv <- tostr d n v ;;
      match sv with
      | VStr s => go rest (acc ++ s)
      | _ => fail 19
      end
    end.

Definition binop_sem (n : nat) (op : binop) (a b : value) : M (list value) :=
  match op with
  | BEq => r <- equal d n a b ;; ret [VBool r]
  | BNeq => r <- equal d n a b ;; ret [VBool (negb r)]
  | BLt => r <- less d n true a b ;; ret [VBool r]
  | BLe => r <- less d n false a b ;; ret [VBool r]
  | BGt => r <- less d n true b a ;; ret [VBool r]
  | BGe => r <- less d n false b a ;; ret [VBool r]
  | BConcat => r <- concat d n a b ;; ret [r]
  | _ => r <- arith d n op a b ;; ret [r]
  end.

End Loops.

Definition is_andor (o : binop) : bool := match o with BAnd | BOr => true | _ => false end.

Section Unfold.
Variable d : dialect.

Local Notation call := (Sem.call d).
Local Notation index := (Sem.index d).
Local Notation setindex := (Sem.setindex d).
Local Notation tostr := (Sem.tostr d).
Local Notation arith := (Sem.arith d).
Local Notation concat := (Sem.concat d).
Local Notation equal := (Sem.equal d).
Local Notation less := (Sem.less d).
Local Notation length := (Sem.length d).
Local Notation call_builtin := (Sem.call_builtin d).
Local Notation eval := (Sem.eval d).
Local Notation eval1 := (Sem.eval1 d).
Local Notation eval_list := (Sem.eval_list d).
Local Notation eval_args := (Sem.eval_args d).
Local Notation fill_table := (Sem.fill_table d).
Local Notation exec_block := (Sem.exec_block d).
Local Notation exec_stmts := (Sem.exec_stmts d).
Local Notation assign_target := (Sem.assign_target d).
Local Notation eval_target := (Sem.eval_target d).
Local Notation exec_stmt := (Sem.exec_stmt d).
Local Notation exec_while := (Sem.exec_while d).
Local Notation exec_repeat := (Sem.exec_repeat d).
Local Notation exec_numfor := (Sem.exec_numfor d).
Local Notation exec_genfor := (Sem.exec_genfor d).

Lemma call_unf n (f : value) (args : list value) :
  call (S n) f args =
  (    match f with
    | VClosure a =>
      c <- get_closure a ;;
      match c_body c with
      | FBody ps variadic _ _ _ _ body =>
        let ps := if c_self c then Param (of_string "self") None :: ps else ps in
        rho <- bind_params ps args ;;
        let va := if variadic then skipn (List.length ps) args else [] in
        sg <- exec_block n (rev rho ++ c_env c) va body ;;
        match sg with
        | SigReturn vs => ret vs
        | _ => ret []
        end
      end
    | VExt x => call_ext x args
    | VBuiltin b => call_builtin n b args
    | _ =>
      h <- metamethod f "__call" ;;
      match h with
      | VNil => fail 10
      | _ => call n h (f :: args)
      end
    end).
Proof. exact_no_check (@eq_refl _ (call (S n) f args)). Qed.

Lemma index_unf n (o k : value) :
  index (S n) o k =
  (    match o with
    | VTable a =>
      t <- get_table a ;;
      match raw_get (t_entries t) (match norm_key k with Some k' => k' | None => k end) with
      | VNil =>
        h <- metamethod o "__index" ;;
        match h with
        | VNil => ret VNil
        | VTable _ => index n h k
        | _ => vs <- call n h [o; k] ;; ret (first vs)
        end
      | v => ret v
      end
    | _ =>
      h <- metamethod o "__index" ;;
      match h with
      | VNil => fail 11
      | VTable _ => index n h k
      | _ => vs <- call n h [o; k] ;; ret (first vs)
      end
    end).
Proof. exact_no_check (@eq_refl _ (index (S n) o k)). Qed.

Lemma setindex_unf n (o k v : value) :
  setindex (S n) o k v =
  (    match o with
    | VTable a =>
      t <- get_table a ;;
      let existing := raw_get (t_entries t) (match norm_key k with Some k' => k' | None => k end) in
      h <- (match existing with VNil => metamethod o "__newindex" | _ => ret VNil end) ;;
      match h with
      | VNil =>
        match norm_key k with
        | None => fail 12
        | Some k' => set_table a (mkTable (raw_set (t_entries t) k' v) (t_meta t))
        end
      | VTable _ => setindex n h k v
      | _ => _ <- call n h [o; k; v] ;; ret tt
      end
    | _ =>
      h <- metamethod o "__newindex" ;;
      match h with
      | VNil => fail 13
      | VTable _ => setindex n h k v
      | _ => _ <- call n h [o; k; v] ;; ret tt
      end
    end).
Proof. exact_no_check (@eq_refl _ (setindex (S n) o k v)). Qed.

Lemma tostr_S n (v : value) :
  tostr (S n) v =
  (    h <- metamethod v "__tostring" ;;
    match h with
    | VNil =>
      ret (VStr match v with
                | VNil => of_string "nil"
                | VBool true => of_string "true"
                | VBool false => of_string "false"
                | VNum x => tostring_num d x
                | VStr s => s
                | VTable _ => of_string "table"
                | _ => of_string "function"
                end)
    | _ => vs <- call n h [v] ;; ret (first vs)
    end).
Proof. exact_no_check (@eq_refl _ (tostr (S n) v)). Qed.

Lemma arith_S n (o : binop) (a b : value) :
  arith (S n) o a b =
  (    match tonum a, tonum b with
    | Some x, Some y =>
      match arith_num d o x y with
      | Some r => ret (VNum r)
      | None => unsup 20
      end
    | _, _ =>
      match arith_name o with
      | None => unsup 21
      | Some ev =>
        h <- metamethod a ev ;;
        h <- (match h with VNil => metamethod b ev | _ => ret h end) ;;
        match h with
        | VNil => fail 14
        | _ => vs <- call n h [a; b] ;; ret (first vs)
        end
      end
    end).
Proof. exact_no_check (@eq_refl _ (arith (S n) o a b)). Qed.

Lemma concat_S n (a b : value) :
  concat (S n) a b =
  (    match cstr d a, cstr d b with
    | Some x, Some y => ret (VStr (x ++ y))
    | _, _ =>
      h <- metamethod a "__concat" ;;
      h <- (match h with VNil => metamethod b "__concat" | _ => ret h end) ;;
      match h with
      | VNil => fail 15
      | _ => vs <- call n h [a; b] ;; ret (first vs)
      end
    end).
Proof. exact_no_check (@eq_refl _ (concat (S n) a b)). Qed.

Lemma equal_S n (a b : value) :
  equal (S n) a b =
  (    if raw_equal a b then ret true
    else match a, b with
         | VTable _, VTable _ =>
           h1 <- metamethod a "__eq" ;;
           h2 <- metamethod b "__eq" ;;
           let h := match d with
                    | L51 => if raw_equal h1 h2 then h1 else VNil
                    | Luau => match h1 with VNil => h2 | _ => h1 end
                    end in
           match h with
           | VNil => ret false
           | _ => vs <- call n h [a; b] ;; ret (truthy (first vs))
           end
         | _, _ => ret false
         end).
Proof. exact_no_check (@eq_refl _ (equal (S n) a b)). Qed.

Lemma less_S n (strict : bool) (a b : value) :
  less (S n) strict a b =
  (    match a, b with
    | VNum x, VNum y => ret (if strict then fltb x y else fleb x y)
    | VStr x, VStr y => ret (if strict then bytes_ltb x y else bytes_leb x y)
    | _, _ =>
      let ev := if strict then "__lt"%string else "__le"%string in
      h1 <- metamethod a ev ;;
      h2 <- metamethod b ev ;;
      match h1 with
      | VNil =>
        if strict then fail 16
        else 
          r <- less n true b a ;; ret (negb r)
      | _ =>
        if raw_equal h1 h2 then vs <- call n h1 [a; b] ;; ret (truthy (first vs))
        else if strict then fail 16 else r <- less n true b a ;; ret (negb r)
      end
    end).
Proof. exact_no_check (@eq_refl _ (less (S n) strict a b)). Qed.

Lemma length_S n (v : value) :
  length (S n) v =
  (    match v with
    | VStr s => ret (VNum (of_Z (Z.of_nat (List.length s))))
    | VTable a =>
      h <- (if is_luau d then metamethod v "__len" else ret VNil) ;;
      match h with
      | VNil => t <- get_table a ;; ret (VNum (of_Z (border (t_entries t))))
      | _ => vs <- call n h [v] ;; ret (first vs)
      end
    | _ =>
      h <- metamethod v "__len" ;;
      match h with
      | VNil => fail 17
      | _ => vs <- call n h [v] ;; ret (first vs)
      end
    end).
Proof. exact_no_check (@eq_refl _ (length (S n) v)). Qed.

Lemma call_builtin_S n (b : N) (args : list value) :
  call_builtin (S n) b args =
  (    let a0 := arg args 0 in let a1 := arg args 1 in let a2 := arg args 2 in
    if b =? B_select then
      match a0 with
      | VStr [35] => ret [VNum (of_Z (Z.of_nat (List.length args) - 1))]
      | VNum x =>
        if is_integer x then
          let i := to_Z x in
          if (0 <? i)%Z then ret (skipn (Z.to_nat i) args)
          else if (i <? 0)%Z then
            let k := (Z.of_nat (List.length args) - 1 + i)%Z in
            if (k <? 0)%Z then fail 30 else ret (skipn (Z.to_nat k + 1) args)
          else fail 30
        else unsup 30
      | _ => fail 30
      end
    else if b =? B_tostring then v <- tostr n a0 ;; ret [v]
    else if b =? B_tonumber then
      match args with
      | [_] | [_; VNil] => ret [match tonum a0 with Some x => VNum x | None => VNil end]
      | _ => unsup 31
      end
    else if b =? B_type then
      match args with [] => fail 32 | _ => ret [VStr (type_name a0)] end
    else if b =? B_rawget then
      match a0 with
      | VTable a => t <- get_table a ;;
                    ret [raw_get (t_entries t) (match norm_key a1 with Some k => k | None => a1 end)]
      | _ => fail 33
      end
    else if b =? B_rawset then
      match a0, norm_key a1 with
      | VTable a, Some k => t <- get_table a ;;
                            _ <- set_table a (mkTable (raw_set (t_entries t) k a2) (t_meta t)) ;;
                            ret [a0]
      | _, _ => fail 34
      end
    else if b =? B_rawequal then ret [VBool (raw_equal a0 a1)]
    else if b =? B_rawlen then
      match a0 with
      | VTable a => t <- get_table a ;; ret [VNum (of_Z (border (t_entries t)))]
      | VStr s => ret [VNum (of_Z (Z.of_nat (List.length s)))]
      | _ => fail 35
      end
    else if b =? B_setmetatable then
      match a0, a1 with
      | VTable a, VNil => t <- get_table a ;; _ <- set_table a (mkTable (t_entries t) None) ;; ret [a0]
      | VTable a, VTable m =>
        t <- get_table a ;;
        _ <- set_table a (mkTable (t_entries t) (Some m)) ;; ret [a0]
      | _, _ => fail 36
      end
    else if b =? B_getmetatable then
      m <- metatable_of a0 ;;
      match m with
      | None => ret [VNil]
      | Some a => t <- get_table a ;;
                  match raw_get (t_entries t) (vstr "__metatable") with
                  | VNil => ret [VTable a]
                  | v => ret [v]
                  end
      end
    else if b =? B_pcall then pcall_wrap (call n a0 (tl args))
    else if b =? B_error then raise a0
    else if b =? B_assert then
      match args with
      | [] => fail 37
      | _ => if truthy a0 then ret args
             else match args with
                  | [_] => raise (vstr "assertion failed!")
                  | _ => raise a1
                  end
      end
    else if b =? B_next then
      match a0 with
      | VTable a =>
        t <- get_table a ;;
        let live := filter (fun kv : value * value => match snd kv with VNil => false | _ => true end) in
        let after :=
          match a1 with
          | VNil => Some (t_entries t)
          | _ => next_skip a1 (t_entries t)
          end in
        match after with
        | None => fail 38
        | Some es => match live es with
                     | [] => ret [VNil]
                     | (k, v) :: _ => ret [k; v]
                     end
        end
      | _ => fail 38
      end
    else if b =? B_pairs then
      match a0 with
      | VTable _ => ret [VBuiltin B_next; a0; VNil]
      | _ => fail 39
      end
    else if b =? B_ipairs then
      match a0 with
      | VTable _ => ret [VBuiltin B_ipairs_iter; a0; VNum fzero]
      | _ => fail 40
      end
    else if b =? B_ipairs_iter then
      match a1 with
      | VNum x =>
        let i := VNum (fadd x fone) in
        v <- index n a0 i ;;
        match v with VNil => ret [VNil] | _ => ret [i; v] end
      | _ => fail 41
      end
    else if b =? B_unpack then
      match a0, tl args with
      | VTable a, [] =>
        t <- get_table a ;;
        let nlen := border (t_entries t) in
        ret (map (fun i => raw_get (t_entries t) (VNum (of_Z (Z.of_nat i)))) (seq 1 (Z.to_nat nlen)))
      | _, _ => unsup 42
      end
    else if b =? B_floor then
      match tonum a0 with Some x => num_result (ffloor x) | None => fail 43 end
    else if b =? B_sqrt then
      match tonum a0 with Some x => num_result (fsqrt x) | None => fail 44 end
    else if b =? B_abs then
      match tonum a0 with Some x => num_result (fabs x) | None => fail 45 end
    else if (b =? B_max) || (b =? B_min) then
      match args with
      | [] => fail 46
      | _ => minmax_go b args None
      end
    else if b =? B_len then
      match a0 with
      | VStr s => ret [VNum (of_Z (Z.of_nat (List.length s)))]
      | VNum x => ret [VNum (of_Z (Z.of_nat (List.length (tostring_num d x))))]
      | _ => fail 47
      end
    else if b =? B_sub then
      match a0, tonum a1 with
      | VStr s, Some i =>
        match (match a2 with VNil => Some (of_Z (-1)) | _ => tonum a2 end) with
        | Some j => if is_integer i && is_integer j then ret [VStr (lua_sub s (to_Z i) (to_Z j))] else unsup 48
        | None => fail 48
        end
      | _, _ => fail 48
      end
    else if b =? B_rep then
      match a0, tonum a1 with
      | VStr s, Some k => if is_integer k then ret [VStr (List.concat (repeat s (Z.to_nat (to_Z k))))] else unsup 49
      | _, _ => fail 49
      end
    else if b =? B_byte then
      match a0, tl args with
      | VStr s, [] => match s with c :: _ => ret [VNum (of_N c)] | [] => ret [] end
      | _, _ => unsup 50
      end
    else if b =? B_char then char_go args []
    else if b =? B_insert then
      match a0, args with
      | VTable a, [_; v] =>
        t <- get_table a ;;
        _ <- set_table a (mkTable (raw_set (t_entries t) (VNum (of_Z (border (t_entries t) + 1))) v) (t_meta t)) ;;
        ret []
      | _, _ => unsup 52
      end
    else if b =? B_concat then
      match a0 with
      | VTable a =>
        t <- get_table a ;;
        let sep := match a1 with VStr s => Some s | VNil => Some [] | VNum x => Some (tostring_num d x) | _ => None end in
        match sep, tl (tl args) with
        | Some sep, [] => tconcat_go d t sep (seq 1 (Z.to_nat (border (t_entries t)))) [] true
        | _, _ => unsup 53
        end
      | _ => fail 53
      end
    else if b =? B_format then
      match a0 with
      | VStr fmt => format_go d n (S (List.length fmt)) fmt (tl args) []
      | _ => unsup 54
      end
    else unsup 55).
Proof. exact_no_check (@eq_refl _ (call_builtin (S n) b args)). Qed.

Lemma eval_S_nil n rho va  :
  eval (S n) rho va (ENil) =
  ( ret [VNil]).
Proof. exact_no_check (@eq_refl _ (eval (S n) rho va (ENil))). Qed.

Lemma eval_S_true n rho va  :
  eval (S n) rho va (ETrue) =
  ( ret [VBool true]).
Proof. exact_no_check (@eq_refl _ (eval (S n) rho va (ETrue))). Qed.

Lemma eval_S_false n rho va  :
  eval (S n) rho va (EFalse) =
  ( ret [VBool false]).
Proof. exact_no_check (@eq_refl _ (eval (S n) rho va (EFalse))). Qed.

Lemma eval_S_number n rho va x :
  eval (S n) rho va (ENumber x) =
  ( ret [VNum (number_value x)]).
Proof. exact_no_check (@eq_refl _ (eval (S n) rho va (ENumber x))). Qed.

Lemma eval_S_string n rho va s :
  eval (S n) rho va (EString s) =
  ( ret [VStr s]).
Proof. exact_no_check (@eq_refl _ (eval (S n) rho va (EString s))). Qed.

Lemma eval_S_varargs n rho va  :
  eval (S n) rho va (EVarArgs) =
  ( ret va).
Proof. exact_no_check (@eq_refl _ (eval (S n) rho va (EVarArgs))). Qed.

Lemma eval_S_ident n rho va x :
  eval (S n) rho va (EIdent x) =
  (      match lookup rho x with
      | Some a => v <- get_cell a ;; ret [v]
      | None =>
        v <- index n (VTable A_globals) (VStr x) ;;
        match v with
        | VNil => if is_ext_name x then ret [VExt x] else ret [VNil]
        | _ => ret [v]
        end
      end).
Proof. exact_no_check (@eq_refl _ (eval (S n) rho va (EIdent x))). Qed.

Lemma eval_S_field n rho va p f :
  eval (S n) rho va (EField p f) =
  ( o <- eval1 n rho va p ;; v <- index n o (VStr f) ;; ret [v]).
Proof. exact_no_check (@eq_refl _ (eval (S n) rho va (EField p f))). Qed.

Lemma eval_S_index n rho va p k :
  eval (S n) rho va (EIndex p k) =
  ( o <- eval1 n rho va p ;; kv <- eval1 n rho va k ;; v <- index n o kv ;; ret [v]).
Proof. exact_no_check (@eq_refl _ (eval (S n) rho va (EIndex p k))). Qed.

Lemma eval_S_call n rho va p m a :
  eval (S n) rho va (ECall p m a) =
  (      o <- eval1 n rho va p ;;
      match m with
      | None => args <- eval_args n rho va a ;; call n o args
      | Some mname =>
        f <- index n o (VStr mname) ;;
        args <- eval_args n rho va a ;;
        call n f (o :: args)
      end).
Proof. exact_no_check (@eq_refl _ (eval (S n) rho va (ECall p m a))). Qed.

Lemma eval_S_function n rho va f :
  eval (S n) rho va (EFunction f) =
  ( a <- new_closure (mkClosure f rho false) ;; ret [VClosure a]).
Proof. exact_no_check (@eq_refl _ (eval (S n) rho va (EFunction f))). Qed.

Lemma eval_S_if n rho va branches els :
  eval (S n) rho va (EIf branches els) =
  (      if_go d n rho va els branches).
Proof. exact_no_check (@eq_refl _ (eval (S n) rho va (EIf branches els))). Qed.

Lemma eval_S_paren n rho va e' :
  eval (S n) rho va (EParen e') =
  ( v <- eval1 n rho va e' ;; ret [v]).
Proof. exact_no_check (@eq_refl _ (eval (S n) rho va (EParen e'))). Qed.

Lemma eval_S_table n rho va entries :
  eval (S n) rho va (ETable entries) =
  ( a <- new_table (mkTable [] None) ;;
                        _ <- fill_table n rho va a entries 1 ;; ret [VTable a]).
Proof. exact_no_check (@eq_refl _ (eval (S n) rho va (ETable entries))). Qed.

Lemma eval_S_unary n rho va op e' :
  eval (S n) rho va (EUnary op e') =
  (      v <- eval1 n rho va e' ;;
      match op with
      | UNot => ret [VBool (negb (truthy v))]
      | UMinus =>
        match tonum v with
        | Some x => ret [VNum (fneg x)]
        | None =>
          h <- metamethod v "__unm" ;;
          match h with
          | VNil => fail 18
          | _ => vs <- call n h [v; v] ;; ret [first vs]
          end
        end
      | ULen => r <- length n v ;; ret [r]
      end).
Proof. exact_no_check (@eq_refl _ (eval (S n) rho va (EUnary op e'))). Qed.

Lemma eval_S_and n rho va l r :
  eval (S n) rho va (EBinary BAnd l r) =
  (a <- eval1 n rho va l ;; if truthy a then b <- eval1 n rho va r ;; ret [b] else ret [a]).
Proof. exact_no_check (@eq_refl _ (eval (S n) rho va (EBinary BAnd l r))). Qed.

Lemma eval_S_or n rho va l r :
  eval (S n) rho va (EBinary BOr l r) =
  (a <- eval1 n rho va l ;; if truthy a then ret [a] else b <- eval1 n rho va r ;; ret [b]).
Proof. exact_no_check (@eq_refl _ (eval (S n) rho va (EBinary BOr l r))). Qed.

Lemma eval_S_binop n rho va op l r : is_andor op = false ->
  eval (S n) rho va (EBinary op l r) =
  (a <- eval1 n rho va l ;; b <- eval1 n rho va r ;; binop_sem d n op a b).
Proof.
  destruct op; intros H; try discriminate H;
    match goal with |- ?x = _ => exact_no_check (@eq_refl _ x) end.
Qed.

Lemma eval_S_interp n rho va segs :
  eval (S n) rho va (EInterp segs) =
  (      interp_go d n rho va segs []).
Proof. exact_no_check (@eq_refl _ (eval (S n) rho va (EInterp segs))). Qed.

Lemma eval_S_typecast n rho va e' w1 :
  eval (S n) rho va (ETypeCast e' w1) =
  ( v <- eval1 n rho va e' ;; ret [v]).
Proof. exact_no_check (@eq_refl _ (eval (S n) rho va (ETypeCast e' w1))). Qed.

Lemma eval_S_typeinst n rho va p w1 :
  eval (S n) rho va (ETypeInst p w1) =
  ( v <- eval1 n rho va p ;; ret [v]).
Proof. exact_no_check (@eq_refl _ (eval (S n) rho va (ETypeInst p w1))). Qed.

Lemma eval1_S n (rho : env) (va : list value) (e : expr) :
  eval1 (S n) rho va e =
  ( vs <- eval n rho va e ;; ret (first vs)).
Proof. exact_no_check (@eq_refl _ (eval1 (S n) rho va e)). Qed.

Lemma eval_list_unf n (rho : env) (va : list value) (es : list expr) :
  eval_list (S n) rho va es =
  (    match es with
    | [] => ret []
    | [e] => eval n rho va e
    | e :: rest => v <- eval1 n rho va e ;; vs <- eval_list n rho va rest ;; ret (v :: vs)
    end).
Proof. exact_no_check (@eq_refl _ (eval_list (S n) rho va es)). Qed.

Lemma eval_args_unf n (rho : env) (va : list value) (a : args) :
  eval_args (S n) rho va a =
  (    match a with
    | ATuple es => eval_list n rho va es
    | AString s => ret [VStr s]
    | ATable entries => t <- new_table (mkTable [] None) ;;
                        _ <- fill_table n rho va t entries 1 ;; ret [VTable t]
    end).
Proof. exact_no_check (@eq_refl _ (eval_args (S n) rho va a)). Qed.

Lemma fill_table_unf n (rho : env) (va : list value) (a : N) (entries : list tentry) (pos : Z) :
  fill_table (S n) rho va a entries pos =
  (    match entries with
    | [] => ret tt
    | TField f e :: rest => v <- eval1 n rho va e ;; _ <- put a (VStr f) v ;; fill_table n rho va a rest pos
    | TIndex k e :: rest =>
      kv <- eval1 n rho va k ;; v <- eval1 n rho va e ;; _ <- put a kv v ;; fill_table n rho va a rest pos
    | [TValue e] => vs <- eval n rho va e ;; fill_go a vs pos
    | TValue e :: rest =>
      v <- eval1 n rho va e ;; _ <- put_pos a pos v ;; fill_table n rho va a rest (pos + 1)%Z
    end).
Proof. exact_no_check (@eq_refl _ (fill_table (S n) rho va a entries pos)). Qed.

Lemma exec_block_unf n (rho : env) (va : list value) (b : block) :
  exec_block (S n) rho va b =
  (    match b with
    | Block stmts last => exec_stmts n rho va stmts last
    end).
Proof. exact_no_check (@eq_refl _ (exec_block (S n) rho va b)). Qed.

Lemma exec_stmts_unf n (rho : env) (va : list value) (ss : list stmt) (last : option laststmt) :
  exec_stmts (S n) rho va ss last =
  (    match ss with
    | [] =>
      match last with
      | None => ret SigNone
      | Some LBreak => ret SigBreak
      | Some LContinue => ret SigContinue
      | Some (LReturn es) => vs <- eval_list n rho va es ;; ret (SigReturn vs)
      end
    | st :: rest =>
      '(rho', sg) <- exec_stmt n rho va st ;;
      match sg with
      | SigNone => exec_stmts n rho' va rest last
      | _ => ret sg
      end
    end).
Proof. exact_no_check (@eq_refl _ (exec_stmts (S n) rho va ss last)). Qed.

Lemma assign_target_unf n (rho : env) (tgt : (option N * value * value)) (v : value) :
  assign_target (S n) rho tgt v =
  (    match tgt with
    | (Some a, _, _) => set_cell a v
    | (None, o, k) => setindex n o k v
    end).
Proof. exact_no_check (@eq_refl _ (assign_target (S n) rho tgt v)). Qed.

Lemma eval_target_unf n (rho : env) (va : list value) (e : expr) :
  eval_target (S n) rho va e =
  (    match e with
    | EIdent x =>
      match lookup rho x with
      | Some a => ret (Some a, VNil, VNil)
      | None => ret (None, VTable A_globals, VStr x)
      end
    | EField p f => o <- eval1 n rho va p ;; ret (None, o, VStr f)
    | EIndex p k => o <- eval1 n rho va p ;; kv <- eval1 n rho va k ;; ret (None, o, kv)
    | _ => unsup 60
    end).
Proof. exact_no_check (@eq_refl _ (eval_target (S n) rho va e)). Qed.

Lemma exec_stmt_unf n (rho : env) (va : list value) (st : stmt) :
  exec_stmt (S n) rho va st =
  (    match st with
    | SAssign vars vals =>
      tgts <- targets_loop (eval_target n rho va) vars ;;
      vs <- eval_list n rho va vals ;;
      _ <- assign_loop (assign_target n rho) tgts vs ;;
      ret (rho, SigNone)
    | SDo b => sg <- exec_block n rho va b ;; ret (rho, sg)
    | SCall c => _ <- eval n rho va c ;; ret (rho, SigNone)
    | SCompound op var e =>
      t <- eval_target n rho va var ;;
      rhs <- eval1 n rho va e ;;
      cur <- (match t with
              | (Some a, _, _) => get_cell a
              | (None, o, k) => index n o k
              end) ;;
      r <- (match op with
            | BConcat => concat n cur rhs
            | _ => arith n op cur rhs
            end) ;;
      _ <- assign_target n rho t r ;;
      ret (rho, SigNone)
    | SFunction base fields method f =>
      c <- new_closure (mkClosure f rho (match method with Some _ => true | None => false end)) ;;
      let path := fields ++ (match method with Some m => [m] | None => [] end) in
      match path with
      | [] =>
        t <- eval_target n rho va (EIdent base) ;;
        _ <- assign_target n rho t (VClosure c) ;; ret (rho, SigNone)
      | _ =>
        o <- eval1 n rho va (EIdent base) ;;
        o <- path_loop (index n) o path ;;
        _ <- setindex n o (VStr (last path [])) (VClosure c) ;;
        ret (rho, SigNone)
      end
    | SLocal _ vars vals =>
      vs <- eval_list n rho va vals ;;
      rho' <- local_go vars vs rho ;;
      ret (rho', SigNone)
    | SLocalFunction x f =>
      a <- new_cell VNil ;;
      let rho' := (x, a) :: rho in
      c <- new_closure (mkClosure f rho' false) ;;
      _ <- set_cell a (VClosure c) ;;
      ret (rho', SigNone)
    | SIf branches els =>
      sg <- sif_loop (eval1 n rho va) (exec_block n rho va) els branches ;;
      ret (rho, sg)
    | SWhile c b => sg <- exec_while n rho va c b ;; ret (rho, sg)
    | SRepeat b c => sg <- exec_repeat n rho va b c ;; ret (rho, sg)
    | SNumericFor var start stop step b =>
      v0 <- eval1 n rho va start ;;
      v1 <- eval1 n rho va stop ;;
      v2 <- (match step with Some e => eval1 n rho va e | None => ret (VNum fone) end) ;;
      match tonum v0, tonum v1, tonum v2 with
      | Some x0, Some x1, Some x2 =>
        if is_nan x2 || is_zero x2 then unsup 61
        else sg <- exec_numfor n rho va (param_name var) x0 x1 x2 b ;; ret (rho, sg)
      | _, _, _ => fail 61
      end
    | SGenericFor vars es b =>
      vs <- eval_list n rho va es ;;
      match arg vs 0 with
      | VTable _ => unsup 62        
      | f => sg <- exec_genfor n rho va vars f (arg vs 1) (arg vs 2) b ;; ret (rho, sg)
      end
    | STypeDecl _ _ _ _ => ret (rho, SigNone)
    | STypeFunction _ _ _ => ret (rho, SigNone)
    end).
Proof. exact_no_check (@eq_refl _ (exec_stmt (S n) rho va st)). Qed.

Lemma exec_while_S n (rho : env) (va : list value) (c : expr) (b : block) :
  exec_while (S n) rho va c b =
  (    cv <- eval1 n rho va c ;;
    if truthy cv then
      sg <- exec_block n rho va b ;;
      match sg with
      | SigBreak => ret SigNone
      | SigReturn vs => ret sg
      | _ => exec_while n rho va c b
      end
    else ret SigNone).
Proof. exact_no_check (@eq_refl _ (exec_while (S n) rho va c b)). Qed.

Lemma exec_numfor_S n (rho : env) (va : list value) (x : name) (i stop step : f64) (b : block) :
  exec_numfor (S n) rho va x i stop step b =
  (    if (if fltb fzero step then fleb i stop else fleb stop i) then
      a <- new_cell (VNum i) ;;
      sg <- exec_block n ((x, a) :: rho) va b ;;
      match sg with
      | SigBreak => ret SigNone
      | SigReturn _ => ret sg
      | _ => exec_numfor n rho va x (fadd i step) stop step b
      end
    else ret SigNone).
Proof. exact_no_check (@eq_refl _ (exec_numfor (S n) rho va x i stop step b)). Qed.

Lemma exec_genfor_S n (rho : env) (va : list value) (vars : list param) (f s ctl : value) (b : block) :
  exec_genfor (S n) rho va vars f s ctl b =
  (    vs <- call n f [s; ctl] ;;
    match first vs with
    | VNil => ret SigNone
    | ctl' =>
      rho' <- local_go vars vs rho ;;
      sg <- exec_block n rho' va b ;;
      match sg with
      | SigBreak => ret SigNone
      | SigReturn _ => ret sg
      | _ => exec_genfor n rho va vars f s ctl' b
      end
    end).
Proof. exact_no_check (@eq_refl _ (exec_genfor (S n) rho va vars f s ctl b)). Qed.

End Unfold.
