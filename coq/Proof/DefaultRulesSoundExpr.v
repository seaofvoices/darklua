(** C01, expression-level rewrites that rest on the static evaluator (C08):
    compute_expression ([compute_replace_sound], [compute_andor_sound], the refuted multi-value
    position), the if-expression form of remove_unused_if_branch, convert_index_to_field,
    remove_function_call_parens.  The opening lemmas (single values, what C08 gives for an
    expression free of side effects) also serve the statement-level rules and the lowering rules
    (Proof/LoweringSound*.v). *)
From Coq Require Import ZArith NArith List Bool String Lia.
From Coq Require Import Floats.SpecFloat.
From DL Require Import Lib.Bytes Lib.F64 Lua.Syntax Lua.Sem Model.Evaluator Model.DefaultRules
  Lua.EvalSpec Lua.EvalSpec2 Proof.SemFacts Proof.EvaluatorStore Proof.EvaluatorF64 Proof.EvaluatorInv
  Proof.EvaluatorSound Proof.DefaultRulesSem Proof.LoweringFuel Proof.RefactorSem Proof.DefaultRulesSoundBlock.
Import ListNotations.
Open Scope N_scope.
Local Notation llen := List.length.

Lemma single_first (vs : list value) : llen vs = 1%nat -> vs = [first vs].
Proof. destruct vs as [|v [|w vs]]; try discriminate. reflexivity. Qed.

Lemma eval_of_eval1 d n rho va e s v s' : can_return_multiple_values e = false ->
  eval1 d (S n) rho va e s = Ok v s' -> eval d n rho va e s = Ok [v] s'.
Proof.
  intros Hc H. rewrite eval1_S in H. apply bind_ok in H as (vs & s1 & Hv & H). apply ret_ok in H as [-> ->].
  rewrite <- (single_first vs (single_sound _ _ _ _ _ _ _ _ Hc Hv)). exact Hv.
Qed.

(** [(e)] against [paren_if_multi e]: without the parentheses, [e] yields exactly its one
    value ([single_sound]) with less fuel *)
Lemma paren_step d n rho va e s vs s' :
  eval d n rho va (EParen e) s = Ok vs s' ->
  exists n', (n' <= n)%nat /\ eval d n' rho va (paren_if_multi e) s = Ok vs s'.
Proof.
  intros H. unfold paren_if_multi. destruct (can_return_multiple_values e) eqn:C; [exists n; split; [lia|exact H]|].
  fuel_S n H. rewrite eval_S_paren in H.
  apply bind_ok in H as (v & s1 & Hv & H). apply ret_ok in H as [-> ->].
  fuel_S n Hv. exists n. split; [lia|exact (eval_of_eval1 _ _ _ _ _ _ _ _ C Hv)].
Qed.

(** one value, then [ret [v]]: that is [(r)] one unit of fuel up *)
Lemma ret1_paren_if_multi d r n rho va s vs s' :
  (v <- eval1 d n rho va r ;; ret [v]) s = Ok vs s' ->
  exists n', eval d n' rho va (paren_if_multi r) s = Ok vs s'.
Proof.
  intros H. rewrite <- eval_S_paren in H. destruct (paren_step _ _ _ _ _ _ _ _ H) as (n' & _ & Hn'). eauto.
Qed.

Lemma pure_run1 d e n rho va s v s' :
  has_side_effects false e = false -> deep_safe d e = true -> env_plain s ->
  eval1 d n rho va e s = Ok v s' -> store_extends s s' /\ lv_ok s s' (evaluate e) v.
Proof.
  intros Hs Hd He H. apply eval1_inv in H as (m & vs & -> & Hv & ->). exact (pure_inv _ _ _ _ _ _ _ _ Hs Hd He Hv).
Qed.

Lemma pure_cond_run d c b n rho va s cv s1 :
  has_side_effects false c = false -> deep_safe d c = true -> env_plain s ->
  is_truthy (evaluate c) = Some b ->
  eval1 d n rho va c s = Ok cv s1 -> store_extends s s1 /\ truthy cv = b.
Proof.
  intros Hs Hd He Hb H. destruct (pure_run1 _ _ _ _ _ _ _ _ Hs Hd He H) as [Hext Hok].
  split; [exact Hext|exact (lv_ok_truthy _ _ _ _ _ Hok Hb)].
Qed.

(** a condition whose static value is known, all its table constructors having pure entries, is
    free of side effects ([known_pure]) *)
Lemma known_cond_run d c b n rho va s cv s1 :
  deep_safe d c = true -> ctor_pure d c = true -> env_plain s ->
  is_truthy (evaluate c) = Some b ->
  eval1 d n rho va c s = Ok cv s1 -> truthy cv = b.
Proof.
  intros Hd Hc He Hb H.
  exact (proj2 (pure_cond_run _ _ _ _ _ _ _ _ _ (known_pure d c Hc (truthy_known _ _ Hb)) Hd He Hb H)).
Qed.

(** the three kinds of node [Computer::replace_with] looks at yield exactly one value *)
Definition computable_shape (e : expr) : bool :=
  match e with EUnary _ _ | EBinary _ _ _ | EIf _ _ => true | _ => false end.

(** [l and r], [l or r]: the right operand is evaluated when the truthiness of the left one
    is that of the operator *)
Definition is_and (op : binop) : bool := match op with BAnd => true | _ => false end.

Lemma eval_S_andor d n rho va op l r s : (op = BAnd \/ op = BOr) ->
  eval d (S n) rho va (EBinary op l r) s =
  (a <- eval1 d n rho va l ;;
   if Bool.eqb (truthy a) (is_and op) then b <- eval1 d n rho va r ;; ret [b] else ret [a]) s.
Proof.
  intros [-> | ->]; [rewrite eval_S_and|rewrite eval_S_or];
    apply bind_eq; intros a s1 _; destruct (truthy a); cbn [Bool.eqb is_and]; reflexivity.
Qed.

Lemma computable_single d e n rho va s vs s' :
  computable_shape e = true -> eval d n rho va e s = Ok vs s' -> vs = [first vs].
Proof.
  intros Hc H. destruct (can_return_multiple_values e) eqn:Em.
  2:{ apply single_first. exact (single_sound _ _ _ _ _ _ _ _ Em H). }
  fuel_S n H. destruct e; try discriminate Hc; try discriminate Em.
  - rewrite eval_S_unary in H. apply bind_ok in H as (v & s1 & _ & H). destruct op.
    + inv_ok H. subst; reflexivity.
    + destruct (tonum v); [inv_ok H; subst; reflexivity|].
      apply bind_ok in H as (h & s2 & _ & H). destruct h; inv_ok H; subst; reflexivity.
    + inv_ok H. subst; reflexivity.
  - assert (is_andor op = false) as Eo by (destruct op; try discriminate Em; reflexivity).
    rewrite (eval_S_binop _ _ _ _ _ _ _ Eo) in H.
    apply bind_ok in H as (a & s1 & _ & H). apply bind_ok in H as (b & s2 & _ & H).
    unfold binop_sem in H. destruct op; try discriminate Eo; inv_ok H; subst; reflexivity.
Qed.

(** evaluation of the literals [LuaValue::to_expression] builds *)
Section Literals.
Variable d : dialect.
Variables (rho : env) (va : list value).

Lemma eval_dec n x s : valid x -> eval d (S n) rho va (dec x) s = Ok [VNum x] s.
Proof.
  intros Hv. unfold dec. rewrite eval_S_number. cbn [number_value].
  rewrite (of_to_bits _ Hv). reflexivity.
Qed.

Lemma eval1_dec n x s : valid x -> eval1 d (S (S n)) rho va (dec x) s = Ok (VNum x) s.
Proof. intros Hv. exact (eval1_of_eval _ _ _ _ _ _ _ _ (eval_dec n x s Hv)). Qed.

Lemma eval_neg_dec n x s : valid x ->
  eval d (S (S (S n))) rho va (EUnary UMinus (dec x)) s = Ok [VNum (fneg x)] s.
Proof.
  intros Hv. rewrite eval_S_unary. unfold bind. rewrite (eval1_dec _ _ _ Hv). reflexivity.
Qed.

Lemma eval1_neg_dec n x s : valid x ->
  eval1 d (S (S (S (S n)))) rho va (EUnary UMinus (dec x)) s = Ok (VNum (fneg x)) s.
Proof. intros Hv. exact (eval1_of_eval _ _ _ _ _ _ _ _ (eval_neg_dec n x s Hv)). Qed.

Lemma eval_div n a b x y s :
  eval1 d (S n) rho va a s = Ok (VNum x) s -> eval1 d (S n) rho va b s = Ok (VNum y) s ->
  eval d (S (S n)) rho va (EBinary BDiv a b) s = Ok [VNum (fdiv x y)] s.
Proof.
  intros Ha Hb. rewrite eval_S_binop by reflexivity. unfold bind. rewrite Ha, Hb.
  rewrite binop_sem_arith by discriminate. unfold bind. rewrite arith_S. reflexivity.
Qed.

Lemma valid_fzero : valid fzero. Proof. reflexivity. Qed.

Lemma lit_of_f64_eval x n s : valid x ->
  eval d (S (S (S (S (S n))))) rho va (lit_of_f64 x) s = Ok [VNum x] s.
Proof.
  intros Hv. destruct x as [sg|sg| |sg m e]; cbn [lit_of_f64].
  - apply eval_dec. exact Hv.
  - destruct sg.
    + rewrite (eval_div _ _ _ (fneg fone) fzero); [reflexivity| |].
      * apply eval1_neg_dec. apply valid_fone.
      * apply eval1_dec. apply valid_fzero.
    + rewrite (eval_div _ _ _ fone fzero); [reflexivity| |]; apply eval1_dec; (apply valid_fone || apply valid_fzero).
  - rewrite (eval_div _ _ _ fzero fzero); [reflexivity| |]; apply eval1_dec; apply valid_fzero.
  - destruct sg.
    + rewrite eval_neg_dec; [reflexivity|exact Hv].
    + apply eval_dec. exact Hv.
Qed.

Lemma lit_of_lv_eval s0 s1 v x lit n s :
  lit_of_lv v = Some lit -> lv_ok s0 s1 v x ->
  eval d (S (S (S (S (S n))))) rho va lit s = Ok [x] s.
Proof.
  intros Hl Hok. destruct v; cbn [lit_of_lv] in Hl; inversion Hl; subst; clear Hl.
  - destruct x; try contradiction. destruct b; [contradiction|]. reflexivity.
  - destruct x; try contradiction. reflexivity.
  - destruct x; try contradiction. cbn in Hok. destruct Hok as [<- Hv]. now apply lit_of_f64_eval.
  - destruct x; try contradiction. cbn in Hok. subst. reflexivity.
  - destruct x; try contradiction. destruct b; [|contradiction]. reflexivity.
Qed.

End Literals.

(** Replacing a side-effect-free [Unary]/[Binary]/[If] node whose static value is a
    boolean, nil, a string or a number by the literal of that value: the literal evaluates,
    in the ORIGINAL store and with any fuel >= 5, to exactly the value list of the node
    (numbers bit for bit); the node itself only added fresh allocations to the store. *)
Theorem compute_replace_sound : forall d e lit n rho va s vs s',
  computable_shape e = true ->
  has_side_effects false e = false -> deep_safe d e = true -> env_plain s ->
  lit_of_lv (evaluate e) = Some lit ->
  eval d n rho va e s = Ok vs s' ->
  store_extends s s' /\
  forall n', (5 <= n')%nat -> eval d n' rho va lit s = Ok vs s.
Proof.
  intros d e lit n rho va s vs s' Hc Hs Hd He Hl H.
  destruct (pure_inv _ _ _ _ _ _ _ _ Hs Hd He H) as [Hext Hok]. split; [exact Hext|].
  intros n' Hn. do 5 (destruct n' as [|n']; [lia|]).
  rewrite (computable_single _ _ _ _ _ _ _ _ Hc H).
  eapply lit_of_lv_eval; eauto.
Qed.

Lemma rw_compute_literal e lit :
  computable_shape e = true -> has_side_effects false e = false ->
  lit_of_lv (evaluate e) = Some lit -> rw_compute e = lit.
Proof.
  intros Hc Hs Hl. destruct e; try discriminate Hc; cbn [rw_compute]; unfold hse; rewrite Hs, Hl; reflexivity.
Qed.

Lemma rw_compute_andor op l r b :
  (op = BAnd \/ op = BOr) -> has_side_effects false (EBinary op l r) = true ->
  has_side_effects false l = false -> is_truthy (evaluate l) = Some b ->
  rw_compute (EBinary op l r) = if Bool.eqb b (is_and op) then r else l.
Proof.
  intros [-> | ->] Hs Hl Hb; cbn [rw_compute]; unfold hse; rewrite Hs, Hl, Hb; destruct b; reflexivity.
Qed.

(** In a single-value position the kept operand yields the value of the whole expression.
    When the right operand is kept, it runs in a store [s1] that differs from [s] only by the
    fresh allocations of the dropped left operand; when the left operand is kept the run is
    the same run. *)
Theorem compute_andor_sound : forall d op l r n rho va s vs s' b,
  (op = BAnd \/ op = BOr) ->
  has_side_effects false l = false -> deep_safe d l = true -> env_plain s ->
  is_truthy (evaluate l) = Some b ->
  eval d n rho va (EBinary op l r) s = Ok vs s' ->
  exists m, n = S m /\
    if Bool.eqb b (is_and op)
    then exists s1 v, store_extends s s1 /\ eval1 d m rho va r s1 = Ok v s' /\ vs = [v]
    else exists v, eval1 d m rho va l s = Ok v s' /\ vs = [v].
Proof.
  intros d op l r n rho va s vs s' b Hop Hs Hd He Hb H.
  fuel_S n H. exists n. split; [reflexivity|].
  rewrite (eval_S_andor _ _ _ _ _ _ _ _ Hop) in H. apply bind_ok in H as (a & s1 & Ha & H).
  destruct (pure_cond_run _ _ _ _ _ _ _ _ _ Hs Hd He Hb Ha) as [Hext Ht]. rewrite Ht in H.
  destruct (Bool.eqb b (is_and op)).
  - apply bind_ok in H as (v & s2 & Hv & H). inv_ok H. subst. eauto 6.
  - inv_ok H. subst. eauto.
Qed.

(** REFUTED in a multi-value position (recorded finding: [return true and f()] becomes
    [return f()]): the last expression of a list keeps all its values, and [rw_compute]
    does not parenthesise the kept operand. *)
Definition fb0 (blk : block) : fbody := FBody [] false None None None 0 blk.
Definition two_values : expr :=
  ECall (EParen (EFunction (fb0 (Block [] (Some (LReturn [ENumber (NDec (to_bits fone) None);
                                                          ENumber (NDec (to_bits (of_Z 2)) None)]))))))
        None (ATuple []).
Definition e_true_and_call : expr := EBinary BAnd ETrue two_values.

Theorem compute_multivalue_refuted : exists d n rho va s e vs s' vs2 s2,
  env_plain s /\
  eval_list d n rho va [e] s = Ok vs s' /\ eval_list d n rho va [rw_compute e] s = Ok vs2 s2 /\
  llen vs = 1%nat /\ llen vs2 = 2%nat.
Proof.
  set (s := initial_store []).
  set (r1 := eval_list L51 20 [] [] [e_true_and_call] s).
  set (r2 := eval_list L51 20 [] [] [rw_compute e_true_and_call] s).
  exists L51, 20%nat, [], [], s, e_true_and_call, (ok_vs r1), (ok_st s r1), (ok_vs r2), (ok_st s r2).
  split; [apply env_plain_initial|]. repeat split; vm_compute; reflexivity.
Qed.

(** the hypotheses of the two positive theorems are satisfiable *)
Example compute_replace_example :
  let e := EBinary BConcat (EString (of_string "a")) (EBinary BAdd (ENumber (NDec (to_bits fone) None)) (EString (of_string "2"))) in
  let s := initial_store [] in
  computable_shape e = true /\ has_side_effects false e = false /\ deep_safe L51 e = true /\ env_plain s /\
  lit_of_lv (evaluate e) = Some (EString (of_string "a3")) /\ rw_compute e = EString (of_string "a3") /\
  exists s', eval L51 20 [] [] e s = Ok [VStr (of_string "a3")] s'.
Proof.
  cbv zeta. repeat split; try (vm_compute; reflexivity); try apply env_plain_initial.
  eexists. vm_compute. reflexivity.
Qed.

Example compute_andor_example :
  let l := EBinary BEq (ENumber (NDec (to_bits fone) None)) (ENumber (NDec (to_bits fone) None)) in
  let r := ECall (EIdent (of_string "ext_f")) None (ATuple []) in
  let s := initial_store [[ONum 7]] in
  has_side_effects false (EBinary BAnd l r) = true /\
  has_side_effects false l = false /\ deep_safe Luau l = true /\ env_plain s /\
  is_truthy (evaluate l) = Some true /\ rw_compute (EBinary BAnd l r) = r /\
  exists s', eval Luau 20 [] [] (EBinary BAnd l r) s = Ok [VNum (of_bits 7)] s'.
Proof.
  cbv zeta. repeat split; try (vm_compute; reflexivity); try apply env_plain_initial.
  eexists. vm_compute. reflexivity.
Qed.

Lemma if_expr_known d c b r rest els n rho va s vs s' :
  has_side_effects false c = false -> deep_safe d c = true -> env_plain s ->
  is_truthy (evaluate c) = Some b ->
  eval d (S n) rho va (EIf (EBranch c r :: rest) els) s = Ok vs s' ->
  exists s1, store_extends s s1 /\
    (if b then v <- eval1 d n rho va r ;; ret [v] else if_go d n rho va els rest) s1 = Ok vs s'.
Proof.
  intros Hs Hd He Hb H. rewrite eval_S_if, if_go_cons in H.
  apply bind_ok in H as (cv & s1 & Hc & H).
  destruct (pure_cond_run _ _ _ _ _ _ _ _ _ Hs Hd He Hb Hc) as [Hext Ht]. rewrite Ht in H. eauto.
Qed.

(** [if c then r elseif ... else ...] with [c] free of side effects and statically truthy is
    replaced by [r] (parenthesised when [r] may yield several values): same value list, the
    result running in a store that differs from [s] by the fresh allocations of [c] only. *)
Theorem if_expr_true_sound : forall d c r rest els n rho va s vs s',
  has_side_effects false c = false -> deep_safe d c = true -> env_plain s ->
  is_truthy (evaluate c) = Some true ->
  eval d n rho va (EIf (EBranch c r :: rest) els) s = Ok vs s' ->
  rw_if_expr (EIf (EBranch c r :: rest) els) = paren_if_multi r /\
  exists s1 n', store_extends s s1 /\ eval d n' rho va (paren_if_multi r) s1 = Ok vs s'.
Proof.
  intros d c r rest els n rho va s vs s' Hs Hd He Hb H. split.
  { cbn [rw_if_expr]. destruct rest; cbn [simplify_if]; unfold hse; rewrite Hb, Hs; reflexivity. }
  fuel_S n H.
  destruct (if_expr_known _ _ _ _ _ _ _ _ _ _ _ _ Hs Hd He Hb H) as (s1 & Hext & H1).
  destruct (ret1_paren_if_multi _ _ _ _ _ _ _ _ H1) as [n' Hn']. eauto.
Qed.

(** statically falsy: the node behaves as the rest of the chain *)
Theorem if_expr_false_sound : forall d c r rest els n rho va s vs s',
  has_side_effects false c = false -> deep_safe d c = true -> env_plain s ->
  is_truthy (evaluate c) = Some false ->
  eval d n rho va (EIf (EBranch c r :: rest) els) s = Ok vs s' ->
  exists s1 n', store_extends s s1 /\
    eval d n' rho va (match rest with [] => paren_if_multi els | _ => EIf rest els end) s1 = Ok vs s'.
Proof.
  intros d c r rest els n rho va s vs s' Hs Hd He Hb H.
  fuel_S n H.
  destruct (if_expr_known _ _ _ _ _ _ _ _ _ _ _ _ Hs Hd He Hb H) as (s1 & Hext & H1).
  destruct rest as [|b2 rest].
  - rewrite if_go_nil in H1. destruct (ret1_paren_if_multi _ _ _ _ _ _ _ _ H1) as [n' Hn']. eauto.
  - exists s1, (S n). split; [exact Hext|]. rewrite eval_S_if. exact H1.
Qed.

Lemma rw_if_expr_false_step c r c2 r2 rest els :
  has_side_effects false c = false -> is_truthy (evaluate c) = Some false ->
  rw_if_expr (EIf (EBranch c r :: EBranch c2 r2 :: rest) els) = rw_if_expr (EIf (EBranch c2 r2 :: rest) els).
Proof. intros Hs Hb. cbn [rw_if_expr simplify_if]. unfold hse. rewrite Hb, Hs. reflexivity. Qed.

Example if_expr_example :
  let c := EUnary UNot ENil in
  let r := ECall (EIdent (of_string "ext_f")) None (ATuple []) in
  let e := EIf [EBranch c r] (EString (of_string "no")) in
  let s := initial_store [[ONum 1; ONum 2]] in
  has_side_effects false c = false /\ deep_safe L51 c = true /\ env_plain s /\
  is_truthy (evaluate c) = Some true /\ rw_if_expr e = EParen r /\
  exists s', eval L51 20 [] [] e s = Ok [VNum (of_bits 1)] s'.
Proof.
  cbv zeta. repeat split; try (vm_compute; reflexivity); try apply env_plain_initial.
  eexists. vm_compute. reflexivity.
Qed.

(** a string-literal key: whatever [p["x"]] yields (values, a Lua error, unsupported), [p.x]
    yields at the same fuel *)
Theorem index_to_field_literal_sound : forall d n rho va p str s r,
  eval d n rho va (EIndex p (EString str)) s = r -> r <> Fuel ->
  eval d n rho va (EField p str) s = r.
Proof.
  intros d n rho va p str s r H Hf. subst r.
  destruct n as [|n]; [exfalso; apply Hf; apply eval_0|].
  rewrite eval_S_index in *. rewrite eval_S_field. symmetry. apply bind_eq. intros o s1 Ep.
  unfold bind at 1 in Hf. rewrite Ep in Hf.
  destruct n as [|[|m]].
  - rewrite eval1_0 in Ep. discriminate.
  - exfalso. apply Hf. unfold bind at 1. rewrite eval1_S. unfold bind at 1. rewrite eval_0. reflexivity.
  - rewrite eval1_S, eval_S_string. apply (bind_bind_ret [VStr str] first).
Qed.

(** the general case: the key is free of side effects and statically the string [str].
    The run of [p[k]] is: the prefix ([o], [s1]), then the key, which yields exactly [VStr str]
    and only adds fresh allocations ([s2]), then [index o "str"] in [s2].  [p.str] is: the
    same prefix run, then [index o "str"] in [s1] ([eval_S_field]).  [env_plain] is required
    of the store in which the key is evaluated (after the prefix). *)
Theorem index_to_field_sound : forall d p k str n rho va s vs s',
  has_side_effects false k = false -> deep_safe d k = true -> evaluate k = LString str ->
  (forall m o s1, eval1 d m rho va p s = Ok o s1 -> env_plain s1) ->
  eval d n rho va (EIndex p k) s = Ok vs s' ->
  exists m o s1 s2 v,
    n = S m /\ eval1 d m rho va p s = Ok o s1 /\
    eval1 d m rho va k s1 = Ok (VStr str) s2 /\ store_extends s1 s2 /\
    index d m o (VStr str) s2 = Ok v s' /\ vs = [v] /\
    eval d n rho va (EField p str) s = (v <- index d m o (VStr str) ;; ret [v]) s1.
Proof.
  intros d p k str n rho va s vs s' Hs Hd Hk He H.
  fuel_S n H. rewrite eval_S_index in H.
  apply bind_ok in H as (o & s1 & Ho & H). apply bind_ok in H as (kv & s2 & Hkv & H).
  apply bind_ok in H as (v & s3 & Hv & H). inv_ok H. subst.
  destruct (pure_run1 _ _ _ _ _ _ _ _ Hs Hd (He _ _ _ Ho) Hkv) as [Hext Hok].
  rewrite Hk in Hok. destruct kv; try contradiction. cbn in Hok. subst s0.
  exists n, o, s1, s2, v.
  split; [reflexivity|]. split; [exact Ho|]. split; [exact Hkv|]. split; [exact Hext|].
  split; [exact Hv|]. split; [reflexivity|].
  rewrite eval_S_field. unfold bind at 1. rewrite Ho. reflexivity.
Qed.

(** when the prefix is a table that holds the key (no metamethod runs), both forms yield the
    same value list; the final store of [p.str] is the one of [p[k]] minus the key's fresh
    allocations *)
Theorem index_to_field_raw_sound : forall d p k str n rho va s vs s',
  has_side_effects false k = false -> deep_safe d k = true -> evaluate k = LString str ->
  (forall m o s1, eval1 d m rho va p s = Ok o s1 ->
     env_plain s1 /\ exists a t, o = VTable a /\ nth_N (tables s1) (N.to_nat a) = Some t /\
                                 raw_get (t_entries t) (VStr str) <> VNil) ->
  eval d n rho va (EIndex p k) s = Ok vs s' ->
  exists s1, eval d n rho va (EField p str) s = Ok vs s1 /\ store_extends s1 s'.
Proof.
  intros d p k str n rho va s vs s' Hs Hd Hk He H.
  destruct (index_to_field_sound _ _ _ _ _ _ _ _ _ _ Hs Hd Hk (fun m o s1 E => proj1 (He m o s1 E)) H)
    as (m & o & s1 & s2 & v & -> & Ho & Hkv & Hext & Hv & -> & Hf).
  destruct (He _ _ _ Ho) as (_ & a & t & -> & Ht & Hr).
  fuel_S m Hkv.
  assert (nth_N (tables s2) (N.to_nat a) = Some t) as Ht2.
  { destruct Hext as (_ & _ & _ & _ & Hx & _). eapply nth_N_extends; eauto. }
  rewrite (index_raw_hit d m a (VStr str) s2 t Ht2 Hr) in Hv. inversion Hv; subst; clear Hv.
  exists s1. split; [|exact Hext]. rewrite Hf. unfold bind.
  rewrite (index_raw_hit d m a (VStr str) s1 t Ht Hr). reflexivity.
Qed.

Example index_to_field_example :
  let k := EBinary BConcat (EString (of_string "ma")) (EString (of_string "th")) in
  let e := EIndex (EIdent (of_string "_G")) k in
  let s := initial_store [] in
  has_side_effects false k = false /\ deep_safe L51 k = true /\ evaluate k = LString (of_string "math") /\
  env_plain s /\ rw_index_to_field e = EField (EIdent (of_string "_G")) (of_string "math") /\
  exists s', eval L51 20 [] [] e s = Ok [VTable A_math] s'.
Proof.
  cbv zeta. repeat split; try (vm_compute; reflexivity); try apply env_plain_initial.
  eexists. vm_compute. reflexivity.
Qed.

(** [f("s")] and [f "s"]: the argument lists evaluate alike ... *)
Theorem call_parens_string_args : forall d n rho va str s r,
  eval_args d n rho va (ATuple [EString str]) s = r -> r <> Fuel ->
  eval_args d n rho va (AString str) s = r.
Proof.
  intros d n rho va str s r H Hf.
  destruct n as [|n]; [subst; exfalso; apply Hf; apply eval_args_0|]. rewrite eval_args_S_tuple in H.
  destruct n as [|n]; [subst; exfalso; apply Hf; apply eval_list_0|]. rewrite eval_list_S_one in H.
  destruct n as [|n]; [subst; exfalso; apply Hf; apply eval_0|]. rewrite eval_S_string in H.
  rewrite eval_args_S_string. exact H.
Qed.

Lemma call_args_ok d n rho va p m a a' s vs s' :
  (forall s0 args s1, eval_args d n rho va a s0 = Ok args s1 -> eval_args d n rho va a' s0 = Ok args s1) ->
  eval d (S n) rho va (ECall p m a) s = Ok vs s' -> eval d (S n) rho va (ECall p m a') s = Ok vs s'.
Proof.
  intros Ha H. rewrite eval_S_call in H. rewrite eval_S_call.
  apply bind_ok in H as (o & s1 & Ho & H). unfold bind at 1. rewrite Ho.
  destruct m as [mname|].
  - apply bind_ok in H as (f & s2 & Hf & H). unfold bind at 1. rewrite Hf.
    apply bind_ok in H as (args & s3 & Hargs & H). unfold bind at 1. rewrite (Ha _ _ _ Hargs). exact H.
  - apply bind_ok in H as (args & s3 & Hargs & H). unfold bind at 1. rewrite (Ha _ _ _ Hargs). exact H.
Qed.

(** ... and so do the calls, at the same fuel *)
Theorem call_parens_string_sound : forall d n rho va p m str s vs s',
  eval d n rho va (ECall p m (ATuple [EString str])) s = Ok vs s' ->
  rw_call_parens (ECall p m (ATuple [EString str])) = ECall p m (AString str) /\
  eval d n rho va (ECall p m (AString str)) s = Ok vs s'.
Proof.
  intros d n rho va p m str s vs s' H. split; [reflexivity|].
  fuel_S n H. eapply call_args_ok; [|exact H].
  intros s0 args s1 Ha. apply (call_parens_string_args _ _ _ _ _ _ _ Ha). discriminate.
Qed.

(** [f({...})] and [f {...}]: the same computation of the argument list, two units of fuel
    apart, for every outcome *)
Theorem call_parens_table_args : forall d n rho va ens s,
  eval_args d (S (S (S n))) rho va (ATuple [ETable ens]) s = eval_args d (S n) rho va (ATable ens) s.
Proof.
  intros. rewrite eval_args_S_tuple, eval_list_S_one, eval_S_table, eval_args_S_table. reflexivity.
Qed.

(** ... so, fuel being monotone, a call that succeeds in the first form succeeds in the second *)
Theorem call_parens_table_sound : forall d n rho va p m ens s vs s',
  eval d n rho va (ECall p m (ATuple [ETable ens])) s = Ok vs s' ->
  rw_call_parens (ECall p m (ATuple [ETable ens])) = ECall p m (ATable ens) /\
  eval d n rho va (ECall p m (ATable ens)) s = Ok vs s'.
Proof.
  intros d n rho va p m ens s vs s' H. split; [reflexivity|].
  fuel_S n H. eapply call_args_ok; [|exact H].
  intros s0 args s1 Ha.
  fuel_S n Ha. rewrite eval_args_S_tuple in Ha. fuel_S n Ha. rewrite eval_list_S_one in Ha.
  fuel_S n Ha. rewrite eval_S_table, <- eval_args_S_table in Ha. eapply eval_args_mono; [|exact Ha]. lia.
Qed.

Example call_parens_example :
  let e := ECall (EIdent (of_string "ext_f")) None (ATuple [EString (of_string "s")]) in
  let s := initial_store [[ONum 3]] in
  exists s', eval L51 20 [] [] e s = Ok [VNum (of_bits 3)] s' /\
             eval L51 20 [] [] (rw_call_parens e) s = Ok [VNum (of_bits 3)] s'.
Proof. cbv zeta. eexists. split; vm_compute; reflexivity. Qed.
