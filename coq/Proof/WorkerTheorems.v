(** C10: the top-level statements, a concrete instance showing the hypotheses are satisfiable
    by a transformation that really reads other files, and the refutations (recorded
    findings) showing each carve-out is needed. *)
From Coq Require Import Arith PeanoNat Lia.
From DL Require Import Lib.Bytes Model.WorkerFs Model.Worker Proof.WorkerBasics Proof.WorkerInv
     Proof.WorkerStep Proof.WorkerProcess Proof.WorkerMain.
Open Scope N_scope.

Section Top.
  Variable cfg : Type.
  Variable hash : cfg -> N.
  Variable xform : cfg -> path -> content -> fs -> option content * list path.
  Variable inp outp : path.

  Hypothesis io_disjoint1 : starts_with inp outp = false.
  Hypothesis io_disjoint2 : starts_with outp inp = false.
  Hypothesis hash_faithful : forall c1 c2, hash c1 = hash c2 ->
                                           forall q t f, xform c1 q t f = xform c2 q t f.
  Hypothesis xform_frame : forall c q t f f',
      fst (xform c q t f) <> None ->
      (forall d, In d (snd (xform c q t f)) -> fs_get f' d = fs_get f d) ->
      xform c q t f' = xform c q t f.
  Hypothesis deps_exist : forall c q t f d,
      fst (xform c q t f) <> None -> In d (snd (xform c q t f)) -> fs_get f d <> None.
  Hypothesis deps_outside : forall c q t f d,
      fst (xform c q t f) <> None -> In d (snd (xform c q t f)) -> starts_with outp d = false.

  Theorem incremental_eq_fresh f0 c_init h :
    paths_ok cfg inp outp f0 h = true ->
    reported cfg inp f0 (h ++ [Process]) = true ->
    dirs_ok cfg hash xform inp outp (mkWorld f0 c_init empty_tree) h = true ->
    always_healthy cfg xform inp f0 c_init (h ++ [Process]) = true ->
    exists w, run cfg hash xform inp outp (mkWorld f0 c_init empty_tree) (h ++ [Process]) = Running w /\
              forall p, fs_get (w_fs w) p =
                        fs_get (fresh cfg xform inp outp (final_cfg cfg c_init h) (user_fs cfg f0 h)) p.
  Proof.
    intros Hp Hr Hd Hh. destruct (paths_ok_facts cfg inp outp f0 h Hp) as [H1 [H2 [H3 H4]]].
    eapply incremental_eq_fresh_E; eassumption.
  Qed.

  Theorem no_panic f0 c_init h :
    paths_ok cfg inp outp f0 h = true ->
    reported cfg inp f0 h = true ->
    dirs_ok cfg hash xform inp outp (mkWorld f0 c_init empty_tree) h = true ->
    always_healthy cfg xform inp f0 c_init h = true ->
    exists w, run cfg hash xform inp outp (mkWorld f0 c_init empty_tree) h = Running w.
  Proof.
    intros Hp Hr Hd Hh. destruct (paths_ok_facts cfg inp outp f0 h Hp) as [H1 [H2 [H3 H4]]].
    eapply no_panic_E; eassumption.
  Qed.
End Top.

Definition t_inp : path := ["src"%string].
Definition t_out : path := ["out"%string].
Definition p_a : path := ["src"; "a.lua"]%string.
Definition p_main : path := ["src"; "app"; "main.lua"]%string.
Definition p_new : path := ["src"; "sub"; "new.lua"]%string.
Definition p_m : path := ["lib"; "m.lua"]%string.
Definition p_readme : path := ["out"; "README.md"]%string.
Definition p_out_a : path := ["out"; "a.lua"]%string.
Definition p_out_main : path := ["out"; "app"; "main.lua"]%string.

(** a text starting with byte 0 does not parse; [main.lua] inlines [lib/m.lua] and fails
    when it is missing (as the bundler does); the configuration is prepended to the output *)
Definition toy_broken (txt : content) : bool := match txt with 0 :: _ => true | _ => false end.

Definition toy_xform (c : N) (q : path) (txt : content) (f : fs) : option content * list path :=
  if toy_broken txt then (None, [])
  else if path_eqb q p_main then
    match fs_get f p_m with
    | Some mt => if toy_broken mt then (None, []) else (Some (c :: txt ++ mt), [p_m])
    | None => (None, [])
    end
  else (Some (c :: txt), []).

Definition toy_hash (c : N) : N := c.

Lemma toy_hash_faithful c1 c2 : toy_hash c1 = toy_hash c2 ->
                                forall q t f, toy_xform c1 q t f = toy_xform c2 q t f.
Proof. unfold toy_hash. intros -> q t f. reflexivity. Qed.

Lemma toy_xform_ok c q t f :
  fst (toy_xform c q t f) <> None ->
  (snd (toy_xform c q t f) = [] /\ forall f', toy_xform c q t f' = toy_xform c q t f) \/
  (snd (toy_xform c q t f) = [p_m] /\ fs_get f p_m <> None /\
   forall f', fs_get f' p_m = fs_get f p_m -> toy_xform c q t f' = toy_xform c q t f).
Proof.
  unfold toy_xform. destruct (toy_broken t); [intros H; destruct (H eq_refl)|].
  destruct (path_eqb q p_main); [|left; auto].
  destruct (fs_get f p_m) as [mt|] eqn:Em; [|intros H; destruct (H eq_refl)].
  destruct (toy_broken mt) eqn:Eb; [intros H; destruct (H eq_refl)|].
  intros _. right. split; [reflexivity|]. split; [discriminate|].
  intros f' ->. rewrite Eb. reflexivity.
Qed.

Lemma toy_frame c q t f f' :
  fst (toy_xform c q t f) <> None ->
  (forall d, In d (snd (toy_xform c q t f)) -> fs_get f' d = fs_get f d) ->
  toy_xform c q t f' = toy_xform c q t f.
Proof.
  intros H Hd. destruct (toy_xform_ok c q t f H) as [[_ Hx]|[Hs [_ Hx]]]; [apply Hx|].
  apply Hx, Hd. rewrite Hs. left. reflexivity.
Qed.

Lemma toy_deps_exist c q t f d :
  fst (toy_xform c q t f) <> None -> In d (snd (toy_xform c q t f)) -> fs_get f d <> None.
Proof.
  intros H Hd. destruct (toy_xform_ok c q t f H) as [[Hs _]|[Hs [He _]]]; rewrite Hs in Hd; [destruct Hd|].
  destruct Hd as [<-|[]]. exact He.
Qed.

Lemma toy_deps_outside c q t f d :
  fst (toy_xform c q t f) <> None -> In d (snd (toy_xform c q t f)) -> starts_with t_out d = false.
Proof.
  intros H Hd. destruct (toy_xform_ok c q t f H) as [[Hs _]|[Hs _]]; rewrite Hs in Hd; [destruct Hd|].
  destruct Hd as [<-|[]]. reflexivity.
Qed.

Definition toy_f0 : fs :=
  [(p_a, [1]); (p_main, [2]); (p_m, [3]); (p_readme, [9])].
Definition toy_w0 : world N := mkWorld toy_f0 0 empty_tree.
(** what [darklua_core::process] does first *)
Definition toy_init : list (event N) := [Snapshot; Collect; Process].

Definition toy_run := run N toy_hash toy_xform t_inp t_out.
Definition toy_fresh := fresh N toy_xform t_inp t_out.
Definition toy_reported := reported N t_inp toy_f0.
Definition toy_paths_ok := paths_ok N t_inp t_out toy_f0.
Definition toy_dirs_ok := dirs_ok N toy_hash toy_xform t_inp t_out toy_w0.
Definition toy_healthy := always_healthy N toy_xform t_inp toy_f0 0.

Theorem toy_incremental_eq_fresh h :
  toy_paths_ok h = true -> toy_reported (h ++ [Process]) = true -> toy_dirs_ok h = true ->
  toy_healthy (h ++ [Process]) = true ->
  exists w, toy_run toy_w0 (h ++ [Process]) = Running w /\
            forall p, fs_get (w_fs w) p = fs_get (toy_fresh (final_cfg N 0 h) (user_fs N toy_f0 h)) p.
Proof.
  apply (incremental_eq_fresh N toy_hash toy_xform t_inp t_out eq_refl eq_refl toy_hash_faithful
                              toy_frame toy_deps_exist toy_deps_outside).
Qed.

(** the hypotheses are satisfiable by a history that edits a source, edits a bundled file,
    removes a source, changes the configuration and adds a source in a new directory *)
Definition toy_history : list (event N) :=
  toy_init ++
  [FsWrite p_a [4]; SrcChanged p_a; Process;
   FsWrite p_m [5]; SrcChanged p_m;
   FsRemove p_a; RemoveSrc p_a; Process;
   SetCfg 7;
   FsWrite p_new [6]; Collect].

Example toy_history_in_scope :
  toy_paths_ok toy_history = true /\ toy_reported (toy_history ++ [Process]) = true /\
  toy_dirs_ok toy_history = true /\ toy_healthy (toy_history ++ [Process]) = true.
Proof. vm_compute. auto. Qed.

Example toy_history_result :
  exists w, toy_run toy_w0 (toy_history ++ [Process]) = Running w /\
            fs_get (w_fs w) p_out_main = Some [7; 2; 5] /\ fs_get (w_fs w) p_out_a = None /\
            fs_get (w_fs w) ["out"; "sub"; "new.lua"]%string = Some [7; 6] /\
            fs_get (w_fs w) p_readme = Some [9].
Proof. eexists. split; [vm_compute; reflexivity|]. vm_compute. auto. Qed.

Definition differs_from_fresh (h : list (event N)) : Prop :=
  exists w p, toy_run toy_w0 h = Running w /\
              fs_get (w_fs w) p <> fs_get (toy_fresh (final_cfg N 0 h) (user_fs N toy_f0 h)) p.

(** F1: a source that stops transforming keeps its old output (a fresh run writes nothing) *)
Definition h_stale : list (event N) :=
  toy_init ++ [FsWrite p_a [0; 1]; SrcChanged p_a].

Theorem stale_output_refuted :
  toy_paths_ok h_stale = true /\ toy_reported (h_stale ++ [Process]) = true /\
  toy_dirs_ok h_stale = true /\ toy_healthy (h_stale ++ [Process]) = false /\
  differs_from_fresh (h_stale ++ [Process]).
Proof.
  repeat split; try (vm_compute; reflexivity).
  eexists. exists p_out_a. split; [vm_compute; reflexivity|]. vm_compute. discriminate.
Qed.

(** F2: a dependency whose absence made the bundle fail is not registered, so the entry is
    not retried when the file comes back; every source is healthy at the last process *)
Definition h_unregistered : list (event N) :=
  toy_init ++ [FsRemove p_m; RemoveSrc p_m; Process; FsWrite p_m [8]; Collect].

Theorem failed_dependency_refuted :
  toy_paths_ok h_unregistered = true /\ toy_reported (h_unregistered ++ [Process]) = true /\
  toy_dirs_ok h_unregistered = true /\
  healthy N toy_xform t_inp (final_cfg N 0 h_unregistered) (user_fs N toy_f0 h_unregistered) = true /\
  toy_healthy (h_unregistered ++ [Process]) = false /\
  differs_from_fresh (h_unregistered ++ [Process]).
Proof.
  repeat split; try (vm_compute; reflexivity).
  eexists. exists p_out_main. split; [vm_compute; reflexivity|]. vm_compute. discriminate.
Qed.

(** F3: removing the directory of an item that has external dependencies leaves its node
    index registered; the next notification for that dependency panics *)
Definition h_panic : list (event N) :=
  toy_init ++ [FsRemoveDir ["src"; "app"]%string; RemoveSrc ["src"; "app"]%string; Process;
               FsWrite p_m [8]; SrcChanged p_m].

Theorem remove_directory_panic_refuted :
  toy_paths_ok h_panic = true /\ toy_reported h_panic = true /\ toy_healthy h_panic = true /\
  toy_dirs_ok h_panic = false /\ toy_run toy_w0 h_panic = Panicked.
Proof. repeat split; vm_compute; reflexivity. Qed.

(** F4: removing a directory does not restart the items that read a file inside it: the entry
    stays [DoneOk] with its old output although its dependency is gone *)
Definition h_dirdep : list (event N) :=
  toy_init ++ [FsRemoveDir ["lib"%string]; RemoveSrc ["lib"%string]].

Theorem remove_directory_dependents_refuted :
  toy_paths_ok h_dirdep = true /\ toy_reported (h_dirdep ++ [Process]) = true /\
  toy_dirs_ok h_dirdep = false /\
  differs_from_fresh (h_dirdep ++ [Process]) /\
  exists w, toy_run toy_w0 (h_dirdep ++ [Process]) = Running w /\
            map (fun it => (i_src it, i_st it)) (all_items (w_tree w)) = [(p_a, DoneOk); (p_main, DoneOk)].
Proof.
  repeat split; try (vm_compute; reflexivity).
  - eexists. exists p_out_main. split; [vm_compute; reflexivity|]. vm_compute. discriminate.
  - eexists. split; vm_compute; reflexivity.
Qed.

(** the contract is needed: an edit that is not reported is not picked up *)
Definition h_unreported : list (event N) := toy_init ++ [FsWrite p_a [4]].

Theorem unreported_refuted :
  toy_paths_ok h_unreported = true /\ toy_reported (h_unreported ++ [Process]) = false /\
  toy_dirs_ok h_unreported = true /\ toy_healthy (h_unreported ++ [Process]) = true /\
  differs_from_fresh (h_unreported ++ [Process]).
Proof.
  repeat split; try (vm_compute; reflexivity).
  eexists. exists p_out_a. split; [vm_compute; reflexivity|]. vm_compute. discriminate.
Qed.

(** removing a directory leaves alone the siblings whose name only starts like it *)
Definition p_sub_b : path := ["src"; "sub"; "b.lua"]%string.
Definition p_sub_file : path := ["src"; "sub.lua"]%string.
Definition p_sub_extra : path := ["src"; "sub_extra"; "x.lua"]%string.
Definition sib_f0 : fs := [(p_sub_b, [1]); (p_sub_file, [2]); (p_sub_extra, [3])].

Example remove_directory_keeps_siblings :
  exists w, run N toy_hash toy_xform t_inp t_out (mkWorld sib_f0 0 empty_tree)
                (toy_init ++ [FsRemoveDir ["src"; "sub"]%string; RemoveSrc ["src"; "sub"]%string; Process])
            = Running w /\
            map i_src (all_items (w_tree w)) = [p_sub_file; p_sub_extra] /\
            fs_get (w_fs w) ["out"; "sub.lua"]%string = Some [0; 2] /\
            fs_get (w_fs w) ["out"; "sub_extra"; "x.lua"]%string = Some [0; 3] /\
            fs_get (w_fs w) ["out"; "sub"; "b.lua"]%string = None.
Proof. eexists. split; [vm_compute; reflexivity|]. vm_compute. auto. Qed.
