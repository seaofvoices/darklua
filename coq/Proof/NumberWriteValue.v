(** The written text of a number node keeps the node's value: the theorems behind the per-run
    oracle of [Model/NumberValue.v] ([value_kept]) for the arms of the writer modelled in
    [Model/NumberWrite.v]. *)
From Coq Require Import ZArith NArith List Bool Lia Zpower.
From Coq Require Import Floats.SpecFloat.
From DL Require Import Lib.Bytes Lib.F64 Lua.Syntax Model.NumberLit Model.NumberWrite Model.NumberValue.
From DL Require Import Proof.EvaluatorF64 Proof.SerializerF64 Proof.NumberWrite.
Import ListNotations.
Open Scope N_scope.

Lemma text_value_0 r : text_value (48 :: r) = option_map lit_value (from_str (48 :: r)).
Proof. reflexivity. Qed.

Lemma roundtrip_value_kept n r : from_str (48 :: r) = Some n -> value_kept n (48 :: r) = true.
Proof. intros H. unfold value_kept. rewrite text_value_0, H. apply same_f64_refl. Qed.

Theorem write_hex_value_kept : forall v u e, v < 2 ^ 64 ->
  (forall ex up, e = Some (ex, up) -> ex < 2 ^ 32) ->
  value_kept (NHex v u e) (write_hex v u e) = true.
Proof. intros v u e Hv He. exact (roundtrip_value_kept _ _ (write_hex_roundtrip v u e Hv He)). Qed.

Theorem write_bin_value_kept : forall v u, v < 2 ^ 64 ->
  value_kept (NBin v u) (write_bin v u) = true.
Proof. intros v u Hv. exact (roundtrip_value_kept _ _ (write_bin_roundtrip v u Hv)). Qed.

Theorem write_nonfinite_value_kept : forall bits ex t,
  (of_bits bits = S754_nan \/ exists s, of_bits bits = S754_infinity s) ->
  write_number_model (NDec bits ex) = Some t ->
  value_kept (NDec bits ex) t = true.
Proof.
  intros bits ex t H Hw. unfold write_number_model in Hw. unfold value_kept. cbn [lit_value].
  destruct H as [H|[s H]]; rewrite H in *.
  - injection Hw as <-. reflexivity.
  - injection Hw as <-. destruct s; reflexivity.
Qed.

(** an optional minus sign and a digit: not one of the parenthesised spellings, and a numeral *)
Lemma text_value_dec_head (c : N) (r : bytes) (neg : bool) : 48 <= c /\ c <= 57 ->
  text_value ((if neg then [45] else []) ++ c :: r) =
  option_map lit_value (from_str ((if neg then [45] else []) ++ c :: r)).
Proof.
  intros Hc.
  destruct neg;
    destruct (digit_cases c Hc) as [->|[->|[->|[->|[->|[->|[->|[->|[->| ->]]]]]]]]]; reflexivity.
Qed.

Lemma text_value_write_dec_int neg m :
  text_value (write_dec_int neg m) = option_map lit_value (from_str (write_dec_int neg m)).
Proof.
  unfold write_dec_int.
  pose proof (fmt_radix_dec_digits m) as HD. pose proof (fmt_radix_nonempty 10 m) as Hne.
  destruct (fmt_radix 10 m) as [|c r]; [congruence|].
  apply text_value_dec_head. apply HD. left. reflexivity.
Qed.

Lemma text_value_dec_int neg m :
  text_value (write_dec_int neg m) =
  Some (of_bits (to_bits (if neg then fneg (of_N m) else of_N m))).
Proof.
  rewrite text_value_write_dec_int, from_str_write_dec_int. cbn [option_map lit_value].
  rewrite of_decimal_c_int. reflexivity.
Qed.

Lemma sg_of_N_pos (neg : bool) p : (Z.pos p < 9007199254740992)%Z ->
  (if neg then fneg (of_N (N.pos p)) else of_N (N.pos p)) =
  S754_finite neg (fst (small_repr p)) (snd (small_repr p)).
Proof.
  intros H. unfold of_N. cbn [Z.of_N]. rewrite of_Z_pos_small by assumption.
  destruct neg; reflexivity.
Qed.

Lemma write_model_small (neg : bool) p : (Z.pos p < 9007199254740992)%Z ->
  write_number_model
    (NDec (to_bits (S754_finite neg (fst (small_repr p)) (snd (small_repr p)))) None) =
  Some (write_dec_int neg (N.pos p)).
Proof.
  intros Hp. unfold write_number_model.
  rewrite of_to_bits
    by (unfold valid; cbn [valid_binary]; apply small_repr_bounded; assumption).
  pose proof (digits_le_53 p Hp) as Hd.
  unfold small_repr.
  destruct (53 - Z.pos (digits2_pos p))%Z as [|k|k] eqn:E; cbn [fst snd]; [| |lia].
  - cbv beta iota zeta. change (0 <=? 0)%Z with true. cbv iota.
    rewrite Z.pow_0_r, Z.mul_1_r.
    destruct (Z.ltb_spec (Z.pos p) 9007199254740992%Z); [reflexivity|lia].
  - cbv beta iota zeta. change (0 <=? - Z.pos k)%Z with false. cbv iota.
    change (- - Z.pos k)%Z with (Z.pos k).
    rewrite shift_pos_correct. change (Zpower_pos 2 k) with (2 ^ Z.pos k)%Z.
    assert (Hnz : (2 ^ Z.pos k <> 0)%Z) by (apply Z.pow_nonzero; lia).
    rewrite (Z.mul_comm (2 ^ Z.pos k)), Z.mod_mul, Z.div_mul by assumption.
    reflexivity.
Qed.

Theorem write_dec_int_value_kept : forall (neg : bool) m, m < 2 ^ 53 ->
  write_number_model (NDec (to_bits (if neg then fneg (of_N m) else of_N m)) None)
    = Some (write_dec_int neg m) /\
  value_kept (NDec (to_bits (if neg then fneg (of_N m) else of_N m)) None) (write_dec_int neg m) = true.
Proof.
  intros neg m Hm. split.
  - destruct m as [|p].
    + destruct neg; reflexivity.
    + change (2 ^ 53) with 9007199254740992 in Hm.
      rewrite sg_of_N_pos by lia. apply write_model_small. lia.
  - unfold value_kept. rewrite text_value_dec_int. cbn [lit_value]. apply same_f64_refl.
Qed.

Print Assumptions write_hex_value_kept.
Print Assumptions write_bin_value_kept.
Print Assumptions write_nonfinite_value_kept.
Print Assumptions write_dec_int_value_kept.
