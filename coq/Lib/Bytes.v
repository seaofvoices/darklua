(** Bytes and byte strings: [byte := N] (values below 256), strings are [list N].
    Hex transport encoding used by the correspondence check ([unhex]/[tohex]). *)
From Coq Require Export List NArith Bool Lia String Ascii.
Export ListNotations.
Open Scope N_scope.

Definition byte := N.
Definition bytes := list N.

Definition is_byte (b : N) : bool := b <? 256.
Definition wf_bytes (s : bytes) : bool := forallb is_byte s.

Fixpoint bytes_eqb (a b : bytes) : bool :=
  match a, b with
  | [], [] => true
  | x :: a', y :: b' => (x =? y) && bytes_eqb a' b'
  | _, _ => false
  end.

Lemma bytes_eqb_eq a b : bytes_eqb a b = true <-> a = b.
Proof.
  revert b; induction a as [|x a IH]; intros [|y b]; cbn [bytes_eqb]; split; intros H;
    try reflexivity; try discriminate.
  - apply andb_true_iff in H as [H1 H2]. apply N.eqb_eq in H1. apply IH in H2. congruence.
  - inversion H; subst. rewrite N.eqb_refl. apply IH. reflexivity.
Qed.

Lemma bytes_eqb_refl a : bytes_eqb a a = true.
Proof. apply bytes_eqb_eq. reflexivity. Qed.

Lemma bytes_eqb_neq a b : a <> b -> bytes_eqb a b = false.
Proof.
  intros H. destruct (bytes_eqb a b) eqn:E; [|reflexivity].
  apply bytes_eqb_eq in E. contradiction.
Qed.

(** ASCII helpers *)
Definition of_ascii (c : ascii) : N := N_of_ascii c.
Fixpoint of_string (s : string) : bytes :=
  match s with
  | EmptyString => []
  | String c s' => of_ascii c :: of_string s'
  end.
Fixpoint to_string (b : bytes) : string :=
  match b with
  | [] => EmptyString
  | x :: b' => String (ascii_of_N x) (to_string b')
  end.

Definition hexdigit (n : N) : N := if n <? 10 then 48 + n else 87 + n.
Definition unhexdigit (c : N) : N :=
  if (48 <=? c) && (c <=? 57) then c - 48
  else if (97 <=? c) && (c <=? 102) then c - 87
  else if (65 <=? c) && (c <=? 70) then c - 55 else 0.

Fixpoint unhex_b (s : bytes) : bytes :=
  match s with
  | h :: l :: s' => (unhexdigit h * 16 + unhexdigit l) :: unhex_b s'
  | _ => []
  end.
Definition unhex (s : string) : bytes := unhex_b (of_string s).

Fixpoint tohex_b (b : bytes) : bytes :=
  match b with
  | [] => []
  | x :: b' => hexdigit (x / 16) :: hexdigit (x mod 16) :: tohex_b b'
  end.
Definition tohex (b : bytes) : string := to_string (tohex_b b).

(** decimal rendering of a natural number, most significant digit first *)
Fixpoint dec_digits_fuel (fuel : nat) (n : N) (acc : bytes) : bytes :=
  match fuel with
  | O => acc
  | S f => if n <? 10 then (48 + n) :: acc
           else dec_digits_fuel f (n / 10) ((48 + n mod 10) :: acc)
  end.
Definition dec_digits (n : N) : bytes := dec_digits_fuel (S (N.to_nat (N.log2 n))) n [].

Definition is_digit (c : N) : bool := (48 <=? c) && (c <=? 57).

Fixpoint prefix_b (p s : bytes) : bool :=
  match p, s with
  | [], _ => true
  | x :: p', y :: s' => (x =? y) && prefix_b p' s'
  | _ :: _, [] => false
  end.

Lemma prefix_b_app p w : prefix_b p (p ++ w) = true.
Proof. induction p as [|x p IH]; cbn [prefix_b app]; [reflexivity|]. rewrite N.eqb_refl. exact IH. Qed.

(** [find_sub p s]: does [p] occur in [s] as a contiguous sub-list *)
Fixpoint find_sub (p s : bytes) : bool :=
  prefix_b p s ||
  match s with
  | [] => false
  | _ :: s' => find_sub p s'
  end.

Lemma prefix_b_length p s : prefix_b p s = true -> (List.length p <= List.length s)%nat.
Proof.
  revert s; induction p as [|x p IH]; intros s H; cbn [List.length]; [lia|].
  destruct s as [|y s]; cbn [prefix_b] in H; [discriminate|].
  apply andb_true_iff in H as [_ H]. apply IH in H. cbn [List.length]. lia.
Qed.

Lemma find_sub_length p s : find_sub p s = true -> (List.length p <= List.length s)%nat.
Proof.
  induction s as [|y s IH]; cbn [find_sub]; intros H.
  - rewrite orb_false_r in H. exact (prefix_b_length _ _ H).
  - apply orb_true_iff in H as [H|H]; [exact (prefix_b_length _ _ H)|].
    apply IH in H. cbn [List.length]. lia.
Qed.

Fixpoint ends_with_b (s : bytes) (c : N) : bool :=
  match s with
  | [] => false
  | [x] => x =? c
  | _ :: s' => ends_with_b s' c
  end.

Definition count_b (c : N) (s : bytes) : nat := List.length (filter (N.eqb c) s).

(** lexicographic order on byte strings (C locale) *)
Fixpoint bytes_ltb (a b : bytes) : bool :=
  match a, b with
  | [], [] => false
  | [], _ :: _ => true
  | _ :: _, [] => false
  | x :: a', y :: b' => if x <? y then true else if y <? x then false else bytes_ltb a' b'
  end.
Definition bytes_leb (a b : bytes) : bool := negb (bytes_ltb b a).
